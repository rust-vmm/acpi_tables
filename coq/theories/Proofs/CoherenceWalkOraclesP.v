(* Coherence of the oracles that WALK the observed images with the theorems of Props/C05.v and Props/C03.v: on every
   well-formed case whose history is in the part of the Spec's domain its model covers (<t>_covers: CoherenceAddP.v for the ten
   addition tables and for HEST RQSC SLIT) the oracle ACCEPTS the model's own observation stream.  Both are
   instances of walk_coherent (CoherenceTablesP.v); the per-table statements are in Props/CoherenceWalk.v.

   C05  c05_oracle (Spec/Layout.v), PPTT 16, RHCT 17, RIMT 18, VIOT 19: every observed image is the reference image (the C04 part)
        and EVERY handle the model has returned so far is, in EVERY later observed image, the offset at which the Spec walker
        finds the entry of the operation that returned it (pend_in, and the <t>_model_handles theorems of Proofs/HandleModelP.v
        applied at every observed prefix).
   C03  oracle 3 = c03_full_oracle && c03_extra_oracle (Judge.v).  At every observation c03_full_oracle asks c03_judge (the walk
        from the first-entry offset finds the (type, length) list of the entries added so far, lands on the end, count fields
        hold) and c03_self (every entry is consistent with itself); c03_extra_oracle asks the nested walk of the RQSC and the
        count-and-matrix shape of the SLIT.  c03_judge reads ts_entries, not ts_image: it judges an observation even where the
        Spec has no reference image, so the proof needs every observation to be the reference image of a covered prefix, of
        which <t>_reference_tiles and <t>_selfcheck speak: that is what the closure under prefixes in <t>_covers gives. *)
From Coq Require Import NArith List Bool.
From ACPI Require Import Lib.Sx Impl.Table Impl.Run Spec.Layout Judge Spec.SlitS Spec.RqscS Spec.HestS Spec.RqscWalkS
  Spec.SlitShapeS Proofs.TableP Proofs.FixedP Proofs.Tables Proofs.SlitRefP Proofs.RqscRefP Proofs.WalkRefTablesP Proofs.HestSelfP
  Proofs.RqscWalkP Proofs.SlitShapeP Proofs.RefCommonP Proofs.CoherenceWalkP Proofs.CoherenceTablesP Proofs.CoherenceAddP.
Import ListNotations.
Open Scope N_scope.

(* c05_handles_ok accepts pending handles each of which the walk of the image finds at its operation's index *)
Lemma c05_handles_ok_intro ts first eh img pending :
  ts_walk ts = Some (first, eh) ->
  (forall h k, In (h, k) pending ->
     exists found ty off len, walk (S (length img)) eh first (skipn first img) = Some found /\
                              nth_error found k = Some (ty, off, len) /\ N.of_nat off = h) ->
  c05_handles_ok ts img pending = true.
Proof.
  intros Hwalk Hx. unfold c05_handles_ok. destruct pending as [|[h0 k0] L]; [reflexivity|]. rewrite Hwalk.
  destruct (Hx h0 k0 (or_introl eq_refl)) as (found & _ & _ & _ & Hw & _). rewrite Hw.
  apply forallb_forall. intros [h k] Hin. destruct (Hx h k Hin) as (found' & ty & off & len & Hw' & Hnth & Hh).
  rewrite Hw in Hw'. injection Hw' as <-. cbn [fst snd]. rewrite Hnth. apply N.eqb_eq. exact Hh.
Qed.

Section HandleTable.
  Variable T : addtable.
  Variable spec : tspec.
  Variable first : nat.
  Variable eh : ehdr.
  Hypothesis C : fits_covers (fun _ => T) spec (at_new T).
  Hypothesis Hwalk : ts_walk spec = Some (first, eh).
  Hypothesis Hhandles : forall md ctor pre o post r,
    ts_image spec ctor (pre ++ o :: post) = Some r -> N.of_nat (length r) < 2 ^ 32 ->
    exists s0 s s1 s' h found,
      at_new T ctor = Some s0 /\ run_adds (at_entry T) md s0 pre = Some s /\
      add_step (at_entry T) md s o = Some (s1, [EvNum h]) /\ run_adds (at_entry T) md s1 post = Some s' /\
      tbl_image s' = r /\
      walk (S (length (tbl_image s'))) eh first (skipn first (tbl_image s')) = Some found /\
      length found = length (pre ++ o :: post) /\
      exists ty off len, nth_error found (length pre) = Some (ty, off, len) /\
        h = if ts_returns spec o then N.of_nat off else 0.

  Let step (md : mode) := add_step (at_entry T) md.

  (* the heart: every handle the model returned along the history p is the offset of its entry in p's reference image *)
  Lemma h_ref_handles : forall md ctor p r s0 s1,
    ts_image spec ctor p = Some r -> fits32 r -> all_lists p ->
    at_new T ctor = Some s0 -> run_steps (step md) s0 p = Some s1 -> Some (tbl_image s1) = Some r ->
    c05_handles_ok spec r (pend (step md) (ts_returns spec) s0 0 p []) = true.
  Proof.
    intros md ctor p r s0 s1 Ht Hf Hl Hn Hs Hi. apply (c05_handles_ok_intro spec first eh r _ Hwalk). intros h k Hin.
    destruct (pend_in (step md) (add_step_one _ md) (ts_returns spec) p s0 0%nat [] h k Hl Hin)
      as [[]|(pre & o & post & sk & sk1 & -> & -> & Hr & Hst & Hret)].
    destruct (Hhandles md ctor pre o post r Ht Hf)
      as (s0' & s' & s1' & sf' & h' & found & Hn' & Hrp & Hst' & _ & Himg & Hw & _ & ty & off & len & Hnth & Hh).
    rewrite Hn in Hn'. injection Hn' as <-.
    rewrite run_adds_run_steps in Hrp. fold (step md) in Hrp. rewrite Hr in Hrp. injection Hrp as <-.
    fold (step md) in Hst'. rewrite Hst in Hst'. injection Hst' as <- <-.
    rewrite Himg in Hw. exists found, ty, off, len. rewrite Hret in Hh. auto.
  Qed.

  Theorem c05_coherent md ctor ops r :
    markers_ok ops = true -> ts_image spec ctor (real_ops ops) = Some r -> N.of_nat (length r) < 2 ^ 32 ->
    let c := SL (ctor :: ops) in
    c05_oracle spec c (run_history (fun s => Some (tbl_image s)) (add_step (at_entry T) md) (at_new T) c) = true.
  Proof.
    exact (walk_coherent C (ts_returns spec) (c04_judge spec) (c05_handles_ok spec) (fun c p r H _ => c04_judge_ref spec c p r H)
             h_ref_handles md ctor ops r).
  Qed.
End HandleTable.
Arguments c05_coherent {T spec first eh}.

(* the judgement c03_full_oracle asks at every observation *)
Definition c03_obs_judge (comp : N) (ctor : sx) (img : list N) (prefix : list sx) : bool :=
  c03_judge (spec_of comp) ctor img prefix && (if (comp =? 21) && shows_alone prefix then true else c03_self comp img).

Definition no_handles (_ : list N) (_ : list (N * nat)) : bool := true.

Lemma c03_full_oracle_eq comp ctor ops evs :
  c03_full_oracle comp (SL (ctor :: ops)) evs
  = judge_history (ts_returns (spec_of comp)) (c03_obs_judge comp ctor) no_handles [] ops evs [].
Proof. reflexivity. Qed.

(* c03_full_oracle for a model that covers its Spec *)
Lemma c03_covered comp {S : Type} {new : sx -> option S} {step image cov} (C : covers (spec_of comp) new step image cov) :
  (forall ctor p r, ts_image (spec_of comp) ctor p = Some r -> cov p r -> c03_obs_judge comp ctor r p = true) ->
  forall md ctor ops r,
    markers_ok ops = true -> ts_image (spec_of comp) ctor (real_ops ops) = Some r -> cov (real_ops ops) r ->
    c03_full_oracle comp (SL (ctor :: ops)) (run_history image (step md) new (SL (ctor :: ops))) = true.
Proof.
  intros Hj md ctor ops r. rewrite c03_full_oracle_eq.
  exact (walk_coherent C _ (c03_obs_judge comp) no_handles Hj (fun _ _ _ _ _ _ _ _ _ _ _ _ => eq_refl) md ctor ops r).
Qed.

(* outside the HEST: the walk (<t>_reference_tiles) and the self-check (<t>_selfcheck) of a reference image *)
Lemma c03_obs_ok comp ctor r p :
  (comp =? 21) = false -> c03_judge (spec_of comp) ctor r p = true -> c03_self comp r = true -> c03_obs_judge comp ctor r p = true.
Proof. intros Hne Hj Hs. unfold c03_obs_judge. rewrite Hne, Hj, Hs. reflexivity. Qed.

(* the components whose c03_extra_oracle judges nothing and whose every observation shows the table *)
Definition c03_plain : list N := [10; 11; 12; 13; 15; 16; 17; 18; 19; 20].

Lemma c03_table comp {S : Type} {new : sx -> option S} {step image cov} (C : covers (spec_of comp) new step image cov) :
  existsb (N.eqb comp) c03_plain = true ->
  (forall ctor p r, ts_image (spec_of comp) ctor p = Some r -> cov p r -> c03_judge (spec_of comp) ctor r p = true) ->
  (forall ctor p r, ts_image (spec_of comp) ctor p = Some r -> c03_self comp r = true) ->
  forall md ctor ops r,
    markers_ok ops = true -> ts_image (spec_of comp) ctor (real_ops ops) = Some r -> cov (real_ops ops) r ->
    oracle 3 comp (SL (ctor :: ops)) (run_history image (step md) new (SL (ctor :: ops))) = true.
Proof.
  intros Hp Hj Hs md ctor ops r Hm Ht Hc.
  assert (E : (comp =? 21) = false /\ forall c e, oracle 3 comp c e = c03_full_oracle comp c e && true).
  { apply existsb_exists in Hp. destruct Hp as (k & Hin & Hk). apply N.eqb_eq in Hk. subst k. cbn [In c03_plain] in Hin.
    repeat (destruct Hin as [<-|Hin]; [split; reflexivity|]). destruct Hin. }
  destruct E as [Hne E]. rewrite E, andb_true_r.
  exact (c03_covered comp C
           (fun c p r1 H Hc1 => c03_obs_ok comp c r1 p Hne (Hj c p r1 H Hc1) (Hs c p r1 H)) md ctor ops r Hm Ht Hc).
Qed.

(* [oracle 3] on the other three table components, in its two halves *)
Ltac split_oracle3 comp :=
  match goal with
  | |- oracle 3 _ ?c ?e = true =>
      change (c03_full_oracle comp c e && c03_extra_oracle comp c e = true); apply andb_true_intro; split
  end.

(* HEST: histories of additions (no stand-alone structures), as in hest_covers *)
Theorem hest_c03_coherent md ctor ops r :
  markers_ok ops = true -> forallb (fun o => negb (is_alone_op o)) (real_ops ops) = true ->
  ts_image hest_spec ctor (real_ops ops) = Some r -> N.of_nat (length r) < 2 ^ 32 ->
  oracle 3 21 (SL (ctor :: ops)) (run_case md 21 (SL (ctor :: ops))) = true.
Proof.
  intros Hm Hna Ht Hf. split_oracle3 21; [|reflexivity].
  apply (c03_covered 21 hest_covers) with (r := r); [|exact Hm|exact Ht|exact (conj Hna Hf)].
  intros c p r1 H [Hw _]. unfold c03_obs_judge. rewrite (no_alone_shows p Hw).
  change (spec_of 21) with hest_spec. rewrite (hest_reference_tiles c p r1 H), (hest_selfcheck c p r1 H (no_alone_shows p Hw)).
  reflexivity.
Qed.

(* RQSC: the generic walk over the controllers (c03_full_oracle) and the nested walk (c03_extra_oracle) *)
Theorem rqsc_c03_coherent md ctor ops r :
  markers_ok ops = true -> ts_image rqsc_spec ctor (real_ops ops) = Some r -> N.of_nat (length r) < 2 ^ 32 ->
  oracle 3 22 (SL (ctor :: ops)) (run_case md 22 (SL (ctor :: ops))) = true.
Proof.
  intros Hm Ht Hf. split_oracle3 22.
  - exact (c03_covered 22 rqsc_covers
             (fun c p r H _ => c03_obs_ok 22 c r p eq_refl (rqsc_reference_tiles c p r H) (rqsc_selfcheck c p r H))
             md ctor ops r Hm Ht Hf).
  - apply (walk_coherent rqsc_covers (fun _ => false) (fun _ => rqsc_nested_judge) no_handles) with (r := r); try assumption.
    + intros c p r1 H Hf1. destruct (rqsc_refines md c p r1 H Hf1) as (s0 & s & Hn & Hr & <-).
      exact (rqsc_nested_judge_model md c p s0 s Hn Hr).
    + intros. reflexivity.
Qed.

(* SLIT: no walker (c03_full_oracle judges nothing); the count-and-matrix shape (c03_extra_oracle) *)
Theorem slit_c03_coherent md ctor ops r :
  markers_ok ops = true -> ts_image slit_spec ctor (real_ops ops) = Some r ->
  oracle 3 14 (SL (ctor :: ops)) (run_case md 14 (SL (ctor :: ops))) = true.
Proof.
  intros Hm Ht. split_oracle3 14.
  - exact (c03_covered 14 slit_covers (fun _ _ _ _ _ => eq_refl) md ctor ops r Hm Ht I).
  - apply (walk_coherent slit_covers (fun _ => false) (fun ctor img _ => slit_shape_judge ctor img) no_handles) with (r := r); try assumption;
      [|reflexivity|exact I].
    intros c p r1 H _. destruct (slit_refines md c p r1 H) as (s0 & s & Hn & Hr & <-).
    destruct (slit_domain _ _ _ H) as (o & t & r0 & n & h & -> & _).
    exact (slit_shape_judge_model md o t r0 n p s0 s Hn Hr).
Qed.
