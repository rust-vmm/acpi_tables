(* Framing.  A PkgLength produced by create_pkg_length delimits exactly the body it was computed for (shared by C06 / C10 /
   C15); alternative construction paths give identical bytes (C15).
   C07 at the call sites: every constructor of the term model that emits a length-prefixed object produces
   opcode ++ PkgLength ++ body where the PkgLength decodes, by the specification's rule, to the distance from its own
   first byte to the end of the object, has the specification's lead-byte format and is the shortest that can include
   its own size.  (create_pkg_length itself: PkgLenP.) *)
From Coq Require Import NArith List Lia Arith.
From ACPI Require Import Lib.Bytes Lib.Sx Lib.Machine Impl.AmlCore Impl.AmlTerm Spec.AmlCoreS
  Proofs.PkgLenP.
Import ListNotations.
Open Scope N_scope.

Lemma encs_loop md l :
  (fix encs (l : list term) : option (list N) :=
     match l with [] => Some [] | x :: r => do a <- enc md x; do b <- encs r; Some (a ++ b) end) l = opt_concat_map (enc md) l.
Proof. induction l as [|x l IH]; [reflexivity|]. cbn [opt_concat_map]. rewrite IH. reflexivity. Qed.

(* the lead byte announces the number of follow bytes *)
Lemma lead_ok_width e : lead_ok e -> exists b0 rest, e = b0 :: rest /\ N.to_nat (b0 / 64) = length rest.
Proof.
  destruct e as [|b0 [|b1 rest]]; cbn [lead_ok]; intros H; [contradiction| |].
  - exists b0, []. split; [reflexivity|]. rewrite N.div_small by lia. reflexivity.
  - destruct H as (H1 & _ & _). exists b0, (b1 :: rest). split; [reflexivity|]. rewrite H1. apply Nat2N.id.
Qed.

Lemma take_pkg_framed md body pl r :
  N.of_nat (length body) < 2 ^ 63 ->        (* a Vec<u8> never exceeds isize::MAX bytes *)
  pkg_len md (N.of_nat (length body)) true = Some pl ->
  take_pkg (pl ++ body ++ r) = Some (body, r).
Proof.
  intros Hn H.
  destruct (pkg_len_incl_correct md (N.of_nat (length body)) pl Hn H) as (Hd & Hl & _).
  destruct (lead_ok_width pl Hl) as (b0 & rest & -> & Hw).
  unfold take_pkg. cbn [app]. cbn [app] in Hd. rewrite Hd.
  rewrite Hw.
  replace (N.to_nat (N.of_nat (length body) + N.of_nat (length (b0 :: rest))) - S (length rest))%nat with (length body)
    by (cbn [length]; lia).
  assert (E1 : Nat.ltb (N.to_nat (N.of_nat (length body) + N.of_nat (length (b0 :: rest)))) (S (length rest)) = false)
    by (apply Nat.ltb_ge; cbn [length]; lia).
  assert (E2 : Nat.ltb (length (body ++ r)) (length body) = false) by (apply Nat.ltb_ge; rewrite app_length; lia).
  rewrite E1, E2. cbn [orb]. rewrite firstn_app_exact, skipn_app_exact. reflexivity.
Qed.

Lemma framed_inv md op body b :
  framed md op body = Some b -> exists pl, pkg_len md (N.of_nat (length body)) true = Some pl /\ b = op ++ pl ++ body.
Proof. unfold framed. destruct (pkg_len md _ true) as [pl|]; [|discriminate]. intros H. injection H as <-. eauto. Qed.

(* an emitted object as its reader meets it: after the opcode, the Spec's splitter cuts out exactly the body *)
Lemma framed_take md op body b :
  framed md op body = Some b -> N.of_nat (length b) < 2 ^ 63 ->
  exists pl, b = op ++ pl ++ body /\ forall r, take_pkg (pl ++ body ++ r) = Some (body, r).
Proof.
  intros H Hb. destruct (framed_inv md op body b H) as (pl & E & ->). exists pl. split; [reflexivity|].
  intros r. apply (take_pkg_framed md); [rewrite !app_length in Hb; lia|exact E].
Qed.

(* a Buffer with literal data: the declared size is the number of data bytes *)
Lemma buffer_data_decode md data b r :
  buffer_data md data = Some b -> N.of_nat (length b) < 2 ^ 63 ->
  buffer_decode (b ++ r) = Some (N.of_nat (length data), data, r).
Proof.
  intros H Hb. destruct (framed_take md _ _ b H Hb) as (pl & -> & Ht).
  assert (Hn : N.of_nat (length data) < 2 ^ 64) by (rewrite !app_length in Hb; lia).
  unfold buffer_decode. cbn [app]. rewrite <- app_assoc, Ht, enc_usize_spec, int_decode_spec_int by exact Hn. reflexivity.
Qed.

Lemma scope_raw_eq md p ks : enc md (TScopeRaw p ks) = enc md (TScope p ks).
Proof.
  cbn [enc]. destruct (enc_path_text p) as [ep|]; [|reflexivity]. cbn [option_bind].
  rewrite encs_loop. destruct (opt_concat_map (enc md) ks) as [eks|]; [|reflexivity].
  cbn [option_bind]. unfold framed. cbn [app length firstn skipn].
  replace (S (length (ep ++ eks)) - 1)%nat with (length (ep ++ eks)) by lia.
  destruct (pkg_len md (N.of_nat (length (ep ++ eks))) true); reflexivity.
Qed.

Lemma pkg_builder_eq md ks : enc md (TPkgBuilder ks) = enc md (TPackage ks).
Proof.
  cbn [enc]. rewrite encs_loop. destruct (opt_concat_map (enc md) ks) as [eks|].
  - cbn [option_bind]. destruct (assert (N.of_nat (length ks) <=? 255)); [|reflexivity].
    cbn [option_bind]. unfold framed. cbn [length].
    replace (N.of_nat (S (length eks))) with (N.of_nat (length eks) + 1) by lia.
    destruct (pkg_len md (N.of_nat (length eks) + 1) true); reflexivity.
  - cbn [option_bind]. destruct (assert (N.of_nat (length ks) <=? 255)); reflexivity.
Qed.

Lemma usize_u64_eq md n : n < 2 ^ 64 -> enc md (TInt 0 n) = enc md (TInt 64 n).
Proof.
  intros H. cbn [enc enc_int]. unfold enc_usize, cast, U64. rewrite N.mod_small by exact H. reflexivity.
Qed.

Lemma str_string_same b : term_of_sx (SL [SA 5; b]) = term_of_sx (SL [SA 6; b]).
Proof. reflexivity. Qed.

Definition well_framed (op b : list N) : Prop :=
  exists pl body,
    b = op ++ pl ++ body /\
    (forall r, pkg_decode (pl ++ body ++ r) = Some (N.of_nat (length pl + length body), body ++ r)) /\
    lead_ok pl /\
    (forall w, (1 <= w < length pl)%nat -> pkg_cap w < N.of_nat (length body) + N.of_nat w).

Lemma framed_well md op body b :
  framed md op body = Some b -> N.of_nat (length b) < 2 ^ 63 -> well_framed op b.
Proof.
  intros H Hb. destruct (framed_inv md op body b H) as (pl & E & ->).
  assert (Hn : N.of_nat (length body) < 2 ^ 63) by (rewrite !app_length in Hb; lia).
  destruct (pkg_len_incl_correct md _ pl Hn E) as (Hd & Hl & Hm).
  exists pl, body. split; [reflexivity|]. split; [|split; [exact Hl|exact Hm]].
  intros r. rewrite Hd. f_equal. f_equal. lia.
Qed.

(* the opcode of the length-prefixed object a constructor emits (None: the constructor emits no PkgLength of its own);
   [TOp1 4] is BufferTerm, [TOp1 5] VarPackageTerm *)
Definition frame_op (t : term) : option (list N) :=
  match t with
  | TBufData _ | TUuid _ | TResTemplate _ => Some [0x11]
  | TOp1 4 _ => Some [0x11]
  | TOp1 5 _ => Some [0x13]
  | TDevice _ _ => Some [0x5B; 0x82]
  | TScope _ _ | TScopeRaw _ _ => Some [0x10]
  | TMethod _ _ _ _ => Some [0x14]
  | TPowerRes _ _ _ _ => Some [0x5B; 0x84]
  | TField _ _ _ _ _ => Some [0x5B; 0x81]
  | TPackage _ | TPkgBuilder _ => Some [0x12]
  | TIf _ _ => Some [0xA0]
  | TElse _ => Some [0xA1]
  | TWhile _ _ => Some [0xA2]
  | _ => None
  end.

(* peel the option binds off a hypothesis  .. = Some b : each bound computation succeeded, with an equation for its value *)
Ltac binds H :=
  repeat match type of H with
         | option_bind ?x _ = Some _ => let E := fresh "E" in destruct x eqn:E; cbn [option_bind] in H; [|discriminate H]
         end.

Lemma restemplate_framed md ks :
  enc md (TResTemplate ks) = (do e <- opt_concat_map (enc md) ks; buffer_data md (e ++ [0x79; 0])).
Proof.
  cbn [enc].
  rewrite encs_loop. destruct (opt_concat_map (enc md) ks) as [eks|]; [|reflexivity].
  cbn [option_bind]. unfold buffer_data, framed. rewrite (app_length (enc_usize _)).
  rewrite (Nat.add_comm (length (enc_usize _))). reflexivity.
Qed.

Theorem frame_sites md t op b :
  frame_op t = Some op -> enc md t = Some b -> N.of_nat (length b) < 2 ^ 63 -> well_framed op b.
Proof.
  intros Hop He Hb.
  (* Scope::raw, PackageBuilder and ResourceTemplate frame by hand: bring them to the form of the others; then every
     listed constructor is [framed] of some body under the listed opcode *)
  destruct t; cbn [frame_op] in Hop; try discriminate Hop;
    rewrite ?scope_raw_eq, ?pkg_builder_eq, ?restemplate_framed in He; cbn [enc] in He; cbv zeta in He;
    unfold uuid_enc, buffer_data in He; binds He.
  all: try solve [injection Hop as <-; eapply framed_well; eassumption].
  (* left: TOp1, framed only as BufferTerm (code 4) and VarPackageTerm (code 5) *)
  destruct k as [|[[[]|[]|]|[[]|[]|]|]]; try discriminate Hop; injection Hop as <-; eapply framed_well; eassumption.
Qed.
