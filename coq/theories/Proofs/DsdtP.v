(* AML inside a generic table -- how a VMM builds its DSDT: the bytes an AML tree serialises to, pushed through the Sdt sink
   (one append::<u8> per byte) or appended as one slice, give one and the same table image; that image has the right size,
   sums to 0, carries its size in the Length field, keeps the caller's header, and its body -- everything after the old
   table -- is byte for byte the AML stream, which the Spec parser reads back as exactly the tree the caller built.
   Composition of C13 (Proofs/SdtP.v), C14 (Proofs/Sink2P.v) and C06 (Proofs/AmlRoundTrip.v); nothing is reproved. *)
From Coq Require Import NArith List Lia Arith.
From ACPI Require Import Lib.Bytes Impl.Sink Impl.Sdt Impl.Sink2 Impl.AmlTerm Spec.Layout Spec.AmlTermS
  Proofs.SdtP Proofs.Sink2P Proofs.AmlRoundTrip Proofs.SdtHistP Proofs.BaseP.
Import ListNotations.
Open Scope N_scope.

Lemma skipn_sappend v bs : (36 <= length v)%nat -> skipn (length v) (sappend v bs) = bs.
Proof.
  intros H. apply (nth_ext _ _ 0 0).
  - rewrite skipn_length, length_sappend by lia. lia.
  - intros i _. rewrite nth_skipn'. rewrite nth_sappend by (try exact H; lia).
    rewrite app_nth2 by lia. f_equal. lia.
Qed.

Lemma header_sappend v bs i : (36 <= length v)%nat -> (i < length v)%nat -> i <> 9%nat -> ~ (4 <= i < 8)%nat ->
  nth i (sappend v bs) 0 = nth i v 0.
Proof. intros H Hi H9 H48. rewrite nth_sappend by assumption. now apply app_nth1. Qed.

Record payload_image (v b img : list N) : Prop := {
  pi_length : length img = (length v + length b)%nat;
  pi_sum : sum8 img = 0;
  pi_length_field : field_at img 4 4 = N.of_nat (length img);
  pi_payload : skipn (length v) img = b;                      (* the payload is intact ... *)
  pi_header : forall i, (i < length v)%nat -> i <> 9%nat -> ~ (4 <= i < 8)%nat -> nth i img 0 = nth i v 0
                                                               (* ... and only Length and Checksum moved in the old bytes *)
}.

Lemma sappend_payload_image v b : (36 <= length v)%nat -> N.of_nat (length v + length b) < 2 ^ 32 ->
  payload_image v b (sappend v b).
Proof.
  intros H Hsz. constructor.
  - apply length_sappend. lia.
  - now apply sum8_sappend.
  - now apply length_field_sappend_size.
  - now apply skipn_sappend.
  - intros i Hi H9 H48. now apply header_sappend.
Qed.

(* every way of delivering b -- one append_slice; byte by byte through the sink; any chunking of it into sink calls --
   ends in the same image *)
Lemma deliver_payload md v b : (36 <= length v)%nat -> N.of_nat (length v + length b) < 2 ^ 32 ->
  exists img,
    sdt_append_slice md v b = Some img /\
    (bytes_ok b = true -> b <> [] ->
       sdt_sink_vec md v b = Some img /\ forall tr, flatten tr = b -> run_sdt md v tr = Some img) /\
    payload_image v b img.
Proof.
  intros H Hsz. exists (sappend v b). assert (H64 : N.of_nat (length v + length b) < 2 ^ 64) by lia. split; [|split].
  - apply append_slice_refines; [exact H|lia].
  - intros Hb Hne. split; [now apply sink_vec_refines|].
    intros tr <-. now apply run_sdt_sappend.
  - now apply sappend_payload_image.
Qed.

Theorem dsdt_composition : forall env t md b v0,
  wf env false t -> enc md t = Some b -> bytes_ok b = true ->
  (36 <= length v0)%nat -> N.of_nat (length v0 + length b) < 2 ^ 32 ->
  exists img g,
    sdt_sink_vec md v0 b = Some img /\ sdt_append_slice md v0 b = Some img /\
    (forall tr, flatten tr = b -> run_sdt md v0 tr = Some img) /\
    payload_image v0 b img /\
    norm false t = Some g /\
    forall f, (depth t < f)%nat -> parse env f false (skipn (length v0) img) = Some (g, []).
Proof.
  intros env t md b v0 Hwf Henc Hb H36 Hsz.
  assert (H63 : N.of_nat (length b) < 2 ^ 63).
  { change (2 ^ 32) with 4294967296 in Hsz. change (2 ^ 63) with 9223372036854775808. lia. }
  destruct (roundtrip env t false md b Hwf Henc H63) as (g & Hg & Hrt).
  assert (Hne : b <> []).
  { intros ->. specialize (Hrt (S (depth t)) (Nat.lt_succ_diag_r _) []). cbn [app] in Hrt.
    rewrite parse_nil in Hrt. discriminate. }
  destruct (deliver_payload md v0 b H36 Hsz) as (img & Happ & Hsink & Himg).
  destruct (Hsink Hb Hne) as [Hvec Htr].
  exists img, g. split; [exact Hvec|split; [exact Happ|split; [exact Htr|split; [exact Himg|split; [exact Hg|]]]]].
  intros f Hf. rewrite (pi_payload _ _ _ Himg). rewrite <- (app_nil_r b) at 1. now apply Hrt.
Qed.

Theorem dsdt_body_composition : forall env ks md b v0,
  Forall (wf env false) ks -> encs md ks = Some b -> bytes_ok b = true -> b <> [] ->
  (36 <= length v0)%nat -> N.of_nat (length v0 + length b) < 2 ^ 32 ->
  exists img gs,
    sdt_sink_vec md v0 b = Some img /\ sdt_append_slice md v0 b = Some img /\
    (forall tr, flatten tr = b -> run_sdt md v0 tr = Some img) /\
    payload_image v0 b img /\
    norms false ks = Some gs /\
    forall f, (depths ks < f)%nat ->
      parse_all (parse env f) (length img - length v0) false (skipn (length v0) img) = Some gs.
Proof.
  intros env ks md b v0 Hwf Henc Hb Hne H36 Hsz.
  assert (H63 : N.of_nat (length b) < 2 ^ 63).
  { change (2 ^ 32) with 4294967296 in Hsz. change (2 ^ 63) with 9223372036854775808. lia. }
  assert (HRT : Forall (RT env) ks) by (apply Forall_forall; intros x _; apply roundtrip).
  destruct (kids_rt env md false ks HRT Hwf b Henc H63) as (es & gs & -> & Hgs & _ & Hall).
  destruct (deliver_payload md v0 (concat es) H36 Hsz) as (img & Happ & Hsink & Himg).
  destruct (Hsink Hb Hne) as [Hvec Htr].
  exists img, gs. split; [exact Hvec|split; [exact Happ|split; [exact Htr|split; [exact Himg|split; [exact Hgs|]]]]].
  intros f Hf. rewrite (pi_payload _ _ _ Himg), (pi_length _ _ _ Himg).
  apply parse_all_concat; [intros el; apply parse_nil|now apply Hall|lia].
Qed.

Corollary dsdt_from_new : forall env t md b c v0,
  sdt_new c = Some v0 -> wf env false t -> enc md t = Some b -> bytes_ok b = true ->
  N.of_nat (length v0 + length b) < 2 ^ 32 ->
  exists img g,
    sdt_sink_vec md v0 b = Some img /\ sdt_append_slice md v0 b = Some img /\
    payload_image v0 b img /\ norm false t = Some g /\
    forall f, (depth t < f)%nat -> parse env f false (skipn (length v0) img) = Some (g, []).
Proof.
  intros env t md b c v0 Hnew Hwf Henc Hb Hsz. destruct (sdt_new_sums_to_zero c v0 Hnew) as [_ [H36 _]].
  destruct (dsdt_composition env t md b v0 Hwf Henc Hb H36 Hsz) as (img & g & H1 & H2 & _ & H3 & H4 & H5).
  now exists img, g.
Qed.
