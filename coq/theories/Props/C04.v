(* C04 -- caller values land at their specification offsets (image = reference encoding). Statements only.
   Generic part: every reference layout that passes the contiguity check decodes, with the independent field decoder, to
   exactly the values it was assembled from.  Per-structure part: the implementation model's serialisation equals the
   reference layout; each theorem is proved in the structure's Proofs/<T>RefP.v (the fixed-layout structures: Proofs/FixedRefP.v;
   the MADT structures built by a constructor alone: by computation, here). *)
From Coq Require Import NArith List.
From ACPI Require Import Lib.Bytes Lib.Sx Lib.Machine Impl.Fields Impl.Table Impl.Madt Spec.Layout Spec.MadtS Proofs.TableP Proofs.WalkP Proofs.MadtP.
From ACPI Require Import Impl.Mcfg Impl.Xsdt Impl.Srat Spec.McfgS Spec.XsdtS Spec.SratS
  Proofs.MadtRefP Proofs.McfgRefP Proofs.XsdtRefP Proofs.SratRefP Proofs.FadtRefP Proofs.RsdpRefP Proofs.FixedRefP.
From ACPI Require Import Impl.Rhct Impl.Viot Impl.Rimt Spec.RhctS Spec.ViotS Spec.RimtS Proofs.RhctRefP Proofs.ViotRefP Proofs.RimtRefP.
From ACPI Require Import Impl.Cedt Impl.Rqsc Impl.Hest Spec.CedtS Spec.RqscS Spec.HestS Proofs.RqscP Proofs.HestP Proofs.CedtRefP Proofs.RqscRefP Proofs.HestRefP.
From ACPI Require Import Impl.Pptt Impl.Hmat Impl.Slit Spec.PpttS Spec.HmatS Spec.SlitS Proofs.FixedP Proofs.PpttRefP Proofs.HmatRefP Proofs.SlitRefP.
From ACPI Require Import Impl.Fadt Impl.Spcr Impl.Bert Impl.Tpm2 Impl.Rsdp Impl.Facs
  Spec.FadtS Spec.SpcrS Spec.BertS Spec.Tpm2S Spec.RsdpS Spec.FacsS.
From ACPI Require Import Impl.Misc Spec.MiscS Proofs.MiscP.
Import ListNotations.
Open Scope N_scope.

Theorem c04_reference_layouts_decode :
  forall size l img, lay size l = Some img ->
    length img = size /\ forall o w v, In (o, w, v) l -> field_at img o w = v mod 2 ^ (8 * N.of_nat w).
Proof. exact lay_decodes. Qed.

Theorem c04_madt_structures :
  (forall uid id en, madt_entry_ref (SL [SA 1; SA uid; SA id; SA en]) = Some (ser_flds (local_apic uid id en))) /\
  (forall id addr gsi, madt_entry_ref (SL [SA 2; SA id; SA addr; SA gsi]) = Some (ser_flds (io_apic id addr gsi))) /\
  (forall id base ver, madt_entry_ref (SL [SA 4; SA id; SA base; SA ver]) = Some (ser_flds (gicd id base ver))) /\
  (forall base len, madt_entry_ref (SL [SA 6; SA base; SA len]) = Some (ser_flds (gicr base len))) /\
  (forall id base, madt_entry_ref (SL [SA 7; SA id; SA base]) = Some (ser_flds (gic_its id base))) /\
  (forall st hart uid ext ib isz,
      madt_entry_ref (SL [SA 8; SA st; SA hart; SA uid; SA ext; SA ib; SA isz]) = Some (ser_flds (rintc st hart uid ext ib isz))) /\
  (forall a b c d e g, madt_entry_ref (SL [SA 9; SA a; SA b; SA c; SA d; SA e; SA g]) = Some (ser_flds (imsic a b c d e g))).
Proof. repeat split; intros; reflexivity. Qed.

(* ------------------------------------------------------------------------------------------------
   Refinement: for EVERY constructor argument and EVERY finite history inside the reference's domain (ts_image = Some r), in
   both build modes, the implementation model accepts the history and its image is byte for byte the reference image r.
   [*_ops_wf] / [*_ctor_bytes] restrict the exchange language only (a builder list contains builder calls; the elements of a
   byte-array argument are bytes): no Rust caller can violate them; the [_refuted] examples in the proof files show that
   they are needed as long as the case language can express such inputs. *)
Theorem c04_madt_refines :
  forall md ctor ops r,
    ts_image madt_spec ctor ops = Some r -> madt_ops_wf ops -> N.of_nat (length r) < 2 ^ 32 ->
    exists s0 s, madt_new ctor = Some s0 /\ run_adds madt_addition md s0 ops = Some s /\ tbl_image s = r.
Proof. exact madt_refines. Qed.

Theorem c04_mcfg_refines :
  forall md ctor ops r,
    ts_image mcfg_spec ctor ops = Some r -> N.of_nat (length r) < 2 ^ 32 ->
    exists s0 s, mcfg_new ctor = Some s0 /\ run_adds mcfg_addition md s0 ops = Some s /\ tbl_image s = r.
Proof. exact mcfg_refines. Qed.

Theorem c04_xsdt_refines :
  forall md ctor ops r,
    ts_image xsdt_spec ctor ops = Some r -> N.of_nat (length r) < 2 ^ 32 ->
    exists s0 s, xsdt_new ctor = Some s0 /\ run_adds xsdt_addition md s0 ops = Some s /\ tbl_image s = r.
Proof. exact xsdt_refines. Qed.

Theorem c04_srat_refines :
  forall md ctor ops r,
    ts_image srat_spec ctor ops = Some r -> srat_ops_wf ops -> N.of_nat (length r) < 2 ^ 32 ->
    exists s0 s, srat_new ctor = Some s0 /\ run_adds srat_addition md s0 ops = Some s /\ tbl_image s = r.
Proof. exact srat_refines. Qed.

(* RHCT, VIOT, RIMT: node references (handles returned by earlier additions) resolve to the same offsets on both sides *)
Theorem c04_rhct_refines :
  forall md ctor ops r,
    ts_image rhct_spec ctor ops = Some r -> N.of_nat (length r) < 2 ^ 32 ->
    exists s0 s, rhct_new ctor = Some s0 /\ run_adds rhct_addition md s0 ops = Some s /\ tbl_image s = r.
Proof. exact rhct_refines. Qed.

Theorem c04_viot_refines :
  forall md ctor ops r,
    ts_image viot_spec ctor ops = Some r ->
    exists s0 s, viot_new ctor = Some s0 /\ run_adds viot_addition md s0 ops = Some s /\ tbl_image s = r.
Proof. exact viot_refines. Qed.

Theorem c04_rimt_refines :
  forall md ctor ops r,
    ts_image rimt_spec ctor ops = Some r -> N.of_nat (length r) < 2 ^ 32 ->
    exists s0 s, rimt_new ctor = Some s0 /\ run_adds rimt_addition md s0 ops = Some s /\ tbl_image s = r.
Proof. exact rimt_refines. Qed.

Theorem c04_cedt_refines :
  forall md ctor ops r,
    ts_image cedt_spec ctor ops = Some r -> N.of_nat (length r) < 2 ^ 32 ->
    exists s0 s, cedt_new ctor = Some s0 /\ run_adds cedt_addition md s0 ops = Some s /\ tbl_image s = r.
Proof. exact cedt_refines. Qed.

(* RQSC: controllers with nested resources *)
Theorem c04_rqsc_refines :
  forall md ctor ops r,
    ts_image rqsc_spec ctor ops = Some r -> N.of_nat (length r) < 2 ^ 32 ->
    exists s0 s, rqsc_new ctor = Some s0 /\ rqsc_run md s0 ops = Some s /\ Rqsc.rqsc_image s = r.
Proof. exact rqsc_refines. Qed.

(* HEST, histories of error-source additions (the five source types, any setter sequences).  The stand-alone structures are in
   Proofs/HestRefP.v (hest_refines), where the Generic Error Data structure is excluded: it is the open known finding
   (hest_refines_refuted_ged is its machine-checked witness: 58 bytes emitted, 72 in the reference). *)
Theorem c04_hest_refines :
  forall md ctor ops r,
    ts_image hest_spec ctor ops = Some r ->
    forallb (fun o => negb (is_alone_op o)) ops = true ->
    N.of_nat (length r) < 2 ^ 32 ->
    exists t0 s, hest_new ctor = Some t0 /\ hest_run md {| hs_tbl := t0; hs_alone := None |} ops = Some s /\
                 Hest.hest_image s = Some r.
Proof. exact hest_table_refines. Qed.

(* PPTT (processor and cache nodes referring to earlier nodes by handle; cache attribute setters), HMAT (proximity, memory-side
   cache and system-locality structures with any sequence of cell assignments), SLIT (any accepted cell assignments) *)
Theorem c04_pptt_refines :
  forall md ctor ops r,
    ts_image pptt_spec ctor ops = Some r -> N.of_nat (length r) < 2 ^ 32 ->
    exists s0 s, pptt_new ctor = Some s0 /\ run_adds pptt_addition md s0 ops = Some s /\ tbl_image s = r.
Proof. exact pptt_refines. Qed.

Theorem c04_hmat_refines :
  forall md ctor ops r,
    ts_image hmat_spec ctor ops = Some r -> N.of_nat (length r) < 2 ^ 32 ->
    exists s0 s, hmat_new ctor = Some s0 /\ run_adds (hmat_addition md) md s0 ops = Some s /\ tbl_image s = r.
Proof. exact hmat_refines. Qed.

Theorem c04_slit_refines :
  forall md ctor ops r,
    ts_image slit_spec ctor ops = Some r ->
    exists s0 s, slit_new ctor = Some s0 /\ run_steps (slit_step md) s0 ops = Some s /\ Impl.Slit.slit_image s = r.
Proof. exact slit_refines. Qed.

(* FADT (any builder calls), SPCR, BERT, TCPA server / client, TPM2 (with or without log area), RSDP, FACS;
   refines spec wf new step image := forall md ctor ops r, ts_image spec ctor ops = Some r -> wf ctor ->
                                     exists s0 s, new ctor = Some s0 /\ run_steps (step md) s0 ops = Some s /\ image s = r *)
Theorem c04_fixed_structures_refine :
  refines fadt_spec fadt_ctor_bytes fadt_new fadt_step fadt_image /\
  refines spcr_spec any_ctor spcr_new spcr_step spcr_bytes /\
  refines bert_spec any_ctor bert_new bert_step bert_bytes /\
  refines tpmserver_spec any_ctor tpmserver_new tpmserver_step tpmserver_bytes /\
  refines tpmclient_spec any_ctor tpmclient_new tpmclient_step tpmclient_bytes /\
  refines tpm2_spec any_ctor tpm2_new tpm2_step tpm2_bytes /\
  refines rsdp_spec rsdp_ctor_bytes rsdp_new rsdp_step rsdp_bytes /\
  refines facs_spec any_ctor facs_new facs_step ser_flds.
Proof. exact fixed_refines. Qed.

(* The small public items outside the table components (component 32): sdt.rs GenericAddress::io_port_address / mmio_address
   for an access type of 1, 2, 4 or 8 bytes, and the associated size functions.  On the reference's whole domain the model's
   observations are the reference's, in both build modes; the independent decoder returns the caller's values. *)
Theorem c04_misc_refines : forall md c r, misc_ref c = Some r -> misc_case md c = r.
Proof. exact misc_refines. Qed.

Theorem c04_generic_address_decodes : forall space k addr r code,
  gas_ref space k addr = Some r -> access_code k = Some code -> space < 256 -> addr < 2 ^ 64 ->
  gas_decode r = Some (space, 8 * k, 0, code, addr).
Proof. exact gas_ref_decodes. Qed.


Print Assumptions c04_reference_layouts_decode.
Print Assumptions c04_madt_structures.
Print Assumptions c04_madt_refines.
Print Assumptions c04_mcfg_refines.
Print Assumptions c04_xsdt_refines.
Print Assumptions c04_srat_refines.
Print Assumptions c04_fixed_structures_refine.
Print Assumptions c04_rhct_refines.
Print Assumptions c04_viot_refines.
Print Assumptions c04_rimt_refines.
Print Assumptions c04_cedt_refines.
Print Assumptions c04_rqsc_refines.
Print Assumptions c04_hest_refines.
Print Assumptions c04_pptt_refines.
Print Assumptions c04_hmat_refines.
Print Assumptions c04_slit_refines.
Print Assumptions c04_misc_refines.
Print Assumptions c04_generic_address_decodes.
