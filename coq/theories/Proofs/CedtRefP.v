(* CEDT refinement (property C04 as a theorem): for every constructor argument and every finite history inside the domain of
   Spec/CedtS.v, in both build modes, the Impl model of cedt.rs accepts the history and serialises exactly the reference image.
   Both entry functions decode an operation to the same structure (Proofs/CedtStructP.v), so the content is that each of the
   Spec's three argument decoders is included in the model's; the inclusion for the restriction builders is C11 (the
   restrictions word is the union of the bits of the builders invoked), through Proofs/CedtP.cfmws_restrictions_spec. *)
From Coq Require Import NArith List Lia Bool Arith.
From ACPI Require Import Lib.Bytes Lib.Sx Lib.Machine Impl.Table Impl.Fields Impl.Cedt
  Spec.Layout Spec.RimtS Spec.CedtS Proofs.TableP Proofs.CedtP Proofs.WalkRefCommon2P Proofs.RefCommonP Proofs.BaseP Proofs.CedtStructP.
Import ListNotations.
Open Scope N_scope.

Lemma builders_ok_all builders : cedt_builders_ok builders = true -> exists bits, sx_list_all restr_builder builders = Some bits.
Proof.
  induction builders as [|b bs IH]; intros H; [exists []; reflexivity|].
  cbn [cedt_builders_ok forallb] in H. apply andb_true_iff in H. destruct H as [Hb Hr].
  destruct (IH Hr) as [bits Hbits].
  destruct b as [|[|[k|] [|]]]; try discriminate Hb.
  apply andb_true_iff in Hb. destruct Hb as [H1 H2]. apply N.leb_le in H1. apply N.leb_le in H2.
  assert (Hk : exists v, restr_bit k = Some v).
  { assert (k = 1 \/ k = 2 \/ k = 3 \/ k = 4 \/ k = 5) as [->|[->|[->|[->| ->]]]] by lia; eexists; reflexivity. }
  destruct Hk as [v Hv]. exists (v :: bits). cbn [sx_list_all restr_builder]. now rewrite Hv, Hbits.
Qed.

(* the three decoder inclusions *)
Lemma cedt_restr_is_reference bs r : cedt_d_restr cedt_spec_dec bs = Some r -> cedt_d_restr cedt_impl_dec bs = Some r.
Proof.
  cbn [cedt_spec_dec cedt_impl_dec cedt_d_restr]. destruct (cedt_builders_ok bs) eqn:Eb; [|discriminate]. intros H.
  destruct (builders_ok_all _ Eb) as [bits Hbits]. rewrite Hbits. cbn [option_map].
  now rewrite (cfmws_restrictions_spec _ _ Hbits).
Qed.

Lemma cedt_targets_are_reference ts tg : cedt_d_targets cedt_spec_dec ts = Some tg -> cedt_d_targets cedt_impl_dec ts = Some tg.
Proof.
  cbn [cedt_spec_dec cedt_impl_dec cedt_d_targets]. intros H.
  exact (sp_all_list_all cedt_target (sx_arr 4) (fun _ _ E => E) ts tg H).
Qed.

Lemma cedt_bdf_is_reference bus dev fn b : cedt_d_bdf cedt_spec_dec bus dev fn = Some b -> cedt_d_bdf cedt_impl_dec bus dev fn = Some b.
Proof.
  cbn [cedt_spec_dec cedt_impl_dec cedt_d_bdf]. intros H. destruct (sp_bdf_pci _ _ _ _ H) as [-> ->]. reflexivity.
Qed.

(* an operation the Spec lays out decodes to one structure on both sides, and the model accepts it *)
Lemma cedt_ref_struct s o r : cedt_entry_ref o = Some r ->
  exists d, cedt_op cedt_spec_dec o d /\ cedt_addition s o = Some (cedt_rec_addition s d) /\ cedt_rec_bytes d = r.
Proof.
  intros H. apply cedt_entry_ref_cases in H as (d & Hop & _ & Ha & ->). exists d. split; [exact Hop|]. split; [|reflexivity].
  apply cedt_addition_intro; [|exact Ha].
  exact (cedt_op_mono cedt_spec_dec cedt_impl_dec o d cedt_restr_is_reference cedt_targets_are_reference cedt_bdf_is_reference Hop).
Qed.

(* every structure type is the reference encoding of the caller's values, for all argument values *)
Theorem cedt_entries_are_reference s o r :
  cedt_entry_ref o = Some r -> exists e, cedt_addition s o = Some e /\ a_bytes e = r.
Proof. intros H. destruct (cedt_ref_struct s o r H) as (d & _ & Hd & Hr). exists (cedt_rec_addition s d). exact (conj Hd Hr). Qed.

Theorem cedt_refines :
  forall md ctor ops r,
    ts_image cedt_spec ctor ops = Some r ->
    N.of_nat (length r) < 2 ^ 32 ->
    exists s0 s, cedt_new ctor = Some s0 /\ run_adds cedt_addition md s0 ops = Some s /\ tbl_image s = r.
Proof.
  intros md ctor ops r H Hfit. apply accepted_refines.
  apply (table3_accepts KCedt [67; 69; 68; 84] cedt_addition cedt_entries_ref eq_refl md ctor ops r H).
  intros s0 es I0 He0 _ Hes ->.
  exact (plain_image KCedt cedt_addition cedt_addition_sound cedt_entry_ref (fun _ => eq_refl) cedt_entries_are_reference
           md s0 ops es I0 He0 (sp_all_Forall2 _ _ _ Hes) Hfit ltac:(discriminate)).
Qed.

(* the statement exercised on concrete histories (both sides computed) *)
Definition cedt_both (md : mode) (ctor : sx) (ops : list sx) : option (list N * list N) :=
  match ts_image cedt_spec ctor ops, cedt_new ctor with
  | Some r, Some s0 => match run_adds cedt_addition md s0 ops with Some s => Some (r, tbl_image s) | None => None end
  | _, _ => None
  end.
Definition cedt_demo_ctor : sx := SL [SL (map SA [1; 2; 3; 4; 5; 6]); SL (map SA [1; 2; 3; 4; 5; 6; 7; 8]); SA 77].
Definition cedt_demo_ops : list sx :=
  [SL [SA 1; SA 7; SA 1; SA 0x123456789A];
   SL [SA 2; SA 0x100000000; SA 0x40000000; SA 1; SA 3; SA 1; SA 9; SL [SL [SA 4]; SL [SA 1]; SL [SA 4]];
       SL [SL (map SA [1; 2; 3; 4]); SL (map SA [5; 6; 7; 8])]];
   SL [SA 3; SA 2; SL [SA 0xFFFFFFFFFFFFFFFF; SA 5]];
   SL [SA 4; SA 1; SA 255; SA 31; SA 7; SA 1; SA 0xABCDEF0123]].
Example cedt_refines_demo :
  match cedt_both Checked cedt_demo_ctor cedt_demo_ops, cedt_both Wrapping cedt_demo_ctor [] with
  | Some (a, b), Some (c, d) => list_N_eqb a b && list_N_eqb c d && Nat.eqb (length a) 153
  | _, _ => false
  end = true.
Proof. vm_compute. reflexivity. Qed.

Print Assumptions cedt_refines.
