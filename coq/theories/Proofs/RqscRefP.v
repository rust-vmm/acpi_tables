(* RQSC refinement (property C04 as a theorem): for every constructor argument and every finite history of add_controller calls
   inside the domain of Spec/RqscS.v, in both build modes, the Impl model of rqsc.rs (its own state machine rqsc_new /
   rqsc_step / rqsc_run, checksum recomputed from scratch at every add) accepts the history and serialises exactly the reference
   image.  Layers: resource id -> resource structure -> GAS -> controller -> table.  That the model accepts is read off the two
   equivalences of Proofs/RqscP.v from right to left: the controller (`qos_of_sx_op`) and the table (`rqsc_run_made`) the
   reference describes exist and fit, so the checked u16 / u32 additions of add_resource / update_header let them through. *)
From Coq Require Import NArith List Lia Bool.
From ACPI Require Import Lib.Bytes Lib.Sx Lib.Machine Impl.Table Impl.Gas Impl.Rqsc
  Spec.Layout Spec.GasS Spec.RqscS Proofs.RqscP Proofs.RefCommonP Proofs.BaseP Proofs.WalkP.
Import ListNotations.
Open Scope N_scope.

Lemma le_app a b x : le (a + b) x = le a x ++ le b (x / 2 ^ (8 * N.of_nat a)).
Proof.
  revert x; induction a as [|a IH]; intros x.
  - cbn [plus le app]. change (8 * N.of_nat 0) with 0. rewrite N.pow_0_r, N.div_1_r. reflexivity.
  - cbn [plus le app]. rewrite IH. do 2 f_equal.
    replace (8 * N.of_nat (S a)) with (8 + 8 * N.of_nat a) by lia.
    rewrite N.pow_add_r, N.div_div by (try apply N.pow_nonzero; lia). reflexivity.
Qed.

Lemma le8_small x : x < 2 ^ 32 -> le 8 x = le 4 x ++ le 4 0.
Proof. intros H. change (le 8 x) with (le (4 + 4) x). rewrite (le_app 4 4 x). change (8 * N.of_nat 4) with 32. now rewrite N.div_small. Qed.

Lemma map_cast_bytes bs : forallb (fun x => x <? 256) bs = true -> map (cast U8) bs = bs.
Proof.
  induction bs as [|b bs IH]; intros H; [reflexivity|]. cbn [forallb] in H. apply andb_true_iff in H. destruct H as [Hb Hr].
  apply N.ltb_lt in Hb. cbn [map]. rewrite IH by exact Hr. unfold cast, U8. now rewrite N.mod_small.
Qed.

(* resource id: (IDType, ID1 ++ ID2 ++ specific data) *)
Lemma resid_agrees s ty rest : resid_ref s = Some (ty, rest) ->
  exists id, resid_of_sx s = Some id /\ ri_type id = ty /\ ri_payload id = rest.
Proof.
  unfold resid_ref. intros H.
  break_sx H.
  all: cbn [resid_of_sx].
  1-2: (destruct (N.ltb_spec n (2 ^ 32)); [|discriminate]; apply Some_pair_inj in H; destruct H as [<- <-];
        eexists; split; [reflexivity|]; cbn [ri_type ri_payload]; split; [reflexivity|];
        unfold d4; rewrite le8_small by assumption; now rewrite <- app_assoc).
  - destruct (sx_bytes s) as [bs|]; [|discriminate]. cbn [option_bind].
    destruct (N.leb_spec 4 n); [|discriminate]. destruct (N.ltb_spec n 256); [|discriminate].
    destruct (forallb (fun x => x <? 256) bs) eqn:Eb; [|discriminate]. destruct (Nat.leb 12 (length bs)); [|discriminate].
    cbn [andb] in H. apply Some_pair_inj in H; destruct H as [<- <-].
    eexists. split; [reflexivity|]. cbn [ri_type ri_payload]. unfold cast at 1. unfold U8. rewrite N.mod_small by assumption.
    rewrite map_cast_bytes by exact Eb. auto.
  - destruct (N.ltb_spec n (2 ^ 64)); [|discriminate]. destruct (N.ltb_spec n0 (2 ^ 32)); [|discriminate].
    cbn [andb] in H. apply Some_pair_inj in H; destruct H as [<- <-].
    eexists. split; [reflexivity|]. cbn [ri_type ri_payload]. split; reflexivity.
  - destruct (N.ltb_spec n (2 ^ 32)); [|discriminate]. destruct (N.ltb_spec n0 (2 ^ 64)); [|discriminate].
    cbn [andb] in H. apply Some_pair_inj in H; destruct H as [<- <-].
    eexists. split; [reflexivity|]. cbn [ri_type ri_payload]. split; [reflexivity|].
    unfold d4, q8. rewrite (le8_small n) by assumption. now rewrite <- !app_assoc.
Qed.

(* resource structure: header of 8 bytes, then the resource id's payload *)
Lemma resource_agrees s r : resource_ref s = Some r ->
  exists rs, resource_of_sx s = Some rs /\ ser_resource rs = r.
Proof.
  unfold resource_ref. intros H.
  destruct s as [|[|[rtype|] [|[rflags|] [|id [|]]]]]; try discriminate H.
  destruct (resid_ref id) as [[ty rest]|] eqn:Ei; [|discriminate].
  destruct (resid_agrees _ _ _ Ei) as (i & Hi & Hty & Hpl).
  destruct (N.ltb_spec rtype 2); [|discriminate]. destruct (N.ltb_spec rflags 65536); [|discriminate].
  destruct (N.ltb_spec (N.of_nat (8 + length rest)) 65536); [|discriminate]. cbn [andb] in H.
  destruct (lay 8 _) as [fx|] eqn:Ef; [|discriminate]. cbn [option_map] in H. inversion H; subst r; clear H.
  apply lay_some in Ef. subst fx.
  cbn [resource_of_sx]. rewrite Hi. cbn [option_bind]. unfold resource_new, resid_len. rewrite Hpl.
  assert (Hl : 1 * 3 + 2 * 2 + (1 + N.of_nat (length rest)) = N.of_nat (8 + length rest)) by lia.
  rewrite Hl. unfold assert. destruct (N.leb_spec (N.of_nat (8 + length rest)) 65535); [|lia]. cbn [option_bind].
  eexists. split; [reflexivity|].
  unfold ser_resource. cbn [rs_type rs_length rs_flags rs_id]. rewrite Hty, Hpl.
  unfold cast, U16. rewrite N.mod_small by lia. reflexivity.
Qed.

(* where every reference element is the serialisation of what the model decodes, so is the list *)
Lemma Forall2_agree {A} (f : sx -> option (list N)) (g : sx -> option A) (ser : A -> list N) :
  (forall x r, f x = Some r -> exists m, g x = Some m /\ ser m = r) ->
  forall l rs, Forall2 (fun x r => f x = Some r) l rs -> exists ms, Forall2 (fun x m => g x = Some m) l ms /\ map ser ms = rs.
Proof.
  intros Hfg. induction 1 as [|x r l rs Hr _ (ms & HF & <-)]; [exists []; split; constructor|].
  destruct (Hfg x r Hr) as (m & Hm & <-). exists (m :: ms). split; [constructor; assumption|reflexivity].
Qed.

(* every controller (with all its resources) is the reference encoding of the caller's values *)
Lemma controller_agrees o r : controller_ref o = Some r -> exists q, qos_of_sx o = Some q /\ ser_qos q = r.
Proof.
  unfold controller_ref. intros H.
  break_sx H.
  match type of H with context [gas_ref ?g] => destruct (gas_ref g) as [gb|] eqn:Eg; [|discriminate] end.
  match type of H with context [opt_seq (map resource_ref ?l)] => destruct (opt_seq (map resource_ref l)) as [rs|] eqn:Ers; [|discriminate] end.
  destruct (gas_agrees _ _ Eg) as (ga & gb' & gc & gd & ge & Hg & Hgv).
  apply opt_seq_Forall2 in Ers. destruct (Forall2_agree _ _ _ resource_agrees _ _ Ers) as (ms & HF & Hms).
  match type of H with context [N.of_nat (28 + ?b) <? 65536] => destruct (N.ltb_spec (N.of_nat (28 + b)) 65536) as [Hlen|]; [|rewrite !andb_false_r in H; try discriminate H] end.
  destruct (N.ltb_spec (N.of_nat (length rs)) 65536) as [Hcnt|]; [|rewrite !andb_false_r in H; discriminate H].
  match type of H with (if ?c then _ else _) = _ => destruct c; [|discriminate H] end.
  destruct (lay 28 _) as [fx|] eqn:Ef; [|discriminate]. cbn [option_map] in H. injection H as <-.
  apply lay_some in Ef. rewrite !assemble_app, (assemble_bytes _ gb) in Ef by (rewrite <- Hgv; apply bytes_ok_ser_flds).
  assert (Hcn : length ms = length rs) by (rewrite <- Hms; symmetry; apply map_length).
  eexists. split; [apply qos_of_sx_op; constructor; [exact Hg|exact HF|]|].
  - split; cbn [qos_push qos_new q_nres q_length]; rewrite ?Hms, ?Hcn; change (2 ^ 16) with 65536; lia.
  - rewrite ser_qos_push, Hms, Hcn, Ef. unfold qos_pre. rewrite Hgv.
    replace (28 + N.of_nat (length (concat rs))) with (N.of_nat (28 + length (concat rs))) by lia.
    rewrite <- !app_assoc. reflexivity.
Qed.

Lemma qos_ops_real ops qs : Forall2 (fun o q => qos_of_sx o = Some q) ops qs -> real_ops ops = ops.
Proof.
  induction 1 as [|o q ops qs Ho _ IH]; [reflexivity|]. destruct o; [discriminate Ho|].
  unfold real_ops in *. cbn [filter]. now rewrite IH.
Qed.

Theorem rqsc_refines :
  forall md ctor ops r,
    ts_image rqsc_spec ctor ops = Some r ->
    N.of_nat (length r) < 2 ^ 32 ->
    exists s0 s, rqsc_new ctor = Some s0 /\ rqsc_run md s0 ops = Some s /\ Rqsc.rqsc_image s = r.
Proof.
  intros md ctor ops r H Hfit. cbn [ts_image rqsc_spec] in H. unfold RqscS.rqsc_image in H.
  destruct ctor as [|[|o [|t [|r0 [|]]]]]; try discriminate H.
  destruct (sx_hdr_args o t r0) as [[oem tb orev]|] eqn:Ea; [|discriminate H].
  destruct (rqsc_entries_ref ops) as [es|] eqn:Ee; [|discriminate H].
  destruct (N.of_nat (length es) <? 2 ^ 32); [|discriminate H]. apply Some_inj in H. subst r.
  set (h := mk_hdr [82; 81; 83; 67] 1 (Build_hdr_args oem tb orev)).
  unfold rqsc_entries_ref in Ee. apply opt_seq_Forall2 in Ee.
  destruct (Forall2_agree _ _ _ controller_agrees _ _ Ee) as (qs & HF & <-).
  (* the reference image is the image of the table of these controllers ... *)
  assert (Himg : Rqsc.rqsc_image (rqsc_made h qs) =
                 ref_table [82; 81; 83; 67] 1 (Build_hdr_args oem tb orev) (le 4 (N.of_nat (length (map ser_qos qs))) ++ concat (map ser_qos qs))).
  { rewrite rqsc_made_image, (hdr_image_ref _ _ _ _ (rqsc_made_len h qs)) by (rewrite <- rqsc_made_image; apply rqsc_made_sum).
    unfold rqsc_rest, d4. now rewrite map_length. }
  (* ... which the model reaches, the reference image being shorter than 2^32 bytes *)
  exists (rqsc_made h []), (rqsc_made h qs). split; [rewrite rqsc_new_made, (sx_hdr_of_args Ea); reflexivity|].
  split; [|exact Himg]. apply (rqsc_run_made md h ops []); [reflexivity|]. exists qs. rewrite (qos_ops_real _ _ HF).
  split; [exact HF|split; [reflexivity|]].
  rewrite <- (rqsc_made_length h qs (sx_hdr_args_ok [82; 81; 83; 67] 1 eq_refl Ea)), Himg. exact Hfit.
Qed.

(* the statement exercised on concrete histories (both sides computed) *)
Definition rqsc_both (md : mode) (ctor : sx) (ops : list sx) : option (list N * list N) :=
  match ts_image rqsc_spec ctor ops, rqsc_new ctor with
  | Some r, Some s0 => match rqsc_run md s0 ops with Some s => Some (r, Rqsc.rqsc_image s) | None => None end
  | _, _ => None
  end.
Definition rqsc_demo_ctor : sx := SL [SL (map SA [1; 2; 3; 4; 5; 6]); SL (map SA [1; 2; 3; 4; 5; 6; 7; 8]); SA 77].
Definition rqsc_demo_ops : list sx :=
  [SL [SA 1; SA 0; SL [SA 0; SA 0; SA 64; SA 0; SA 4; SA 0x80001000]; SA 16; SA 32; SA 3;
       SL [SL [SA 0; SA 1; SL [SA 0; SA 7]]; SL [SA 1; SA 2; SL [SA 1; SA 3; SA 0x1122334455667788]];
           SL [SA 0; SA 0; SL [SA 4; SA 200; SL (map SA [1; 2; 3; 4; 5; 6; 7; 8; 9; 10; 11; 12; 13])]]]];
   SL [SA 1; SA 1; SL [SA 1; SA 32; SA 3; SA 5; SA 6; SA 0x40]; SA 0xFFFFFFFF; SA 0; SA 65535;
       SL [SL [SA 1; SA 65535; SL [SA 2; SA 0xAABBCCDDEEFF0011; SA 9]]; SL [SA 0; SA 0; SL [SA 3; SA 0x1234]]]];
   SL [SA 1; SA 0; SL [SA 2]; SA 0; SA 0; SA 0; SL []]].
Example rqsc_refines_demo :
  match rqsc_both Checked rqsc_demo_ctor rqsc_demo_ops, rqsc_both Wrapping rqsc_demo_ctor [] with
  | Some (a, b), Some (c, d) => list_N_eqb a b && list_N_eqb c d && Nat.ltb 40 (length a)
  | _, _ => false
  end = true.
Proof. vm_compute. reflexivity. Qed.

Print Assumptions rqsc_refines.
