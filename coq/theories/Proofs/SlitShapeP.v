(* SLIT shape (property C03 for the table that has no self-describing entries): for every constructor argument the model
   accepts and every accepted sequence of set_distance calls, in both build profiles, the image is 36 + 8 + n^2 bytes, the
   8-byte NumberOfLocalities at offset 36 is n, and the body from offset 44 is exactly n rows of n one-byte cells:
   (i, j) -> 44 + i*n + j maps the n^2 index pairs one-to-one onto the offsets [44, end of image). *)
From Coq Require Import ZArith List Lia.
From ACPI Require Import Lib.Bytes Lib.Sx Lib.Machine Impl.Madt Impl.Slit Spec.Layout Spec.SlitShapeS Proofs.TableP
  Proofs.FixedP Proofs.SlitP Proofs.BaseP.
Import ListNotations.
Open Scope N_scope.

Definition slit_shape_of (img : list N) (n : N) : Prop :=
  N.of_nat (length img) = 36 + 8 + n * n /\
  field_at img 36 8 = n /\
  (* every cell of every row lies inside the image, after the count field *)
  (forall i j, i < n -> j < n -> (44 <= 44 + N.to_nat (i * n + j) < length img)%nat) /\
  (* distinct cells have distinct offsets *)
  (forall i j i' j', i < n -> j < n -> i' < n -> j' < n -> i * n + j = i' * n + j' -> i = i' /\ j = j') /\
  (* every byte of the body is a cell: the rows leave no gap and nothing follows the last row *)
  (forall k, (44 <= k < length img)%nat -> exists i j, i < n /\ j < n /\ k = (44 + N.to_nat (i * n + j))%nat).

Lemma sinv_shape s : SInv s -> slit_shape_of (slit_image s) (st_loc s).
Proof.
  intros I. pose proof (length_slit_image s I) as Hlen. rewrite (si_len s I) in Hlen.
  pose proof (loc_small s I) as Hsmall. set (n := st_loc s) in *.
  unfold slit_shape_of. split; [lia|]. split; [|split; [|split]].
  - unfold slit_image, field_at. rewrite <- (length_hdr_bytes (st_hdr s) (st_len s) (st_hck s) (si_hdr s I)), skipn_app_exact.
    unfold q8. rewrite firstn_le_app. apply unle_le_small. change (2 ^ (8 * N.of_nat 8)) with (2 ^ 64). fold n. lia.
  - intros i j Hi Hj. assert (i * n + j < n * n) by nia. lia.
  - intros i j i' j' Hi Hj Hi' Hj' E. assert (i = i') by nia. subst i'. split; [reflexivity|lia].
  - intros k Hk. assert (Hk' : N.of_nat k - 44 < n * n) by lia.
    assert (Hn : n <> 0) by (intros E; rewrite E in Hk'; lia).
    exists ((N.of_nat k - 44) / n), ((N.of_nat k - 44) mod n).
    pose proof (N.div_mod (N.of_nat k - 44) n Hn) as Hdm. pose proof (N.mod_lt (N.of_nat k - 44) n Hn) as Hm.
    split; [apply N.div_lt_upper_bound; [exact Hn|lia]|]. split; [exact Hm|]. lia.
Qed.

Lemma slit_new_loc o t r n s0 : slit_new (SL [o; t; r; SA n]) = Some s0 -> st_loc s0 = n.
Proof.
  unfold slit_new. destruct (sx_hdr _ _ o t r); [|discriminate]. cbn [option_bind].
  destruct (mul_c U32 n n); [|discriminate]. cbn [option_bind].
  destruct (add_c U32 _ 44); [|discriminate]. cbn [option_bind].
  intros H. apply Some_inj in H. now subst s0.
Qed.

Lemma slit_new_form c s0 : slit_new c = Some s0 -> exists o t r n, c = SL [o; t; r; SA n].
Proof. unfold slit_new. intros H. break_sx H. eexists _, _, _, _. reflexivity. Qed.

Theorem slit_shape md o t r n ops s0 s :
  slit_new (SL [o; t; r; SA n]) = Some s0 -> slit_run md s0 ops = Some s ->
  slit_shape_of (slit_image s) n.
Proof.
  intros Hn Hr. pose proof (slit_sim_new _ s0 Hn) as HS0. rewrite (slit_new_loc o t r n s0 Hn) in HS0.
  destruct (slit_sim_run md _ n ops _ s0 s HS0 Hr) as [_ HS].
  rewrite <- (sim_loc _ _ _ _ HS). apply sinv_shape. exact (sim_inv _ _ _ _ HS).
Qed.

(* the same on the case vocabulary (observation markers included), as the harness drives it *)
Theorem slit_shape_history md o t r n ops s0 s :
  slit_new (SL [o; t; r; SA n]) = Some s0 -> run_steps (slit_step md) s0 ops = Some s ->
  slit_shape_of (slit_image s) n.
Proof.
  intros Hn Hr. exact (slit_shape md o t r n (calls ops) s0 s Hn (run_steps_calls md ops s0 s Hr)).
Qed.

(* the executable judgement of Spec/SlitShapeS.v answers true on every image the model emits *)
Corollary slit_shape_judge_model md o t r n ops s0 s :
  slit_new (SL [o; t; r; SA n]) = Some s0 -> run_steps (slit_step md) s0 ops = Some s ->
  slit_shape_judge (SL [o; t; r; SA n]) (slit_image s) = true.
Proof.
  intros Hn Hr. destruct (slit_shape_history md o t r n ops s0 s Hn Hr) as (Hl & Hc & _).
  cbn [slit_shape_judge]. rewrite Hl, Hc, !N.eqb_refl. reflexivity.
Qed.

Definition slit_shape_demo_ctor (n : N) : sx := SL [SL (map SA [1; 2; 3; 4; 5; 6]); SL (map SA [1; 2; 3; 4; 5; 6; 7; 8]); SA 77; SA n].
Definition slit_shape_demo (md : mode) (n : N) (ops : list (N * N * N)) : option (nat * N * list N) :=
  match slit_new (slit_shape_demo_ctor n) with
  | Some s0 => match slit_run md s0 ops with
               | Some s => Some (length (slit_image s), field_at (slit_image s) 36 8, skipn 44 (slit_image s))
               | None => None
               end
  | None => None
  end.
(* 3 localities, set_distance(0,1,20), (2,2,7), (1,2,30): 53 bytes, count 3, three rows of three cells *)
Example slit_shape_demo_3 :
  slit_shape_demo Checked 3 [(0, 1, 20); (2, 2, 7); (1, 2, 30)] = Some (53%nat, 3, [10; 20; 10;  20; 10; 30;  10; 30; 7]) /\
  slit_shape_demo Wrapping 3 [(0, 1, 20); (2, 2, 7); (1, 2, 30)] = slit_shape_demo Checked 3 [(0, 1, 20); (2, 2, 7); (1, 2, 30)] /\
  slit_shape_demo Checked 0 [] = Some (44%nat, 0, []) /\
  slit_shape_demo Checked 3 [(0, 3, 1)] = None.          (* an out-of-range call is refused, so the hypothesis is not always true *)
Proof. repeat split; vm_compute; reflexivity. Qed.

Print Assumptions slit_shape.
Print Assumptions slit_shape_history.
Print Assumptions slit_shape_judge_model.
