(* Coherence (Proofs/CoherenceTablesP.v) instantiated for the eight fixed-layout structures:
   FADT 26, SPCR 28, BERT 27, TpmServer1_2 24, TpmClient1_2 25, Tpm2 23, RSDP 30, FACS 29: what each one's model supplies
   ([fixed_model], <t>_model), applied in Props/CoherenceTables.v. *)
From Coq Require Import NArith List.
From ACPI Require Import Lib.Bytes Lib.Sx Impl.Fields Impl.Run Impl.Fadt Impl.Spcr Impl.Bert Impl.Tpm2 Impl.Rsdp Impl.Facs
  Spec.Layout Spec.FadtS Spec.SpcrS Spec.BertS Spec.Tpm2S Spec.RsdpS Spec.FacsS Proofs.FixedP Proofs.FadtRefP
  Proofs.RsdpRefP Proofs.FacsRefP Proofs.Tpm2RefP Proofs.FixedRefP Proofs.FadtP Proofs.CtorOnlyP Proofs.Tpm2P
  Proofs.C11Tpm2P Proofs.FacsP Proofs.CoherenceTablesP Proofs.BaseP.
Import ListNotations.
Open Scope N_scope.

(* A fixed-layout structure with what the coherence theorems need of it: one number per accepted operation, its refinement
   theorem ([refines], Proofs/FixedRefP.v: the side condition speaks of the constructor only, so no closure property of the
   Spec's domain is needed), and two judgements of the image that hold in every state the model reaches. *)
Record fixed_model {S : Type} (spec : tspec) (wf : sx -> Prop) (new : sx -> option S)
       (step : mode -> S -> sx -> option (S * list ev)) (img : S -> list N) (P1 P2 : list N -> bool) : Prop := {
  fm_one : forall md s o s' evs, step md s o = Some (s', evs) -> exists h, evs = [EvNum h];
  fm_refines : refines spec wf new step img;
  fm_good : forall md c ops s0 s, new c = Some s0 -> run_steps (step md) s0 ops = Some s ->
    P1 (img s) = true /\ P2 (img s) = true
}.
Arguments fm_one {S spec wf new step img P1 P2}.
Arguments fm_refines {S spec wf new step img P1 P2}.
Arguments fm_good {S spec wf new step img P1 P2}.

Theorem fixed_coherent {S : Type} {spec wf} {new : sx -> option S} {step img P1 P2}
        (M : fixed_model spec wf new step img P1 P2) md ctor ops r :
  markers_ok ops = true -> wf ctor -> ts_image spec ctor (real_ops ops) = Some r ->
  let c := SL (ctor :: ops) in
  let evs := run_history (fun s => Some (img s)) (step md) new c in
  c04_oracle spec c evs = true /\ all_images P1 evs = true /\ all_images P2 evs = true.
Proof.
  intros Hm Hw Ht c evs.
  destruct (shows_c04 (fun s => Some (img s)) (step md) (fm_one M md) new spec (fun b => P1 b && P2 b) ctor ops Hm) as [H4 HA].
  { (* the refinement theorem at the whole history, then at each prefix; the model is deterministic *)
    destruct (fm_refines M md ctor (real_ops ops) r Ht Hw) as (s0 & sf & Hn & Hr & _). rewrite run_steps_real in Hr.
    exists s0, sf. split; [exact Hn|]. split; [exact Hr|]. intros p s1 _ Hs. exists (img s1). split; [reflexivity|]. split.
    - intros r1 Ht1. destruct (fm_refines M md ctor p r1 Ht1 Hw) as (s0' & s' & Hn' & Hr' & <-). congruence.
    - destruct (fm_good M md ctor p s0 s1 Hn Hs) as [-> ->]. reflexivity. }
  split; [exact H4|]. exact (all_images_and P1 P2 _ HA).
Qed.

(* the judgement of C01 and C02 of every structure but RSDP and FACS ([sum_ok], [len_ok]) *)
Lemma usual_model {S : Type} {spec wf} {new : sx -> option S} {step img} :
  (forall md s o s' evs, step md s o = Some (s', evs) -> exists h, evs = [EvNum h]) -> refines spec wf new step img ->
  (forall md c ops s0 s, new c = Some s0 -> run_steps (step md) s0 ops = Some s ->
                         sum8 (img s) = 0 /\ field_at (img s) 4 4 = N.of_nat (length (img s))) ->
  fixed_model spec wf new step img sum_ok len_ok.
Proof.
  intros Hone Href Hgood. split; [exact Hone|exact Href|]. intros md c ops s0 s Hn Hr.
  destruct (Hgood md c ops s0 s Hn Hr) as [H1 H2]. unfold sum_ok, len_ok. rewrite H1, H2. split; apply N.eqb_refl.
Qed.

Lemma fadt_step_one md s o s' evs : fadt_step md s o = Some (s', evs) -> exists h, evs = [EvNum h].
Proof. unfold fadt_step. destruct (fadt_builder s o); [|discriminate]. cbn [option_bind]. intros [= _ <-]. now exists 0. Qed.

Lemma tpmserver_step_one md s o s' evs : tpmserver_step md s o = Some (s', evs) -> exists h, evs = [EvNum h].
Proof. unfold tpmserver_step. destruct (tpmserver_builder (sv_body s) o); [|discriminate]. cbn [option_bind]. intros [= _ <-]. now exists 0. Qed.

Lemma tpm2_step_one md s o s' evs : tpm2_step md s o = Some (s', evs) -> exists h, evs = [EvNum h].
Proof. intros H. apply tpm2_step_iff in H as (_ & _ & _ & _ & _ & ->). now exists 0. Qed.

Lemma facs_step_one md s o s' evs : facs_step md s o = Some (s', evs) -> exists h, evs = [EvNum h].
Proof. unfold facs_step. intros H. split_matches H. exact (some_pair_one H). Qed.

Lemma fadt_good md c ops s0 s : fadt_new c = Some s0 -> run_steps (fadt_step md) s0 ops = Some s ->
  sum8 (fadt_image s) = 0 /\ field_at (fadt_image s) 4 4 = N.of_nat (length (fadt_image s)).
Proof. intros Hn Hr. rewrite <- fadt_run_steps in Hr. exact (fadt_history md c ops s0 s Hn Hr). Qed.

Lemma fadt_model : fixed_model fadt_spec fadt_ctor_bytes fadt_new fadt_step fadt_image sum_ok len_ok.
Proof. exact (usual_model fadt_step_one fadt_refines fadt_good). Qed.

Lemma spcr_model : fixed_model spcr_spec any_ctor spcr_new spcr_step spcr_bytes sum_ok len_ok.
Proof.
  exact (usual_model (no_step_one _ (fun _ _ _ => eq_refl)) (fun md c o r H _ => spcr_refines md c o r H)
           spcr_sum_len).
Qed.

Lemma bert_model : fixed_model bert_spec any_ctor bert_new bert_step bert_bytes sum_ok len_ok.
Proof.
  exact (usual_model (no_step_one _ (fun _ _ _ => eq_refl)) (fun md c o r H _ => bert_refines md c o r H)
           bert_sum_len).
Qed.

Lemma tpmserver_model : fixed_model tpmserver_spec any_ctor tpmserver_new tpmserver_step tpmserver_bytes sum_ok len_ok.
Proof.
  exact (usual_model tpmserver_step_one (fun md c o r H _ => tpmserver_refines md c o r H)
           tpmserver_sum_len).
Qed.

Lemma tpmclient_model : fixed_model tpmclient_spec any_ctor tpmclient_new tpmclient_step tpmclient_bytes sum_ok len_ok.
Proof.
  exact (usual_model (no_step_one _ (fun _ _ _ => eq_refl)) (fun md c o r H _ => tpmclient_refines md c o r H)
           tpmclient_sum_len).
Qed.

Lemma tpm2_model : fixed_model tpm2_spec any_ctor tpm2_new tpm2_step tpm2_bytes sum_ok len_ok.
Proof.
  exact (usual_model tpm2_step_one (fun md c o r H _ => tpm2_refines md c o r H) tpm2_sum_len).
Qed.

(* RSDP: two checksums (whole structure, first 20 bytes), Length 36 at offset 20 *)
Lemma rsdp_model : fixed_model rsdp_spec rsdp_ctor_bytes rsdp_new rsdp_step rsdp_bytes
                     (fun b => (sum8 b =? 0) && (sum8 (firstn 20 b) =? 0)) (fun b => (field_at b 20 4 =? 36) && Nat.eqb (length b) 36).
Proof.
  split; [exact (no_step_one _ (fun _ _ _ => eq_refl))|exact rsdp_refines|].
  intros md c ops s0 s Hn Hr. destruct (rsdp_sums_len md c ops s0 s Hn Hr) as (H1 & H2 & H3 & H4).
  rewrite H1, H2, H3, H4. split; reflexivity.
Qed.

(* FACS: no checksum (C01 judges nothing), Length 64 at offset 4 *)
Lemma facs_model : fixed_model facs_spec any_ctor facs_new facs_step ser_flds
                     (fun _ => true) (fun b => (field_at b 4 4 =? 64) && Nat.eqb (length b) 64).
Proof.
  split; [exact facs_step_one|exact (fun md c o r H _ => facs_refines md c o r H)|].
  intros md c ops s0 s Hn Hr. destruct (facs_len md c ops s0 s Hn Hr) as (H1 & H2). rewrite H1, H2. auto.
Qed.
