(* PPTT: the Spec's bookkeeping of node starts ([pptt_placed]: what the next operation's references (104 k) are resolved
   in; Props/C05.v states the reference handles with it), and the tiling of the image the Impl model emits (from
   Proofs/PpttSelfP.v through the refinement theorem). *)
From Coq Require Import NArith List.
From ACPI Require Import Lib.Sx Impl.Table Impl.Pptt Spec.Layout Spec.PpttS
  Proofs.TableP Proofs.WalkP Proofs.WalkRefCommon2P Proofs.PpttSelfP Proofs.PpttRefP.
Import ListNotations.

Open Scope N_scope.

(* the Spec's bookkeeping (Spec/PpttS.v, [pptt_entries_from]) after a list of operations: the (type, start) of every node
   placed so far, most recent first, and their number; this is the [p] with which the NEXT operation's handle references
   (104 k) are resolved *)
Fixpoint pptt_placed_from (ops : list sx) (p : placed) (next : N) : option placed :=
  match ops with
  | [] => Some p
  | o :: r =>
      match pptt_entry_ref p o with
      | Some e => pptt_placed_from r ((nth 0 e 0, next) :: fst p, snd p + 1) (next + N.of_nat (length e))
      | None => None
      end
  end.

Definition pptt_placed (ops : list sx) : option placed := pptt_placed_from ops ([], 0) 36.

Lemma pptt_placed_from_pl ops : forall p next,
  pptt_placed_from ops p next = pl_placed_from pptt_entry_ref sp_ty ops p next.
Proof.
  induction ops as [|o ops IH]; intros p next; unfold pl_placed_from; cbn [pptt_placed_from bk_final]; [reflexivity|].
  destruct (pptt_entry_ref p o) as [e|]; [|reflexivity]. apply IH.
Qed.

(* the image the Impl model emits is exactly tiled *)
Corollary pptt_model_tiles : forall md ctor ops r,
  ts_image pptt_spec ctor ops = Some r ->
  N.of_nat (length r) < 2 ^ 32 ->
  exists s0 s, pptt_new ctor = Some s0 /\
               run_adds pptt_addition md s0 ops = Some s /\
               c03_judge pptt_spec ctor (tbl_image s) ops = true.
Proof.
  intros md ctor ops r H Hfit.
  exact (carry (fun i => c03_judge pptt_spec ctor i ops = true) _ _ _ r (pptt_refines md ctor ops r H Hfit)
           (pptt_reference_tiles ctor ops r H)).
Qed.

Print Assumptions pptt_model_tiles.
