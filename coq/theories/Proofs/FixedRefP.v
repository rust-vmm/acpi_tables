(* The refinement theorems of the fixed-layout structures collected (FADT, SPCR, BERT, TpmServer1_2, TpmClient1_2, Tpm2, RSDP,
   FACS; SPCR and BERT are proved here, the others in their own files), and their reading at the level of the case entry
   points `t_case`: for an in-domain history followed by an observation, the model's event list ends with the reference image
   (the runner of Impl/Run.v ends the list at a refusal, so there was none). *)
From Coq Require Import NArith List.
From ACPI Require Import Proofs.RefCommonP.
From ACPI Require Import Lib.Bytes Lib.Sx Impl.Fields Impl.Run
  Impl.Fadt Impl.Spcr Impl.Bert Impl.Tpm2 Impl.Rsdp Impl.Facs
  Spec.Layout Spec.FixedS Spec.FadtS Spec.SpcrS Spec.BertS Spec.Tpm2S Spec.RsdpS Spec.FacsS
  Proofs.FixedP Proofs.CtorOnlyP Proofs.RefFixedCommonP Proofs.FadtRefP Proofs.Tpm2RefP Proofs.RsdpRefP Proofs.FacsRefP.
Import ListNotations.
Open Scope N_scope.

(* SPCR (component 28): the only public operation is the constructor SPCR::sbi; the Spec's domain is the empty history. *)

(* per-entry content: the packed SerialPortInfo::sbi() followed by the namespace string is the reference body *)
Lemma spcr_entries_are_reference :
  spcr_sbi_body = Some (ser_flds serial_port_info_sbi ++ EMPTY_NAMESPACE).
Proof. vm_compute. reflexivity. Qed.

Theorem spcr_refines :
  forall md ctor ops r,
    ts_image spcr_spec ctor ops = Some r ->
    exists s0 s, spcr_new ctor = Some s0 /\
                 run_steps (spcr_step md) s0 ops = Some s /\
                 spcr_bytes s = r.
Proof.
  intros md ctor ops r H. cbn [ts_image spcr_spec fixed_spec] in H.
  apply (ctor_only_refines _ _ _ _ _ _ _ H). clear H. unfold spcr_ref. intros H.
  destruct ctor as [|l]; [discriminate|].
  destruct l as [|o [|t [|r0 [|x l]]]]; try discriminate.
  destruct (sx_hdr_args o t r0) as [ha|] eqn:Eh; [|discriminate].
  rewrite spcr_entries_are_reference in H. injection H as <-.
  eassert (Hn : spcr_new (SL [o; t; r0]) = Some _)
    by (unfold spcr_new; rewrite (sx_hdr_of_args Eh); reflexivity).
  eexists. split; [exact Hn|].
  eapply (hdr_table_is_ref spcr_bytes _ _ _ ha 90); [reflexivity|vm_compute; reflexivity|apply (spcr_new_good _ _ Hn)].
Qed.

(* BERT (component 27): the only public operation is the constructor; any region length / base, truncated to u32 / u64 on both
   sides. *)

(* per-entry content: the two fields after the header, for all argument values *)
Lemma bert_entries_are_reference rlen rbase :
  lay_at 36 12 [L 36 4 rlen; L 40 8 rbase] = Some (d4 rlen ++ q8 rbase).
Proof. reflexivity. Qed.

Theorem bert_refines :
  forall md ctor ops r,
    ts_image bert_spec ctor ops = Some r ->
    exists s0 s, bert_new ctor = Some s0 /\
                 run_steps (bert_step md) s0 ops = Some s /\
                 bert_bytes s = r.
Proof.
  intros md ctor ops r H. cbn [ts_image bert_spec fixed_spec] in H.
  apply (ctor_only_refines _ _ _ _ _ _ _ H). clear H. unfold bert_ref. intros H.
  destruct ctor as [|l]; [discriminate|].
  destruct l as [|o [|t [|r0 [|[rlen|] [|[rbase|] [|]]]]]]; try discriminate.
  destruct (sx_hdr_args o t r0) as [ha|] eqn:Eh; [|discriminate].
  rewrite bert_entries_are_reference in H. injection H as <-.
  eassert (Hn : bert_new (SL [o; t; r0; SA rlen; SA rbase]) = Some _)
    by (unfold bert_new; rewrite (sx_hdr_of_args Eh); reflexivity).
  eexists. split; [exact Hn|].
  eapply (hdr_table_is_ref bert_bytes _ _ _ ha 48); [reflexivity|reflexivity|apply (bert_new_good _ _ Hn)].
Qed.

(* the shape shared by the eight theorems: a structure with its Spec, its model (constructor, step, image) and the
   well-formedness condition on the constructor's byte-array arguments (True when both sides treat them alike) *)
Definition refines {S : Type} (spec : tspec) (wf : sx -> Prop) (new : sx -> option S)
           (step : mode -> S -> sx -> option (S * list ev)) (image : S -> list N) : Prop :=
  forall md ctor ops r,
    ts_image spec ctor ops = Some r -> wf ctor ->
    exists s0 s, new ctor = Some s0 /\ run_steps (step md) s0 ops = Some s /\ image s = r.

Definition any_ctor (_ : sx) : Prop := True.

Theorem fixed_refines :
  refines fadt_spec fadt_ctor_bytes fadt_new fadt_step fadt_image /\
  refines spcr_spec any_ctor spcr_new spcr_step spcr_bytes /\
  refines bert_spec any_ctor bert_new bert_step bert_bytes /\
  refines tpmserver_spec any_ctor tpmserver_new tpmserver_step tpmserver_bytes /\
  refines tpmclient_spec any_ctor tpmclient_new tpmclient_step tpmclient_bytes /\
  refines tpm2_spec any_ctor tpm2_new tpm2_step tpm2_bytes /\
  refines rsdp_spec rsdp_ctor_bytes rsdp_new rsdp_step rsdp_bytes /\
  refines facs_spec any_ctor facs_new facs_step ser_flds.
Proof.
  unfold refines. repeat split; intros md ctor ops r H Hw.
  - exact (fadt_refines md ctor ops r H Hw).
  - exact (spcr_refines md ctor ops r H).
  - exact (bert_refines md ctor ops r H).
  - exact (tpmserver_refines md ctor ops r H).
  - exact (tpmclient_refines md ctor ops r H).
  - exact (tpm2_refines md ctor ops r H).
  - exact (rsdp_refines md ctor ops r H Hw).
  - exact (facs_refines md ctor ops r H).
Qed.

Lemma ctor_only_no_markers image ctor ops r : ctor_only image ctor ops = Some r -> no_markers ops = true.
Proof. intros H. apply ctor_only_some in H. destruct H as [-> _]. reflexivity. Qed.

(* `t_case md (ctor op ... op 1)`: the observations of the history followed by one observation of the image *)
Definition case_observes (spec : tspec) (wf : sx -> Prop) (t_case : mode -> sx -> list ev) : Prop :=
  forall md ctor ops r,
    ts_image spec ctor ops = Some r -> wf ctor ->
    exists evs, t_case md (SL (ctor :: ops ++ [SA 1])) = evs ++ [EvBytes r].

(* a refinement whose Spec's domain has no observation markers, read at the case entry point *)
Lemma refines_observes {S} spec wf (new : sx -> option S) step image t_case :
  refines spec wf new step image ->
  (forall ctor ops r, ts_image spec ctor ops = Some r -> no_markers ops = true) ->
  (forall md c, t_case md c = run_history (fun s => Some (image s)) (step md) new c) ->
  case_observes spec wf t_case.
Proof.
  intros Href Hm Hc md ctor ops r H Hw. destruct (Href md ctor ops r H Hw) as (s0 & s & Hn & Hr & Hi).
  rewrite Hc. eapply run_history_observe; [exact Hn|exact (Hm _ _ _ H)|exact Hr|now rewrite Hi].
Qed.

Theorem fixed_cases_observe :
  case_observes fadt_spec fadt_ctor_bytes fadt_case /\
  case_observes spcr_spec any_ctor spcr_case /\
  case_observes bert_spec any_ctor bert_case /\
  case_observes tpmserver_spec any_ctor tpmserver_case /\
  case_observes tpmclient_spec any_ctor tpmclient_case /\
  case_observes tpm2_spec any_ctor tpm2_case /\
  case_observes rsdp_spec rsdp_ctor_bytes rsdp_case /\
  case_observes facs_spec any_ctor facs_case.
Proof.
  destruct fixed_refines as (Rfadt & Rspcr & Rbert & Rsrv & Rcli & Rtpm2 & Rrsdp & Rfacs).
  repeat split; (eapply refines_observes; [eassumption| |reflexivity]).
  - exact (fun c o r H => proj1 (fadt_refines_dom c o r H)).
  - exact (ctor_only_no_markers spcr_ref).
  - exact (ctor_only_no_markers bert_ref).
  - exact (fun c o r H => proj1 (tpmserver_refines_dom c o r H)).
  - exact (ctor_only_no_markers tpmclient_ref).
  - exact (fun c o r H => proj1 (tpm2_refines_dom c o r H)).
  - exact (ctor_only_no_markers rsdp_ref).
  - exact (fun c o r H => proj1 (facs_refines_dom c o r H)).
Qed.

Print Assumptions spcr_refines.
Print Assumptions bert_refines.
Print Assumptions fixed_refines.
Print Assumptions fixed_cases_observe.
