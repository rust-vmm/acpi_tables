(* C17 -- the checksum accumulator is a faithful mod-256 sum with exact inverses. *)
From Coq Require Import ZArith List Lia.
From ACPI Require Import Impl.Checksum Proofs.ChecksumP.
Import ListNotations.

(* raw value = (sum of everything added - sum of everything removed) mod 256, computed over the
   integers, for every sequence of add/sub/append/delete and sink byte/word/dword/qword/vec calls,
   with no assumption on the operands at all *)
Theorem c17_raw_is_net_sum :
  forall ops : list ckop, Z.of_N (ck_raw (ck_run ops)) = (net ops mod 256)%Z.
Proof.
  intros ops. unfold ck_run, ck_raw. pose proof (ck_fold_Z ops 0%N) as H. pose proof (ck_fold_lt ops 0%N eq_refl) as Hlt.
  rewrite Z.mod_small in H by lia. now rewrite H.
Qed.

(* every reachable accumulator state is a byte *)
Theorem c17_state_is_byte : forall ops, (ck_run ops < 256)%N.
Proof. intros ops. apply ck_fold_lt. reflexivity. Qed.

(* removing what was added restores the previous state exactly, and conversely *)
Theorem c17_exact_inverses :
  forall s, (s < 256)%N ->
    (forall b, ck_sub (ck_add s b) b = s) /\
    (forall b, ck_add (ck_sub s b) b = s) /\
    (forall l, ck_delete (ck_append s l) l = s) /\
    (forall l, ck_append (ck_delete s l) l = s).
Proof.
  intros s H. repeat split; intros.
  - exact (ck_undo (CkAdd b) (CkSub b) s H eq_refl eq_refl).
  - exact (ck_undo (CkSub b) (CkAdd b) s H eq_refl eq_refl).
  - exact (ck_undo (CkAppend l) (CkDelete l) s H eq_refl eq_refl).
  - exact (ck_undo (CkDelete l) (CkAppend l) s H eq_refl eq_refl).
Qed.

(* the reported checksum makes raw + checksum = 0 mod 256 *)
Theorem c17_value_cancels :
  forall s, (s < 256)%N -> ((ck_raw s + ck_value s) mod 256 = 0)%N /\ (ck_value s < 256)%N.
Proof. exact ck_value_spec. Qed.

(* 200 + (100 + 7) - 9 + (4 + 3 + 2 + 1) - 7 = 301 *)
Example c17_example :
  (ck_run [CkAdd 200; CkAppend [100; 7]; CkSub 9; CkDword 0x01020304; CkDelete [7]] = 301 mod 256)%N.
Proof. vm_compute. reflexivity. Qed.

Print Assumptions c17_raw_is_net_sum.
Print Assumptions c17_state_is_byte.
Print Assumptions c17_exact_inverses.
Print Assumptions c17_value_cancels.
