(* Component 32: the model of the small public items equals the reference on the reference's whole domain, in both build
   profiles, and the independent decoder returns the caller's values. *)
From Coq Require Import NArith List Lia.
From ACPI Require Import Lib.Bytes Lib.Sx Lib.Machine Impl.Fields Impl.Misc Spec.Layout Spec.AmlCoreS Spec.MiscS Spec.RhctS Impl.Rhct
  Proofs.BaseP Proofs.WalkP Proofs.RhctStructP.
Import ListNotations.
Open Scope N_scope.

Lemma access_code_cases k code : access_code k = Some code ->
  (k = 1 /\ code = 1) \/ (k = 2 /\ code = 2) \/ (k = 4 /\ code = 3) \/ (k = 8 /\ code = 4).
Proof.
  unfold access_code. intros H.
  destruct (N.eqb_spec k 1) as [->|]; [injection H as <-; auto|].
  destruct (N.eqb_spec k 2) as [->|]; [injection H as <-; auto|].
  destruct (N.eqb_spec k 4) as [->|]; [injection H as <-; auto|].
  destruct (N.eqb_spec k 8) as [->|]; [injection H as <-; auto 6|discriminate H].
Qed.

Lemma gas_model_eq_ref md space k addr r :
  gas_ref space k addr = Some r -> exists f, generic_address md space k addr = Some f /\ ser_flds f = r.
Proof.
  unfold gas_ref. intros H. destruct (access_code k) as [code|] eqn:Ec; [|discriminate H].
  destruct (access_code_cases k code Ec) as [[-> ->]|[[-> ->]|[[-> ->]|[-> ->]]]];
    (eexists; split; [destruct md; reflexivity|]; injection H as <-; reflexivity).
Qed.

Lemma misc_ref_shape c r : misc_ref c = Some r ->
  (exists k addr, c = SL [SA 1; SA k; SA addr]) \/ (exists k addr, c = SL [SA 2; SA k; SA addr]) \/
  (exists w, c = SL [SA 3; SA w] /\ w < 4) \/ (exists l, c = SL [SA 4; SL l]) \/ (exists l, c = SL [SA 5; SL l]).
Proof.
  unfold misc_ref. intros H. break_sx H; eauto 10.
  (* what remains are the four size queries (3 w), w = 0 .. 3 *)
  all: right; right; left; eexists; split; reflexivity.
Qed.

Theorem misc_refines : forall md c r, misc_ref c = Some r -> misc_case md c = r.
Proof.
  intros md c r H.
  destruct (misc_ref_shape c r H) as [(k & addr & ->)|[(k & addr & ->)|[(w & Hcw & Hw)|[(l & ->)|(l & ->)]]]];
    try subst c; cbn [misc_ref] in H.
  - destruct (N.ltb_spec addr (2 ^ 16)) as [Hlt|]; [|discriminate H].
    destruct (gas_ref 1 k addr) as [b|] eqn:E; [|discriminate H]. injection H as <-.
    destruct (gas_model_eq_ref md 1 k addr b E) as (f & Hf & Hs).
    cbn [misc_case]. rewrite (N.mod_small addr (2 ^ 16) Hlt), Hf, Hs. reflexivity.
  - destruct (N.ltb_spec addr (2 ^ 64)) as [Hlt|]; [|discriminate H].
    destruct (gas_ref 0 k addr) as [b|] eqn:E; [|discriminate H]. injection H as <-.
    destruct (gas_model_eq_ref md 0 k addr b E) as (f & Hf & Hs).
    cbn [misc_case]. rewrite Hf, Hs. reflexivity.
  - assert (Hc : w = 0 \/ w = 1 \/ w = 2 \/ w = 3) by lia.
    destruct Hc as [-> | [-> | [-> | ->]]]; injection H as <-; reflexivity.
  - cbn [misc_case]. destruct (sx_nums l) as [b|]; [|discriminate H].
    destruct (is_nameseg b); [|discriminate H]. injection H as <-. reflexivity.
  - cbn [misc_case]. destruct (rhct_entry_ref ([], 0) (SL [SA 1; SL l])) as [e|] eqn:E; [|discriminate H]. injection H as <-.
    (* the Spec's ISA string node outside a table is the node the serialiser writes *)
    apply rhct_entry_ref_cases in E as (d & Hop & Hfit & ->). inversion Hop as [str sb Es| | |]; subst.
    cbn [sx_bytes] in Es. rewrite Es, isa_bytes_node, (proj2 (N.leb_le _ _) Hfit). reflexivity.
Qed.

(* decoding the reference returns the caller's values at the specification's offsets *)
Theorem gas_ref_decodes : forall space k addr r code,
  gas_ref space k addr = Some r -> access_code k = Some code -> space < 256 -> addr < 2 ^ 64 ->
  gas_decode r = Some (space, 8 * k, 0, code, addr).
Proof.
  intros space k addr r code H Hc Hs Ha. unfold gas_ref in H. rewrite Hc in H.
  destruct (lay_decodes _ _ _ H) as [Hlen Hf]. unfold gas_decode. rewrite Hlen. cbn [Nat.eqb].
  rewrite (Hf 0%nat 1%nat space), (Hf 1%nat 1%nat (8 * k)), (Hf 2%nat 1%nat 0), (Hf 3%nat 1%nat code), (Hf 4%nat 8%nat addr) by (cbn [In]; auto 8).
  assert (Hk : 8 * k < 256 /\ code < 256).
  { destruct (access_code_cases k code Hc) as [[-> ->]|[[-> ->]|[[-> ->]|[-> ->]]]]; split; reflexivity. }
  destruct Hk as [Hk Hcode].
  change (2 ^ (8 * N.of_nat 1)) with 256. change (2 ^ (8 * N.of_nat 8)) with (2 ^ 64).
  rewrite !N.mod_small by assumption || reflexivity. reflexivity.
Qed.

Example misc_nonvacuous :
  misc_ref (SL [SA 1; SA 4; SA 0x3f8]) = Some [EvBytes [1; 32; 0; 3; 0xf8; 3; 0; 0; 0; 0; 0; 0]] /\
  misc_ref (SL [SA 4; SL [SA 70; SA 76; SA 68; SA 48]]) = Some [EvBytes [70; 76; 68; 48]] /\ misc_ref (SL [SA 4; SL [SA 102; SA 76; SA 68; SA 48]]) = None /\
  misc_ref (SL [SA 5; SL [SA 114; SA 118; SA 54]]) = Some [EvBytes [0; 0; 12; 0; 1; 0; 4; 0; 114; 118; 54; 0]] /\
  misc_case Checked (SL [SA 1; SA 16; SA 0]) = [EvPanic] /\ misc_case Wrapping (SL [SA 2; SA 3; SA 5]) = [EvPanic].
Proof. vm_compute. repeat split. Qed.

Print Assumptions misc_refines.
Print Assumptions gas_ref_decodes.
