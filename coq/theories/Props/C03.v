(* C03 -- table bodies are exactly tiled by self-describing entries; counts agree.  Each theorem is closed by the lemma of
   Proofs/ that proves it, except the two about the images the model emits (c03_model_images_tile, c03_model_images_selfcheck),
   which carry each table's reference-image theorem through its refinement theorem ([carry]) here. *)
From Coq Require Import NArith List.
From ACPI Require Import Lib.Bytes Lib.Sx Lib.Machine Impl.Table Spec.Layout Proofs.TableP Proofs.WalkP Proofs.Tables Proofs.Registry.
From ACPI Require Import Impl.Madt Impl.Srat Impl.Mcfg Impl.Xsdt Spec.MadtS Spec.SratS Spec.McfgS Spec.XsdtS
  Proofs.MadtRefP Proofs.SratRefP Proofs.McfgRefP Proofs.XsdtRefP Proofs.WalkRefCommon2P Proofs.WalkRefTablesP.
From ACPI Require Import Impl.Rhct Impl.Viot Impl.Rimt Impl.Hmat Spec.RhctS Spec.ViotS Spec.RimtS
  Proofs.RhctRefP Proofs.ViotRefP Proofs.RimtRefP Proofs.RhctWalkRefP Proofs.ViotWalkRefP Proofs.RimtWalkRefP Proofs.HmatP Proofs.HmatWalkP.
From ACPI Require Import Judge Spec.SelfCheck Spec.CedtS Spec.PpttS Spec.HmatS Spec.HestS Spec.RqscS Impl.Cedt Impl.Pptt
  Proofs.PpttSelfP Proofs.HestSelfP Proofs.CedtRefP Proofs.PpttRefP Proofs.HmatRefP.
Import ListNotations.
Open Scope N_scope.

(* The Spec walker on ANY concatenation of entries that describe themselves under a header format: stepping by each
   entry's own length field visits exactly those entries, in order, with their type codes, and lands exactly on the end. *)
Theorem c03_walker_tiles :
  forall h es tys off fuel,
    Forall2 (self_describing h) es tys -> (length es <= fuel)%nat ->
    walk fuel h off (concat es) = Some (walk_result off es tys).
Proof. exact walk_concat. Qed.

(* For every table in the walk registry (Proofs/Registry.v: MADT SRAT XSDT MCFG PPTT RHCT RIMT VIOT CEDT HEST HMAT), after every history
   the model ACCEPTS, in both build profiles: from the specification's first-entry offset the walk over
   the emitted image finds exactly the entries that were added (in insertion order, with their own type codes and lengths),
   the image ends where the last entry ends, and the maintained entry count equals the number of entries. *)
Theorem c03_tables :
  forall W, In W walk_tables ->
  forall md c ops s0 s,
    at_new (wt_table W) c = Some s0 -> run_adds (at_entry (wt_table W)) md s0 ops = Some s ->
    N.of_nat (length (tbl_image s)) < 2 ^ 32 ->
    let first := (36 + length (mid (t_kind s) (t_pre s) 0))%nat in
    exists tys,
      Forall2 (self_describing (wt_ehdr W)) (t_ents s) tys /\
      walk (length (t_ents s)) (wt_ehdr W) first (skipn first (tbl_image s)) = Some (walk_result first (t_ents s) tys) /\
      concat (t_ents s) = skipn first (tbl_image s) /\
      t_cnt s = N.of_nat (length (t_ents s)).
Proof. intros W _. exact (walktable_tiles W). Qed.

(* HMAT spelled out (it is also in the registry): first entry at offset 40 *)
Theorem c03_hmat :
  forall md md' c ops s0 s,
    hmat_new c = Some s0 -> run_adds (hmat_addition md) md' s0 ops = Some s -> N.of_nat (length (tbl_image s)) < 2 ^ 32 ->
    exists tys,
      Forall2 (self_describing H_u16_u16_u32) (t_ents s) tys /\
      walk (length (t_ents s)) H_u16_u16_u32 40 (skipn 40 (tbl_image s)) = Some (walk_result 40 (t_ents s) tys) /\
      concat (t_ents s) = skipn 40 (tbl_image s) /\
      t_cnt s = N.of_nat (length (t_ents s)).
Proof. exact hmat_tiles. Qed.

(* The run-time judgement itself as a theorem.  [c03_judge ts ctor img ops] is the boolean the check evaluates on the
   IMPLEMENTATION's bytes: the Spec walker started at the table's first-entry offset finds exactly the (type, length) list of
   the entries added by [ops], lands on the end of the image, and the count fields hold.  For every history inside the
   reference's domain it holds of the reference image, and (through the C04 refinement) of the model's image. *)
Theorem c03_reference_images_tile :
  (forall ctor ops r, ts_image madt_spec ctor ops = Some r -> c03_judge madt_spec ctor r ops = true) /\
  (forall ctor ops r, ts_image srat_spec ctor ops = Some r -> c03_judge srat_spec ctor r ops = true) /\
  (forall ctor ops r, ts_image mcfg_spec ctor ops = Some r -> c03_judge mcfg_spec ctor r ops = true) /\
  (forall ctor ops r, ts_image xsdt_spec ctor ops = Some r -> c03_judge xsdt_spec ctor r ops = true) /\
  (forall ctor ops r, ts_image rhct_spec ctor ops = Some r -> c03_judge rhct_spec ctor r ops = true) /\
  (forall ctor ops r, ts_image viot_spec ctor ops = Some r -> c03_judge viot_spec ctor r ops = true) /\
  (forall ctor ops r, ts_image rimt_spec ctor ops = Some r -> N.of_nat (length r) < 2 ^ 32 -> c03_judge rimt_spec ctor r ops = true).
Proof.
  repeat split; [exact madt_reference_tiles | exact srat_reference_tiles | exact mcfg_reference_tiles | exact xsdt_reference_tiles
                | exact rhct_reference_tiles | exact viot_reference_tiles | exact rimt_reference_tiles].
Qed.

Theorem c03_model_images_tile :
  (forall md ctor ops r, ts_image madt_spec ctor ops = Some r -> madt_ops_wf ops -> N.of_nat (length r) < 2 ^ 32 ->
     exists s0 s, madt_new ctor = Some s0 /\ run_adds madt_addition md s0 ops = Some s /\
                  c03_judge madt_spec ctor (tbl_image s) ops = true) /\
  (forall md ctor ops r, ts_image srat_spec ctor ops = Some r -> srat_ops_wf ops -> N.of_nat (length r) < 2 ^ 32 ->
     exists s0 s, srat_new ctor = Some s0 /\ run_adds srat_addition md s0 ops = Some s /\
                  c03_judge srat_spec ctor (tbl_image s) ops = true) /\
  (forall md ctor ops r, ts_image mcfg_spec ctor ops = Some r -> N.of_nat (length r) < 2 ^ 32 ->
     exists s0 s, mcfg_new ctor = Some s0 /\ run_adds mcfg_addition md s0 ops = Some s /\
                  c03_judge mcfg_spec ctor (tbl_image s) ops = true) /\
  (forall md ctor ops r, ts_image xsdt_spec ctor ops = Some r -> N.of_nat (length r) < 2 ^ 32 ->
     exists s0 s, xsdt_new ctor = Some s0 /\ run_adds xsdt_addition md s0 ops = Some s /\
                  c03_judge xsdt_spec ctor (tbl_image s) ops = true) /\
  (forall md ctor ops r, ts_image rhct_spec ctor ops = Some r -> N.of_nat (length r) < 2 ^ 32 ->
     exists s0 s, rhct_new ctor = Some s0 /\ run_adds rhct_addition md s0 ops = Some s /\
                  c03_judge rhct_spec ctor (tbl_image s) ops = true) /\
  (forall md ctor ops r, ts_image viot_spec ctor ops = Some r ->
     exists s0 s, viot_new ctor = Some s0 /\ run_adds viot_addition md s0 ops = Some s /\
                  c03_judge viot_spec ctor (tbl_image s) ops = true) /\
  (forall md ctor ops r, ts_image rimt_spec ctor ops = Some r -> N.of_nat (length r) < 2 ^ 32 ->
     exists s0 s, rimt_new ctor = Some s0 /\ run_adds rimt_addition md s0 ops = Some s /\
                  c03_judge rimt_spec ctor (tbl_image s) ops = true).
Proof.
  repeat split.
  - intros md ctor ops r H Hwf Hfit.
    exact (carry (fun i => c03_judge madt_spec ctor i ops = true) _ _ _ r (madt_refines md ctor ops r H Hwf Hfit) (madt_reference_tiles ctor ops r H)).
  - intros md ctor ops r H Hwf Hfit.
    exact (carry (fun i => c03_judge srat_spec ctor i ops = true) _ _ _ r (srat_refines md ctor ops r H Hwf Hfit) (srat_reference_tiles ctor ops r H)).
  - intros md ctor ops r H Hfit.
    exact (carry (fun i => c03_judge mcfg_spec ctor i ops = true) _ _ _ r (mcfg_refines md ctor ops r H Hfit) (mcfg_reference_tiles ctor ops r H)).
  - intros md ctor ops r H Hfit.
    exact (carry (fun i => c03_judge xsdt_spec ctor i ops = true) _ _ _ r (xsdt_refines md ctor ops r H Hfit) (xsdt_reference_tiles ctor ops r H)).
  - intros md ctor ops r H Hfit.
    exact (carry (fun i => c03_judge rhct_spec ctor i ops = true) _ _ _ r (rhct_refines md ctor ops r H Hfit) (rhct_reference_tiles ctor ops r H)).
  - intros md ctor ops r H.
    exact (carry (fun i => c03_judge viot_spec ctor i ops = true) _ _ _ r (viot_refines md ctor ops r H) (viot_reference_tiles ctor ops r H)).
  - intros md ctor ops r H Hfit.
    exact (carry (fun i => c03_judge rimt_spec ctor i ops = true) _ _ _ r (rimt_refines md ctor ops r H Hfit) (rimt_reference_tiles ctor ops r H Hfit)).
Qed.

(* The two variable-body tables outside the walk registry. *)
From ACPI Require Import Impl.Rqsc Impl.Slit Spec.RqscWalkS Proofs.FixedP Proofs.RqscP Proofs.RqscRefP Proofs.RqscWalkP
  Proofs.SlitP Proofs.SlitShapeP.

(* RQSC (nested: controllers, and resources inside each controller).  For every constructor argument and every history of
   add_controller calls the model ACCEPTS, in both build profiles, with no side condition: the two-level walk of the emitted
   image (Spec/RqscWalkS.v: controllers stepped by their own 16-bit Length from offset 40, resources stepped by their own 16-bit
   Length from offset 28 of their controller) succeeds -- every inner walk lands exactly on its controller's end and the outer
   walk exactly on the end of the image --; what it finds is exactly what the caller added (rqsc_expected reads the operations
   alone): the same controllers in insertion order with their type codes and sizes and, inside each, the same resources in
   insertion order with their type codes and sizes; ControllerCount (offset 36) is the number of controllers found and every
   controller's ResourceCount (its offset 26) is the number of resources the inner walk found. *)
Theorem c03_rqsc_nested_walk :
  forall md c ops s0 s,
    rqsc_new c = Some s0 -> rqsc_run md s0 ops = Some s ->
    exists found exp,
      rqsc_walk2 (Rqsc.rqsc_image s) = Some found /\
      rqsc_expected ops = Some exp /\
      rq_shape found = exp /\
      ctrls_tile 40 found (length (Rqsc.rqsc_image s)) /\
      field_at (Rqsc.rqsc_image s) 36 4 = N.of_nat (length found) /\
      Forall (fun rc => rc_count rc = N.of_nat (length (rc_res rc))) found.
Proof. exact rqsc_nested_walk. Qed.

(* non-vacuity: an accepted history of three controllers with 3 + 2 + 0 resources (every resource-id form), what the walk
   returns on its image, and the judgement rejecting a one-byte corruption (ResourceCount 3 -> 4) and a truncation of that image *)
Example c03_rqsc_nested_walk_nonvacuous :
  (* rqsc_walk_demo answers Some only when rqsc_new and rqsc_run accepted: (what the walk found, its shape's expectation, image size, count) *)
  option_map (fun r => (rq_shape (fst (fst (fst r))), snd (fst r), snd r)) (rqsc_walk_demo Checked) =
    Some ([ (0, 97%nat, [(0, 20%nat); (1, 28%nat); (0, 21%nat)]); (1, 68%nat, [(1, 20%nat); (0, 20%nat)]); (0, 28%nat, []) ], 233%nat, 3) /\
  rqsc_walk_demo Wrapping = rqsc_walk_demo Checked /\
  rqsc_nested_judge rqsc_demo_image rqsc_demo_ops = true /\
  rqsc_nested_judge (upd rqsc_demo_image 66 4) rqsc_demo_ops = false /\
  rqsc_nested_judge (firstn 232 rqsc_demo_image) rqsc_demo_ops = false.
Proof. repeat split; vm_compute; reflexivity. Qed.

(* SLIT (no self-describing entries: a count and a square matrix).  For every constructor call the model accepts (n localities)
   and every accepted sequence of set_distance calls, in both build profiles: the image is 36 + 8 + n^2 bytes, the 8-byte
   NumberOfLocalities at offset 36 is n, and the body from offset 44 is exactly n rows of n one-byte cells: every cell (i, j)
   lies inside the image at offset 44 + i*n + j, distinct cells have distinct offsets, and every byte from 44 to the end is a cell. *)
Theorem c03_slit_shape :
  forall md o t r n ops s0 s,
    slit_new (SL [o; t; r; SA n]) = Some s0 -> slit_run md s0 ops = Some s ->
    N.of_nat (length (slit_image s)) = 36 + 8 + n * n /\
    field_at (slit_image s) 36 8 = n /\
    (forall i j, i < n -> j < n -> (44 <= 44 + N.to_nat (i * n + j) < length (slit_image s))%nat) /\
    (forall i j i' j', i < n -> j < n -> i' < n -> j' < n -> i * n + j = i' * n + j' -> i = i' /\ j = j') /\
    (forall k, (44 <= k < length (slit_image s))%nat -> exists i j, i < n /\ j < n /\ k = (44 + N.to_nat (i * n + j))%nat).
Proof. exact slit_shape. Qed.

(* the same on the case vocabulary (observation markers included), as the harness drives it *)
Theorem c03_slit_shape_history :
  forall md o t r n ops s0 s,
    slit_new (SL [o; t; r; SA n]) = Some s0 -> run_steps (slit_step md) s0 ops = Some s ->
    N.of_nat (length (slit_image s)) = 36 + 8 + n * n /\
    field_at (slit_image s) 36 8 = n /\
    (forall i j, i < n -> j < n -> (44 <= 44 + N.to_nat (i * n + j) < length (slit_image s))%nat) /\
    (forall i j i' j', i < n -> j < n -> i' < n -> j' < n -> i * n + j = i' * n + j' -> i = i' /\ j = j') /\
    (forall k, (44 <= k < length (slit_image s))%nat -> exists i j, i < n /\ j < n /\ k = (44 + N.to_nat (i * n + j))%nat).
Proof. exact slit_shape_history. Qed.

(* non-vacuity: 3 localities and three accepted calls give 53 bytes, count 3 and three rows of three cells; 0 localities give the
   44-byte table; an out-of-range call is refused *)
Example c03_slit_shape_nonvacuous :
  slit_shape_demo Checked 3 [(0, 1, 20); (2, 2, 7); (1, 2, 30)] = Some (53%nat, 3, [10; 20; 10;  20; 10; 30;  10; 30; 7]) /\
  slit_shape_demo Wrapping 3 [(0, 1, 20); (2, 2, 7); (1, 2, 30)] = Some (53%nat, 3, [10; 20; 10;  20; 10; 30;  10; 30; 7]) /\
  slit_shape_demo Checked 0 [] = Some (44%nat, 0, []) /\
  slit_shape_demo Checked 3 [(0, 3, 1)] = None.
Proof. repeat split; vm_compute; reflexivity. Qed.

(* Per-entry self-consistency.  [c03_self comp img] (Judge.v, Spec/SelfCheck.v) is the second boolean the check evaluates on
   EVERY image the implementation emits, with or without a reference image: the walk from the table's first-entry offset
   lands on the end of the image and every entry it finds is consistent with itself -- an entry of a fixed-size type has the
   specification's size; in a variable-size entry every count / array-offset / string-length field agrees with the entry's
   own length.  For every history inside the reference's domain it holds of the reference image. *)
Theorem c03_xsdt_selfcheck : forall ctor ops r, ts_image xsdt_spec ctor ops = Some r -> c03_self 10 r = true.
Proof. exact xsdt_selfcheck. Qed.
Theorem c03_mcfg_selfcheck : forall ctor ops r, ts_image mcfg_spec ctor ops = Some r -> c03_self 11 r = true.
Proof. exact mcfg_selfcheck. Qed.
Theorem c03_madt_selfcheck : forall ctor ops r, ts_image madt_spec ctor ops = Some r -> c03_self 12 r = true.
Proof. exact madt_selfcheck. Qed.
Theorem c03_srat_selfcheck : forall ctor ops r, ts_image srat_spec ctor ops = Some r -> c03_self 13 r = true.
Proof. exact srat_selfcheck. Qed.
Theorem c03_hmat_selfcheck : forall ctor ops r, ts_image hmat_spec ctor ops = Some r -> c03_self 15 r = true.
Proof. exact hmat_selfcheck. Qed.
Theorem c03_pptt_selfcheck : forall ctor ops r, ts_image pptt_spec ctor ops = Some r -> c03_self 16 r = true.
Proof. exact pptt_selfcheck. Qed.
Theorem c03_rhct_selfcheck : forall ctor ops r, ts_image rhct_spec ctor ops = Some r -> c03_self 17 r = true.
Proof. exact rhct_selfcheck. Qed.
Theorem c03_rimt_selfcheck : forall ctor ops r, ts_image rimt_spec ctor ops = Some r -> c03_self 18 r = true.
Proof. exact rimt_selfcheck. Qed.
Theorem c03_viot_selfcheck : forall ctor ops r, ts_image viot_spec ctor ops = Some r -> c03_self 19 r = true.
Proof. exact viot_selfcheck. Qed.
Theorem c03_cedt_selfcheck : forall ctor ops r, ts_image cedt_spec ctor ops = Some r -> c03_self 20 r = true.
Proof. exact cedt_selfcheck. Qed.
(* HEST: the observation that follows a stand-alone error structure (ops 20 / 21) shows that structure, not the table; the
   run-time check exempts exactly those observations ([c03_full_oracle]), and so does the theorem *)
Theorem c03_hest_selfcheck : forall ctor ops r,
  ts_image hest_spec ctor ops = Some r -> shows_alone ops = false -> c03_self 21 r = true.
Proof. exact hest_selfcheck. Qed.
Theorem c03_rqsc_selfcheck : forall ctor ops r, ts_image rqsc_spec ctor ops = Some r -> c03_self 22 r = true.
Proof. exact rqsc_selfcheck. Qed.

(* [c03_judge] on the reference images of the tables not covered by [c03_reference_images_tile] *)
Theorem c03_reference_images_tile_more :
  (forall ctor ops r, ts_image cedt_spec ctor ops = Some r -> c03_judge cedt_spec ctor r ops = true) /\
  (forall ctor ops r, ts_image pptt_spec ctor ops = Some r -> c03_judge pptt_spec ctor r ops = true) /\
  (forall ctor ops r, ts_image hmat_spec ctor ops = Some r -> c03_judge hmat_spec ctor r ops = true) /\
  (forall ctor ops r, ts_image hest_spec ctor ops = Some r -> c03_judge hest_spec ctor r ops = true) /\
  (forall ctor ops r, ts_image rqsc_spec ctor ops = Some r -> c03_judge rqsc_spec ctor r ops = true).
Proof.
  repeat split; [exact cedt_reference_tiles | exact pptt_reference_tiles | exact hmat_reference_tiles
                | exact hest_reference_tiles | exact rqsc_reference_tiles].
Qed.

(* the same self-check on the image the Impl model emits, through the refinement theorems *)
Theorem c03_model_images_selfcheck :
  (forall md ctor ops r, ts_image madt_spec ctor ops = Some r -> madt_ops_wf ops -> N.of_nat (length r) < 2 ^ 32 ->
     exists s0 s, madt_new ctor = Some s0 /\ run_adds madt_addition md s0 ops = Some s /\ c03_self 12 (tbl_image s) = true) /\
  (forall md ctor ops r, ts_image srat_spec ctor ops = Some r -> srat_ops_wf ops -> N.of_nat (length r) < 2 ^ 32 ->
     exists s0 s, srat_new ctor = Some s0 /\ run_adds srat_addition md s0 ops = Some s /\ c03_self 13 (tbl_image s) = true) /\
  (forall md ctor ops r, ts_image mcfg_spec ctor ops = Some r -> N.of_nat (length r) < 2 ^ 32 ->
     exists s0 s, mcfg_new ctor = Some s0 /\ run_adds mcfg_addition md s0 ops = Some s /\ c03_self 11 (tbl_image s) = true) /\
  (forall md ctor ops r, ts_image xsdt_spec ctor ops = Some r -> N.of_nat (length r) < 2 ^ 32 ->
     exists s0 s, xsdt_new ctor = Some s0 /\ run_adds xsdt_addition md s0 ops = Some s /\ c03_self 10 (tbl_image s) = true) /\
  (forall md ctor ops r, ts_image rhct_spec ctor ops = Some r -> N.of_nat (length r) < 2 ^ 32 ->
     exists s0 s, rhct_new ctor = Some s0 /\ run_adds rhct_addition md s0 ops = Some s /\ c03_self 17 (tbl_image s) = true) /\
  (forall md ctor ops r, ts_image viot_spec ctor ops = Some r ->
     exists s0 s, viot_new ctor = Some s0 /\ run_adds viot_addition md s0 ops = Some s /\ c03_self 19 (tbl_image s) = true) /\
  (forall md ctor ops r, ts_image rimt_spec ctor ops = Some r -> N.of_nat (length r) < 2 ^ 32 ->
     exists s0 s, rimt_new ctor = Some s0 /\ run_adds rimt_addition md s0 ops = Some s /\ c03_self 18 (tbl_image s) = true) /\
  (forall md ctor ops r, ts_image cedt_spec ctor ops = Some r -> N.of_nat (length r) < 2 ^ 32 ->
     exists s0 s, cedt_new ctor = Some s0 /\ run_adds cedt_addition md s0 ops = Some s /\ c03_self 20 (tbl_image s) = true) /\
  (forall md ctor ops r, ts_image pptt_spec ctor ops = Some r -> N.of_nat (length r) < 2 ^ 32 ->
     exists s0 s, pptt_new ctor = Some s0 /\ run_adds pptt_addition md s0 ops = Some s /\ c03_self 16 (tbl_image s) = true) /\
  (forall md ctor ops r, ts_image hmat_spec ctor ops = Some r -> N.of_nat (length r) < 2 ^ 32 ->
     exists s0 s, hmat_new ctor = Some s0 /\ run_adds (hmat_addition md) md s0 ops = Some s /\ c03_self 15 (tbl_image s) = true).
Proof.
  repeat split.
  - intros md ctor ops r H Hwf Hfit.
    exact (carry (fun i => c03_self 12 i = true) _ _ _ r (madt_refines md ctor ops r H Hwf Hfit) (madt_selfcheck ctor ops r H)).
  - intros md ctor ops r H Hwf Hfit.
    exact (carry (fun i => c03_self 13 i = true) _ _ _ r (srat_refines md ctor ops r H Hwf Hfit) (srat_selfcheck ctor ops r H)).
  - intros md ctor ops r H Hfit.
    exact (carry (fun i => c03_self 11 i = true) _ _ _ r (mcfg_refines md ctor ops r H Hfit) (mcfg_selfcheck ctor ops r H)).
  - intros md ctor ops r H Hfit.
    exact (carry (fun i => c03_self 10 i = true) _ _ _ r (xsdt_refines md ctor ops r H Hfit) (xsdt_selfcheck ctor ops r H)).
  - intros md ctor ops r H Hfit.
    exact (carry (fun i => c03_self 17 i = true) _ _ _ r (rhct_refines md ctor ops r H Hfit) (rhct_selfcheck ctor ops r H)).
  - intros md ctor ops r H.
    exact (carry (fun i => c03_self 19 i = true) _ _ _ r (viot_refines md ctor ops r H) (viot_selfcheck ctor ops r H)).
  - intros md ctor ops r H Hfit.
    exact (carry (fun i => c03_self 18 i = true) _ _ _ r (rimt_refines md ctor ops r H Hfit) (rimt_selfcheck ctor ops r H)).
  - intros md ctor ops r H Hfit.
    exact (carry (fun i => c03_self 20 i = true) _ _ _ r (cedt_refines md ctor ops r H Hfit) (cedt_selfcheck ctor ops r H)).
  - intros md ctor ops r H Hfit.
    exact (carry (fun i => c03_self 16 i = true) _ _ _ r (pptt_refines md ctor ops r H Hfit) (pptt_selfcheck ctor ops r H)).
  - intros md ctor ops r H Hfit.
    exact (carry (fun i => c03_self 15 i = true) _ _ _ r (hmat_refines md ctor ops r H Hfit) (hmat_selfcheck ctor ops r H)).
Qed.

Print Assumptions c03_walker_tiles.
Print Assumptions c03_tables.
Print Assumptions c03_reference_images_tile.
Print Assumptions c03_model_images_tile.
Print Assumptions c03_hmat.
Print Assumptions c03_rqsc_nested_walk.
Print Assumptions c03_slit_shape.
Print Assumptions c03_slit_shape_history.
Print Assumptions c03_xsdt_selfcheck.
Print Assumptions c03_mcfg_selfcheck.
Print Assumptions c03_madt_selfcheck.
Print Assumptions c03_srat_selfcheck.
Print Assumptions c03_hmat_selfcheck.
Print Assumptions c03_pptt_selfcheck.
Print Assumptions c03_rhct_selfcheck.
Print Assumptions c03_rimt_selfcheck.
Print Assumptions c03_viot_selfcheck.
Print Assumptions c03_cedt_selfcheck.
Print Assumptions c03_hest_selfcheck.
Print Assumptions c03_rqsc_selfcheck.
Print Assumptions c03_reference_images_tile_more.
Print Assumptions c03_model_images_selfcheck.
