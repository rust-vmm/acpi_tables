(* C11, per-structure instances: the generic machinery.
   A packed structure is a field list; a builder chain is a fold of a partial step function over the builder calls
   (`fold_opt`, which Proofs/SlotsP.v also folds with; `apply_setters` and `apply_builders` of the Impl files are it).
   If every single call (i) keeps the widths, (ii) ORs `bit o` into the flag field and (iii) writes no field outside
   the byte ranges `ranges o`, then for EVERY sequence of calls
     - the flag field read from the emitted BYTES at its (offset, width) is  initial OR big_or (map bit ops)   (union),
     - every byte outside the byte ranges of the flag field and of the fields in the footprint of the calls made is the
       byte of the structure before any call                                                                     (frame),
     - a bit is set iff it was set initially or some call made carries it                                        (gating).
   What a single call does is established per structure as a derivation (`writes`) that follows the builder's expression.
   Also: the same three facts for hand-written serialisers of the shape  pre ++ le w flags ++ post  or  fields ++ tail, and
   for records whose builders are either options (OR a bit into the flags, nothing else) or value setters (blind to the
   flags). *)
From Coq Require Import NArith List Lia Bool Arith.
From ACPI Require Import Lib.Bytes Lib.Sx Impl.Fields Impl.Madt Impl.Srat Spec.Layout
  Proofs.FlagsP Proofs.FadtP Proofs.BaseP.
Import ListNotations.
Open Scope N_scope.

Lemma big_or_app a b : big_or (a ++ b) = N.lor (big_or a) (big_or b).
Proof.
  induction a as [|x a IH]; cbn [app big_or fold_right]; [reflexivity|].
  fold (big_or (a ++ b)). fold (big_or a). now rewrite IH, N.lor_assoc.
Qed.

Fixpoint fold_opt {A} (st : A -> sx -> option A) (x : A) (l : list sx) : option A :=
  match l with
  | [] => Some x
  | o :: r => match st x o with Some x' => fold_opt st x' r | None => None end
  end.

(* the Impl files each write this recursion out for their own builder *)
Lemma fold_opt_unique {A} (st : A -> sx -> option A) (F : A -> list sx -> option A) :
  (forall x, F x [] = Some x) ->
  (forall x o r, F x (o :: r) = match st x o with Some x' => F x' r | None => None end) ->
  forall l x, F x l = fold_opt st x l.
Proof.
  intros H0 H1. induction l as [|o l IH]; intros x; [apply H0|].
  rewrite H1. cbn [fold_opt]. destruct (st x o); [apply IH|reflexivity].
Qed.

Lemma apply_setters_fold st f l : apply_setters st f l = fold_opt st f l.
Proof. apply (fold_opt_unique st (apply_setters st)); reflexivity. Qed.

Lemma apply_builders_fold {A} (st : A -> sx -> option A) x l : apply_builders st x l = fold_opt st x l.
Proof. apply (fold_opt_unique st (apply_builders st)); reflexivity. Qed.

Lemma fold_opt_app {A} (st : A -> sx -> option A) l1 : forall l2 x,
  fold_opt st x (l1 ++ l2) = match fold_opt st x l1 with Some y => fold_opt st y l2 | None => None end.
Proof. induction l1 as [|o l1 IH]; intros l2 x; cbn [app fold_opt]; [reflexivity|]. destruct (st x o); [apply IH|reflexivity]. Qed.

(* a table of option bits: every entry a single bit, all different *)
Definition single_bit (n : N) : bool := negb (n =? 0) && (N.land n (n - 1) =? 0).
Fixpoint nodupb (l : list N) : bool :=
  match l with [] => true | x :: r => negb (existsb (N.eqb x) r) && nodupb r end.
Definition distinct_single_bits (l : list N) : bool := forallb single_bit l && nodupb l.
Definition below (n : N) (l : list N) : bool := forallb (fun x => x <? n) l.

Definition foff (ws : list nat) (i : nat) : nat := wsum (firstn i ws).
Definition fwid (ws : list nat) (i : nat) : nat := nth i ws 0%nat.
(* the byte range (offset, width) of field i *)
Definition fld_range (ws : list nat) (i : nat) : nat * nat := (foff ws i, fwid ws i).

Definition in_range (k : nat) (r : nat * nat) : Prop := (fst r <= k < fst r + snd r)%nat.
Definition in_ranges (k : nat) (rs : list (nat * nat)) : Prop := exists r, In r rs /\ in_range k r.

Lemma in_ranges_intro k r rs : In r rs -> in_range k r -> in_ranges k rs.
Proof. intros Hi Hr. exists r. split; assumption. Qed.

(* The frame argument of the field-list instances.  `loc j` is where field j lies in the emitted bytes (`fld_range WS`
   for a bare field list): a byte outside the range of field i and outside the ranges the calls govern lies in a field
   j <> i that no call governs. *)
Lemma outside_ranges (loc : nat -> nat * nat) i (ranges : sx -> list (nat * nat)) ops k :
  ~ in_ranges k (loc i :: concat (map ranges ops)) ->
  forall j, in_range k (loc j) -> j <> i /\ forall o, In o ops -> ~ In (loc j) (ranges o).
Proof.
  intros Hk j Hj. split.
  - intros ->. apply Hk. now apply (in_ranges_intro k (loc i)); [left|].
  - intros o Ho Hin. apply Hk. apply (in_ranges_intro k (loc j)); [right|exact Hj].
    apply in_concat. exists (ranges o). split; [now apply in_map|exact Hin].
Qed.

(* two field lists of the same widths agree on byte k as soon as they agree on the field byte k lies in *)
Lemma nth_ser_flds_agree : forall f g k, widths f = widths g ->
  (forall j, in_range k (fld_range (widths f) j) -> fget f j = fget g j) ->
  nth k (ser_flds f) 0 = nth k (ser_flds g) 0.
Proof.
  induction f as [|[w x] f IH]; intros [|[w' y] g] k Hw H; try discriminate; [reflexivity|].
  injection Hw as <- Hw. change (nth k (le w x ++ ser_flds f) 0 = nth k (le w y ++ ser_flds g) 0).
  destruct (Nat.ltb_spec k w) as [Hk|Hk].
  - replace y with x by (apply (H 0%nat); unfold in_range; cbn; lia).
    now rewrite !app_nth1 by (rewrite length_le; exact Hk).
  - rewrite !app_nth2, !length_le by (rewrite length_le; exact Hk). apply IH; [exact Hw|].
    intros j Hj. apply (H (S j)). revert Hj. unfold in_range, fld_range, foff, fwid.
    change (widths ((w, x) :: f)) with (w :: widths f). cbn [firstn nth fst snd].
    change (wsum (w :: firstn j (widths f))) with (w + wsum (firstn j (widths f)))%nat. lia.
Qed.

(* an assignment to field i moves only the bytes of field i *)
Lemma ser_fset_frame f i v k : ~ in_range k (fld_range (widths f) i) ->
  nth k (ser_flds (fset f i v)) 0 = nth k (ser_flds f) 0.
Proof.
  intros Hk. apply nth_ser_flds_agree; rewrite widths_fset; [reflexivity|].
  intros j Hj. apply fget_fset_other. intros ->. exact (Hk Hj).
Qed.

Lemma foff_fwid_lt ws i : (i < length ws)%nat -> (foff ws i + fwid ws i <= wsum ws)%nat.
Proof.
  unfold foff, fwid. revert i; induction ws as [|w ws IH]; intros [|i] H; cbn [length] in H; try lia;
    cbn [firstn wsum fold_right nth]; fold (wsum ws); [lia|].
  specialize (IH i ltac:(lia)). fold (wsum (firstn i ws)). lia.
Qed.

(* hand-written serialisers that emit fixed-width fields and then a variable tail: a field list followed by the tail *)
Lemma flds_field f tail i off w v : (i < length f)%nat -> fld_range (widths f) i = (off, w) -> fget f i = v ->
  v < 2 ^ (8 * N.of_nat w) -> field_at (ser_flds f ++ tail) off w = v.
Proof.
  intros Hi Hr <- Hv. injection Hr as <- <-.
  rewrite field_at_app_l; [unfold foff, fwid; rewrite field_at_ser_flds by exact Hi; now apply N.mod_small|].
  rewrite length_ser_flds_w. apply foff_fwid_lt. now rewrite widths_length.
Qed.

Lemma ser_fset_tail_frame f i v tail k : ~ in_range k (fld_range (widths f) i) ->
  nth k (ser_flds (fset f i v) ++ tail) 0 = nth k (ser_flds f ++ tail) 0.
Proof.
  intros Hk.
  assert (Hl : length (ser_flds (fset f i v)) = length (ser_flds f)) by now rewrite !length_ser_flds_w, widths_fset.
  destruct (Nat.ltb_spec k (length (ser_flds f))) as [H|H].
  - rewrite !app_nth1 by (rewrite ?Hl; exact H). now apply ser_fset_frame.
  - rewrite !app_nth2 by (rewrite ?Hl; exact H). now rewrite Hl.
Qed.

Section FlagField.
  Variable st : flds -> sx -> option flds.       (* one builder call *)
  Variable WS : list nat.                        (* the widths of the structure's fields *)
  Variable i : nat.                              (* index of the flag field *)
  Variable Inv : flds -> Prop.                   (* whatever else the calls maintain *)
  Variable bit : sx -> N.                        (* the bit(s) a call ORs into the flag field *)
  Variable keeps : sx -> nat -> Prop.            (* the fields a call is known to leave alone *)
  Hypothesis step : forall f o f', widths f = WS -> Inv f -> st f o = Some f' ->
    widths f' = WS /\ Inv f' /\ fget f' i = N.lor (fget f i) (bit o) /\
    forall j, j <> i -> keeps o j -> fget f' j = fget f j.

  Lemma flag_fields : forall ops f f', widths f = WS -> Inv f -> fold_opt st f ops = Some f' ->
    widths f' = WS /\ Inv f' /\ fget f' i = N.lor (fget f i) (big_or (map bit ops)) /\
    forall j, j <> i -> (forall o, In o ops -> keeps o j) -> fget f' j = fget f j.
  Proof.
    induction ops as [|o ops IH]; intros f f' Hw HI H; cbn [fold_opt] in H.
    - inversion H; subst. cbn [map big_or fold_right]. rewrite N.lor_0_r. auto.
    - destruct (st f o) as [f1|] eqn:E; [|discriminate].
      destruct (step f o f1 Hw HI E) as (Hw1 & HI1 & Hf1 & Hfr1).
      destruct (IH f1 f' Hw1 HI1 H) as (Hw' & HI' & Hf' & Hfr').
      split; [exact Hw'|]. split; [exact HI'|]. split.
      + rewrite Hf', Hf1. symmetry. apply N.lor_assoc.
      + intros j Hj Hn. rewrite Hfr' by (auto; intros o' Ho'; apply Hn; now right). apply Hfr1; [exact Hj|]. apply Hn. now left.
  Qed.

  (* the statement about the emitted bytes: the flag field as it is read back (truncated to its width), and the bytes
     of every field no call made may have written *)
  Theorem flag_image : forall ops f f', widths f = WS -> Inv f -> (i < length WS)%nat -> fold_opt st f ops = Some f' ->
    length (ser_flds f') = wsum WS /\
    field_at (ser_flds f') (foff WS i) (fwid WS i) =
      N.lor (fget f i) (big_or (map bit ops)) mod 2 ^ (8 * N.of_nat (fwid WS i)) /\
    forall k, (forall j, in_range k (fld_range WS j) -> j <> i /\ forall o, In o ops -> keeps o j) ->
              nth k (ser_flds f') 0 = nth k (ser_flds f) 0.
  Proof.
    intros ops f f' Hw HI Hi H.
    destruct (flag_fields ops f f' Hw HI H) as (Hw' & _ & Hf & Hfr).
    split; [rewrite length_ser_flds_w; now rewrite Hw'|]. split.
    - unfold foff, fwid. rewrite <- Hw', <- Hf. apply field_at_ser_flds. rewrite <- widths_length, Hw'. exact Hi.
    - intros k Hk. apply nth_ser_flds_agree; [congruence|]. rewrite Hw'.
      intros j Hj. destruct (Hk j Hj) as [Hji Hkeep]. now apply Hfr.
  Qed.
End FlagField.

(* hand-written serialisers of the shape  pre ++ le w flags ++ post *)
Lemma nth_mid_frame pre w v v' post k : ~ in_range k (length pre, w) ->
  nth k (pre ++ le w v ++ post) 0 = nth k (pre ++ le w v' ++ post) 0.
Proof.
  unfold in_range. cbn [fst snd]. intros H.
  destruct (Nat.ltb_spec k (length pre)) as [Hk|Hk].
  - now rewrite !app_nth1 by exact Hk.
  - rewrite !(app_nth2 pre) by exact Hk.
    rewrite !app_nth2 by (rewrite length_le; lia). now rewrite !length_le.
Qed.

(* Structures kept as records.  `reflag p a` is p with its flags component replaced by a (for the HMAT locality structure
   the model has it already: `sl_with_flags`).  A call is either an option, which changes nothing but the flags, or a value
   setter, which does what it does whatever the flags are; `after` says what either does to the flags.  Then the chain
   with the option calls struck out is accepted too, from any flags, and ends in the same structure up to the flags; the
   flags follow their own recursion. *)
Section OptionCalls.
  Context {A : Type}.
  Variable st : A -> sx -> option A.
  Variable flags : A -> N.
  Variable reflag : A -> N -> A.
  Variable is_option : sx -> bool.
  Variable after : N -> sx -> N.
  Hypothesis step : forall p o p', st p o = Some p' ->
    flags p' = after (flags p) o /\
    forall a, if is_option o then reflag p' a = reflag p a else st (reflag p a) o = Some (reflag p' (after a o)).

  Lemma option_calls : forall bs p p', fold_opt st p bs = Some p' ->
    flags p' = fold_left after bs (flags p) /\
    forall a, fold_opt st (reflag p a) (filter (fun o => negb (is_option o)) bs) =
              Some (reflag p' (fold_left after (filter (fun o => negb (is_option o)) bs) a)).
  Proof.
    induction bs as [|o bs IH]; intros p p' H; cbn [fold_opt] in H.
    - injection H as <-. split; reflexivity.
    - destruct (st p o) as [p1|] eqn:E; [|discriminate].
      destruct (step p o p1 E) as [Hf Hr]. destruct (IH p1 p' H) as [Hf' Hr'].
      split; [cbn [fold_left]; now rewrite <- Hf|].
      intros a. specialize (Hr a). cbn [filter]. destruct (is_option o); cbn [negb fold_opt fold_left]; [rewrite <- Hr|rewrite Hr]; apply Hr'.
  Qed.

  (* the emitted bytes, when the serialiser writes the flags as one w-byte word between a prefix and a suffix that do not
     depend on them: the word is the flags' recursion, and the chain without the option calls emits the same bytes around it *)
  Variables bytes pre post : A -> list N.
  Variable w : nat.
  Hypothesis shape : forall p a,
    bytes p = pre p ++ le w (flags p) ++ post p /\ bytes (reflag p a) = pre p ++ le w a ++ post p.

  Theorem option_bytes : forall bs p0 p, fold_opt st p0 bs = Some p -> reflag p0 (flags p0) = p0 ->
    exists x, fold_opt st p0 (filter (fun o => negb (is_option o)) bs) = Some (reflag p x) /\
      field_at (bytes p) (length (pre p)) w = fold_left after bs (flags p0) mod 2 ^ (8 * N.of_nat w) /\
      length (bytes p) = length (bytes (reflag p x)) /\
      forall k, ~ in_range k (length (pre p), w) -> nth k (bytes p) 0 = nth k (bytes (reflag p x)) 0.
  Proof.
    intros bs p0 p E H0. destruct (option_calls bs p0 p E) as (Hf & Hq). specialize (Hq (flags p0)). rewrite H0 in Hq.
    eexists. split; [exact Hq|]. destruct (shape p (fold_left after (filter (fun o => negb (is_option o)) bs) (flags p0))) as [-> ->].
    split; [rewrite Hf; exact (field_at_mid _ _ _ _ _ eq_refl)|]. split; [now rewrite !app_length, !length_le|].
    intros k Hk. now apply nth_mid_frame.
  Qed.
End OptionCalls.

(* a fact about whatever a partial function returns, read off the function's own case analysis *)
Lemma opt_case {A} (x : option A) (P : A -> Prop) :
  match x with Some a => P a | None => True end -> forall a, x = Some a -> P a.
Proof. intros H a ->. exact H. Qed.

(* destructing the (variable) scrutinees of the matches a step function is made of; refused calls end in True *)
Ltac dmatch_goal :=
  repeat match goal with |- context [match ?x with _ => _ end] => is_var x; destruct x; try exact I end.

(* `writes i P f b f'`: f' is f after some assignments to fields other than i that satisfy P, with the bits b ORed into
   field i.  A derivation follows the builder's expression from the outside in. *)
Section Writes.
  Variable i : nat.
  Variable P : nat -> Prop.
  Inductive writes (f : flds) : N -> flds -> Prop :=
  | w_refl : writes f 0 f
  | w_set b f' k v : writes f b f' -> k <> i -> P k -> writes f b (fset f' k v)
  | w_or_other b f' k c : writes f b f' -> k <> i -> P k -> writes f b (f_or f' k c)
  | w_or b f' c : writes f b f' -> writes f (N.lor b c) (f_or f' i c).

  Lemma writes_spec f b f' : writes f b f' -> (i < length f)%nat ->
    widths f' = widths f /\ fget f' i = N.lor (fget f i) b /\ forall j, j <> i -> ~ P j -> fget f' j = fget f j.
  Proof.
    intros H Hi. induction H as [|b f' k v _ (Hw & Hf & Hfr) Hk HP|b f' k c _ (Hw & Hf & Hfr) Hk HP|b f' c _ (Hw & Hf & Hfr)].
    - rewrite N.lor_0_r. auto.
    - rewrite widths_fset, fget_fset_other by exact Hk. repeat split; [exact Hw|exact Hf|].
      intros j Hj Hn. rewrite fget_fset_other; [now apply Hfr|]. intros ->. contradiction.
    - rewrite widths_f_or, fget_f_or_other by exact Hk. repeat split; [exact Hw|exact Hf|].
      intros j Hj Hn. rewrite fget_f_or_other; [now apply Hfr|]. intros ->. contradiction.
    - rewrite widths_f_or, fget_f_or_same, Hf by (now rewrite <- widths_length, Hw, widths_length).
      repeat split; [exact Hw|symmetry; apply N.lor_assoc|].
      intros j Hj Hn. rewrite fget_f_or_other by congruence. now apply Hfr.
  Qed.
End Writes.

(* the step hypothesis of FlagField for one call, from a derivation: the fields kept are those the call does not write *)
Lemma writes_step WS i P (Inv : flds -> Prop) f b b0 f' : widths f = WS -> (i < length WS)%nat ->
  writes i P f b f' -> b = b0 -> (fget f' i = N.lor (fget f i) b0 -> Inv f') ->
  widths f' = WS /\ Inv f' /\ fget f' i = N.lor (fget f i) b0 /\ forall j, j <> i -> ~ P j -> fget f' j = fget f j.
Proof.
  intros Hw Hi H <- HI. destruct (writes_spec _ _ f b f' H) as (Hw' & Hf & Hfr); [now rewrite <- widths_length, Hw|].
  rewrite Hw', Hw. repeat split; auto.
Qed.

(* the field-list law for a builder whose calls are given by derivations, with the flag field at its literal (offset,
   width); the calls' bits fit the field, so only the value before the calls is read back truncated *)
Theorem writes_image (st : flds -> sx -> option flds) WS i off w bit (P : sx -> nat -> Prop) :
  nth_error WS i = Some w -> foff WS i = off ->
  (forall f o f', st f o = Some f' -> exists b, writes i (P o) f b f' /\ b = bit o) ->
  (forall o, bit o < 2 ^ (8 * N.of_nat w)) ->
  forall ops f f', widths f = WS -> fold_opt st f ops = Some f' ->
    length (ser_flds f') = wsum WS /\
    field_at (ser_flds f') off w = N.lor (fget f i mod 2 ^ (8 * N.of_nat w)) (big_or (map bit ops)) /\
    forall k, (forall j, in_range k (fld_range WS j) -> j <> i /\ forall o, In o ops -> ~ P o j) ->
              nth k (ser_flds f') 0 = nth k (ser_flds f) 0.
Proof.
  intros Hn <- step small ops f f' Hw H.
  assert (Hi : (i < length WS)%nat) by (apply nth_error_Some; congruence).
  rewrite <- (nth_error_nth WS i 0%nat Hn : fwid WS i = w) in *.
  destruct (flag_image st WS i (fun _ => True) bit (fun o j => ~ P o j)) with (ops := ops) (f := f) (f' := f')
    as (Hlen & Hfl & Hfr); auto.
  - intros g o g' Hg _ E. destruct (step g o g' E) as (b & W & Hb).
    exact (writes_step WS i (P o) (fun _ => True) g b _ g' Hg Hi W Hb (fun _ => I)).
  - split; [exact Hlen|]. split; [|exact Hfr].
    rewrite Hfl, lor_mod. f_equal. apply N.mod_small, big_or_map_lt, small.
Qed.

(* membership of a literal range in a literal list, decided by evaluation *)
Definition range_mem (r : nat * nat) (l : list (nat * nat)) : bool :=
  existsb (fun x => Nat.eqb (fst x) (fst r) && Nat.eqb (snd x) (snd r)) l.
Lemma range_mem_In r l : range_mem r l = true -> In r l.
Proof.
  intros H. apply existsb_exists in H. destruct H as ([a b] & Hin & H). apply andb_true_iff in H. destruct H as [H1 H2].
  apply Nat.eqb_eq in H1, H2. destruct r. cbn [fst snd] in *. now subst.
Qed.

(* P k for a literal k: such a membership, or the trivial predicate *)
Ltac in_refl := first [exact I | apply range_mem_In; exact eq_refl].
Ltac writes_tac :=
  repeat first [apply w_or | apply w_or_other; [|discriminate|in_refl] | apply w_set; [|discriminate|in_refl]]; apply w_refl.
