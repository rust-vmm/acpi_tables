(* Everything generic about the REFERENCE images ([ts_image] of a table Spec), for C03 and C05.  In the order of the file:
   - [carry]: what holds of the reference image holds of the image the model emits (used with each <t>_refines, also in
     Props/C03.v, C05.v);
   - the Spec walker on a concatenation of self-describing entries: [walked], its result ([walk_of_entries]), and the
     run-time judgement [c03_judge] reduced to its premises ([c03_judge_of_tyf]); the type code as the Specs' [ts_entries]
     spell it is the field the walker reads ([nth0_field]);
   - [ref_image]: header ++ fixed part laid out from offset 36 ++ entries; [ref_image_tiles]: C03 on such an image;
     [image3]: the Spec image of a table constructed from three arguments, the form the refinement theorems take it in
     (Proofs/RefCommonP.v, [table3_accepts]); it is a [ref_image] whose fixed part is [mid_layout] ([image3_shape]);
     [cut_at], a history cut at one operation, and [Section Body]: a table gets [ref_image] ([body_shape]) and [cut_at]
     ([body_cut]) from one equation for its [ts_image], which for an [image3] is [image3_body];
   - C05, handles: [starts_of] against the walk ([c05_handles_ok_of_starts]); [Section Bookkeeping]: one theorem for every
     Spec that threads a state recording the entry starts ([bk_reference_handles]); the helpers of Spec/RimtS.v and
     Spec/PpttS.v ([sp_all], [resolve_all], and [resolve_nth] / [sp_lookup_nth]: (104 k) resolves to the k-th recorded
     start); the two states in use as instances ([pl_..]: a [placed], PPTT RHCT; [sp_..]: the pair of [sp_entries], RIMT VIOT);
   - C05, reference fields: [names_node], a body cut at one entry ([Section Cut], [cut_ref_field]), the cuts of the two kinds
     of Spec ([pl_split_at], [sp_split_at]), and the elimination rule [cut_at_fields] that Proofs/HandleFieldsP.v applies.
   [mid] is defined in Impl/Table.v, [sx_hdr_args_len] stands with the other readings of [sx_hdr_args] in
   Proofs/RefTableCommonP.v; hence those imports. *)
From Coq Require Import NArith List Lia Bool Arith.
From ACPI Require Import Lib.Bytes Lib.Sx Impl.Table Spec.Layout Spec.GasS Spec.PpttS Spec.RimtS
  Proofs.WalkP Proofs.BaseP Proofs.RefTableCommonP.
Import ListNotations.
Open Scope N_scope.

(* the form of every refinement theorem: the model accepts the constructor and the history and emits the reference image;
   so what holds of the reference image holds of the emitted one *)
Lemma carry {S} (P : list N -> Prop) (new : option S) (run : S -> option S) (img : S -> list N) r :
  (exists s0 s, new = Some s0 /\ run s0 = Some s /\ img s = r) -> P r ->
  exists s0 s, new = Some s0 /\ run s0 = Some s /\ P (img s).
Proof. intros (s0 & s & Hn & Hr & <-) HP. exists s0, s. auto. Qed.

(* the walk result of entries whose type codes are a function of their bytes, which is the form every [ts_entries] has *)
Definition walked (first : nat) (tyf : list N -> N) (es : list (list N)) : list (N * nat * nat) :=
  walk_result first es (map tyf es).

Lemma walked_length first tyf es : length (walked first tyf es) = length es.
Proof. unfold walked. apply walk_result_length. symmetry. apply map_length. Qed.

Lemma self_describing_pos h (tyf : list N -> N) es :
  Forall (fun e => self_describing h e (tyf e)) es -> Forall (fun e => (1 <= length e)%nat) es.
Proof. intros H. exact (self_describing_nonempty h es _ (Forall_Forall2_map _ tyf es H)). Qed.

Lemma walk_entries h (tyf : list N -> N) es off fuel :
  Forall (fun e => self_describing h e (tyf e)) es -> (length (concat es) <= fuel)%nat ->
  walk fuel h off (concat es) = Some (walked off tyf es).
Proof.
  intros HF Hfuel. apply walk_concat; [apply Forall_Forall2_map; exact HF|].
  pose proof (concat_len_ge es (self_describing_pos h tyf es HF)). lia.
Qed.

Lemma walk_of_entries r first h (tyf : list N -> N) es :
  skipn first r = concat es -> Forall (fun e => self_describing h e (tyf e)) es ->
  walk (S (length r)) h first (skipn first r) = Some (walked first tyf es).
Proof. intros Hsk HF. rewrite Hsk. apply walk_entries; [exact HF|]. rewrite <- Hsk, skipn_length. lia. Qed.

Lemma walk_result_expected (tyf : list N -> N) : forall es off,
  forallb (fun p : (N * nat * nat) * (N * nat) =>
             match p with ((ty, _, len), (ety, elen)) => (ty =? ety) && Nat.eqb len elen end)
          (combine (walked off tyf es) (map (fun e => (tyf e, length e)) es)) = true.
Proof.
  unfold walked. induction es as [|e es IH]; intros off; cbn [map walk_result combine forallb]; [reflexivity|].
  rewrite N.eqb_refl, Nat.eqb_refl. apply IH.
Qed.

(* the run-time judgement reduced to its premises; the type code of an entry is a function of its bytes, which is the form
   every [ts_entries] has *)
Lemma c03_judge_of_tyf ts ctor ops r first h (tyf : list N -> N) es :
  ts_walk ts = Some (first, h) ->
  ts_entries ts ctor ops = Some (map (fun e => (tyf e, length e)) es) ->
  skipn first r = concat es ->
  Forall (fun e => self_describing h e (tyf e)) es ->
  forallb (fun f : nat * nat * N => match f with (o, w, v) => field_at r o w =? v end) (ts_counts ts (length es)) = true ->
  c03_judge ts ctor r ops = true.
Proof.
  intros Hw He Hsk HF Hcnt. unfold c03_judge. rewrite Hw, He, (walk_of_entries r first h tyf es Hsk HF).
  rewrite walked_length, map_length, Nat.eqb_refl, walk_result_expected, Hcnt. reflexivity.
Qed.

(* the k-th walked entry starts at first + the sizes of the entries before it *)
Lemma walk_result_nth off es tys : forall k e t,
  nth_error es k = Some e -> nth_error tys k = Some t ->
  nth_error (walk_result off es tys) k = Some (t, (off + length (concat (firstn k es)))%nat, length e).
Proof.
  revert off tys. induction es as [|e0 es IH]; intros off tys k e t He Ht; [destruct k; discriminate He|].
  destruct tys as [|t0 tys]; [destruct k; discriminate Ht|].
  destruct k as [|k]; cbn [nth_error] in He, Ht.
  - apply Some_inj in He. apply Some_inj in Ht. subst. cbn [walk_result nth_error firstn concat length].
    rewrite Nat.add_0_r. reflexivity.
  - cbn [walk_result nth_error firstn concat]. rewrite (IH (length e0 + off)%nat tys k e t He Ht).
    rewrite app_length. do 2 f_equal. f_equal. lia.
Qed.

Lemma walk_result_bound : forall es tys off k t o len,
  nth_error (walk_result off es tys) k = Some (t, o, len) -> (o + len <= off + length (concat es))%nat.
Proof.
  induction es as [|e es IH]; intros [|t0 tys] off k t o len H; try (destruct k; discriminate H).
  destruct k as [|k]; cbn [walk_result nth_error] in H; cbn [concat]; rewrite app_length.
  - apply Some_inj in H. injection H as _ <- <-. lia.
  - apply IH in H. lia.
Qed.

Lemma nth0_field e : (1 <= length e)%nat -> nth 0 e 0 = field_at e 0 1.
Proof. destruct e as [|x e]; cbn [length]; [lia|]. intros _. unfold field_at. cbn [skipn firstn unle nth]. lia. Qed.

Lemma ref_table_split sig rev ha rest : length sig = 4%nat -> length (ha_oem ha) = 6%nat -> length (ha_tbl ha) = 8%nat ->
  exists hd, length hd = 36%nat /\ ref_table sig rev ha rest = hd ++ rest.
Proof.
  intros H1 H2 H3. unfold ref_table. eexists. split; [|reflexivity].
  unfold ref_header. rewrite !app_length, !length_le, H1, H2, H3. reflexivity.
Qed.

(* the body: everything after the 36-byte header and the fixed part *)
Lemma skipn_ref_table sig rev ha fixed body first :
  length sig = 4%nat -> length (ha_oem ha) = 6%nat -> length (ha_tbl ha) = 8%nat ->
  first = (36 + length fixed)%nat ->
  skipn first (ref_table sig rev ha (fixed ++ body)) = body.
Proof.
  intros H1 H2 H3 ->. destruct (ref_table_split sig rev ha (fixed ++ body) H1 H2 H3) as (hd & Hl & ->).
  rewrite app_assoc. rewrite <- Hl, <- app_length. apply skipn_app_exact.
Qed.

(* the form every reference image has: the header, a fixed part laid out from offset 36, the entries *)
Definition ref_image (sig : list N) (l : layout) (es : list (list N)) (r : list N) : Prop :=
  exists ha, (length (ha_oem ha) = 6%nat /\ length (ha_tbl ha) = 8%nat) /\ r = ref_table sig 1 ha (assemble l ++ concat es).

Lemma ref_image_intro o t rr ha sig l es :
  sx_hdr_args o t rr = Some ha -> ref_image sig l es (ref_table sig 1 ha (assemble l ++ concat es)).
Proof. intros H. exists ha. split; [exact (sx_hdr_args_len o t rr ha H)|reflexivity]. Qed.

Section RefImage.
  Variables (sig : list N) (l : layout) (es : list (list N)) (r : list N).
  Hypothesis Hr : ref_image sig l es r.
  Hypothesis Hsig : length sig = 4%nat.

  Lemma ref_image_body : skipn (36 + layout_size l) r = concat es.
  Proof.
    destruct Hr as (ha & [Ho Ht] & ->). apply skipn_ref_table; [exact Hsig|exact Ho|exact Ht|].
    rewrite length_assemble. reflexivity.
  Qed.

  Lemma ref_image_length : length r = (36 + layout_size l + length (concat es))%nat.
  Proof.
    destruct Hr as (ha & [Ho Ht] & ->). destruct (ref_table_split sig 1 ha (assemble l ++ concat es) Hsig Ho Ht) as (hd & Hl & ->).
    rewrite !app_length, Hl, length_assemble. lia.
  Qed.

  Lemma ref_image_field o w v : layout_ok_from 36 l = true -> In (o, w, v) l -> field_at r o w = v mod 2 ^ (8 * N.of_nat w).
  Proof.
    intros Hok Hin. destruct Hr as (ha & [Ho Ht] & ->).
    destruct (ref_table_split sig 1 ha (assemble l ++ concat es) Hsig Ho Ht) as (hd & Hl & ->).
    exact (field_at_assemble_app l 36 Hok hd (concat es) Hl o w v Hin).
  Qed.

  (* C03 on a reference image: the walk finds the entries, and every count field the Spec lists is a field of the fixed
     part holding a value that fits it *)
  Theorem ref_image_tiles ts ctor ops h (tyf : list N -> N) :
    layout_ok_from 36 l = true ->
    ts_walk ts = Some ((36 + layout_size l)%nat, h) ->
    ts_entries ts ctor ops = Some (map (fun e => (tyf e, length e)) es) ->
    Forall (fun e => self_describing h e (tyf e)) es ->
    (forall o w v, In (o, w, v) (ts_counts ts (length es)) -> In (o, w, v) l /\ v < 2 ^ (8 * N.of_nat w)) ->
    c03_judge ts ctor r ops = true.
  Proof.
    intros Hok Hw He HF Hcnt. apply (c03_judge_of_tyf ts ctor ops r _ h tyf es Hw He ref_image_body HF).
    apply forallb_forall. intros [[o w] v] Hin. destruct (Hcnt o w v Hin) as [Hl Hv].
    rewrite (ref_image_field o w v Hok Hl), N.mod_small by exact Hv. apply N.eqb_refl.
  Qed.
End RefImage.

(* the constructor (oem6 tbl8 orev) *)
Definition ctor3 (c : sx) : option (hdr_args * unit) :=
  match c with SL [o; t; r] => option_map (fun ha => (ha, tt)) (sx_hdr_args o t r) | _ => None end.

Lemma ctor3_len c ha u : ctor3 c = Some (ha, u) -> length (ha_oem ha) = 6%nat /\ length (ha_tbl ha) = 8%nat.
Proof.
  destruct c as [|[|o [|t [|r [|]]]]]; try discriminate. cbn [ctor3].
  destruct (sx_hdr_args o t r) as [ha'|] eqn:E; [|discriminate]. intros H. injection H as <- _. exact (sx_hdr_args_len _ _ _ _ E).
Qed.

(* A table constructed from three arguments (oem id, table id, oem revision), hence the 3.  The shape of such a table's Spec
   image: the reference table of the reference entries, behind the fixed part, which is the [mid] of the model (Impl/Table.v)
   for a table of kind [K] that keeps no constructor bytes.  The Spec images of MCFG XSDT SRAT HMAT CEDT PPTT RIMT VIOT are this
   by conversion. *)
Definition image3 (sig : list N) (K : tkind) (entries : list sx -> option (list (list N))) (ctor : sx) (ops : list sx)
  : option (list N) :=
  match ctor with
  | SL [o; t; r] =>
      match sx_hdr_args o t r, entries ops with
      | Some h, Some es => Some (ref_table sig 1 h (mid K [] (N.of_nat (length es)) ++ concat es))
      | _, _ => None
      end
  | _ => None
  end.

Lemma image3_inv sig K entries ctor ops r : image3 sig K entries ctor ops = Some r ->
  exists o t rv ha es, ctor = SL [o; t; rv] /\ sx_hdr_args o t rv = Some ha /\ entries ops = Some es /\
    r = ref_table sig 1 ha (mid K [] (N.of_nat (length es)) ++ concat es).
Proof.
  unfold image3. destruct ctor as [|[|o [|t [|rv [|]]]]]; try discriminate.
  destruct (sx_hdr_args o t rv) as [ha|] eqn:Eha; [|discriminate]. destruct (entries ops) as [es|]; [|discriminate].
  intros H. apply Some_inj in H. subst r. exists o, t, rv, ha, es. repeat split. exact Eha.
Qed.

(* that [mid] as a layout from offset 36 *)
Definition mid_layout (K : tkind) (cnt : N) : layout :=
  match K with
  | KXsdt | KPptt | KCedt | KMadt => []
  | KMcfg => [L 36 8 0]
  | KSrat => [L 36 4 1; L 40 8 0]
  | KHmat => [L 36 4 0]
  | KRhct => [L 36 4 0; L 40 4 cnt; L 44 4 56]
  | KRimt => [L 36 4 cnt; L 40 4 48; L 44 4 0]
  | KViot => [L 36 2 cnt; L 38 2 48; L 40 8 0]
  | KHest => [L 36 4 cnt]
  end.

Lemma assemble_mid_layout K cnt : assemble (mid_layout K cnt) = mid K [] cnt.
Proof. destruct K; reflexivity. Qed.

Lemma mid_layout_ok K cnt : layout_ok_from 36 (mid_layout K cnt) = true.
Proof. destruct K; reflexivity. Qed.

Lemma mid_layout_size K cnt : layout_size (mid_layout K cnt) = layout_size (mid_layout K 0).
Proof. destruct K; reflexivity. Qed.

Lemma image3_shape sig K entries ctor ops r : image3 sig K entries ctor ops = Some r ->
  exists es, entries ops = Some es /\ ref_image sig (mid_layout K (N.of_nat (length es))) es r.
Proof.
  intros H. destruct (image3_inv _ _ _ _ _ _ H) as (o & t & rv & ha & es & _ & Eha & Ees & ->).
  exists es. split; [exact Ees|]. rewrite <- assemble_mid_layout. exact (ref_image_intro o t rv ha _ _ es Eha).
Qed.

(* ... and in the form [Section Body] below takes: nothing besides the header arguments, no limit beyond [entries]' own *)
Lemma image3_body sig K entries ctor ops : image3 sig K entries ctor ops =
  match ctor3 ctor, entries ops with
  | Some (ha, _), Some es =>
      if true then Some (ref_table sig 1 ha (assemble (mid_layout K (N.of_nat (length es))) ++ concat es)) else None
  | _, _ => None
  end.
Proof.
  unfold image3, ctor3. destruct ctor as [|[|o [|t [|rv [|]]]]]; try reflexivity.
  destruct (sx_hdr_args o t rv); [|reflexivity]. destruct (entries ops); [|reflexivity]. now rewrite assemble_mid_layout.
Qed.

(* a history cut at the operation [o]: the body of its reference image [r] is es1 ++ e :: tail, [e] the entry of [o]
   (related to it by [Q]), es1 the entries of [pre], and [pre] alone is in the domain, with an image that ends where [e]
   starts *)
Definition cut_at (ts : tspec) (first : nat) (h : ehdr) (tyf : list N -> N)
    (Q : list (list N) -> sx -> list N -> list (list N) -> Prop)
    (ctor : sx) (pre : list sx) (o : sx) (post : list sx) (r : list N) : Prop :=
  exists es1 e tail r1,
    Q es1 o e tail /\ length es1 = length pre /\ length tail = length post /\
    skipn first r = concat (es1 ++ e :: tail) /\
    Forall (fun x => self_describing h x (tyf x)) (es1 ++ e :: tail) /\
    ts_image ts ctor pre = Some r1 /\ length r1 = (first + length (concat es1))%nat /\ (length r1 <= length r)%nat.

(* How a per-table file obtains [ref_image]: from ONE equation for its [ts_image]: that it is an [image3], or [image_eq] of
   [Section Body].  The same equation gives the history cut at one operation ([body_cut], used for the reference-field
   statements at the end of this file). *)
Section Body.
  Variables (ts : tspec) (sig : list N) (first : nat).
  Variable C : Type.                                   (* what the constructor gives besides the header arguments *)
  Variable ctor_args : sx -> option (hdr_args * C).
  Variable entries : list sx -> option (list (list N)).
  Variable fixed : C -> nat -> layout.                 (* the fixed part, laid out from offset 36, given the number of entries *)
  Variable bounds : C -> list (list N) -> bool.            (* the Spec's limits on counts and sizes *)
  Hypothesis sig_len : length sig = 4%nat.
  Hypothesis args_len : forall ctor ha c, ctor_args ctor = Some (ha, c) -> length (ha_oem ha) = 6%nat /\ length (ha_tbl ha) = 8%nat.
  Hypothesis fixed_len : forall c n, (36 + layout_size (fixed c n))%nat = first.
  Hypothesis image_eq : forall ctor ops, ts_image ts ctor ops =
    match ctor_args ctor, entries ops with
    | Some (ha, c), Some es => if bounds c es then Some (ref_table sig 1 ha (assemble (fixed c (length es)) ++ concat es)) else None
    | _, _ => None
    end.

  Lemma body_image ctor ha c ops es : ctor_args ctor = Some (ha, c) -> entries ops = Some es -> bounds c es = true ->
    exists r, ts_image ts ctor ops = Some r /\ ref_image sig (fixed c (length es)) es r.
  Proof.
    intros Ha Ees Hok. eexists. split; [rewrite image_eq, Ha, Ees, Hok; reflexivity|].
    exists ha. split; [exact (args_len _ _ _ Ha)|reflexivity].
  Qed.

  Lemma body_shape ctor ops r : ts_image ts ctor ops = Some r ->
    exists ha c es, ctor_args ctor = Some (ha, c) /\ entries ops = Some es /\ bounds c es = true /\
      ref_image sig (fixed c (length es)) es r.
  Proof.
    intros Hr. pose proof Hr as Hi. rewrite image_eq in Hi. destruct (ctor_args ctor) as [[ha c]|] eqn:Ha; [|discriminate].
    destruct (entries ops) as [es|] eqn:Ees; [|discriminate]. destruct (bounds c es) eqn:Hok; [|discriminate].
    destruct (body_image ctor ha c ops es Ha Ees Hok) as (r' & Hi' & Hr'). rewrite Hr in Hi'. apply Some_inj in Hi'. subst r'.
    exists ha, c, es. auto.
  Qed.

  Lemma body_skipn c es r : ref_image sig (fixed c (length es)) es r ->
    skipn first r = concat es /\ length r = (first + length (concat es))%nat.
  Proof.
    intros Hr. rewrite <- (fixed_len c (length es)). split; [exact (ref_image_body _ _ _ _ Hr sig_len)|exact (ref_image_length _ _ _ _ Hr sig_len)].
  Qed.

  Variables (h : ehdr) (tyf : list N -> N).
  Hypothesis entries_self : forall ops es, entries ops = Some es -> Forall (fun x => self_describing h x (tyf x)) es.
  Variable Q : list (list N) -> sx -> list N -> list (list N) -> Prop.
  Hypothesis ok_prefix : forall c es1 es2, bounds c (es1 ++ es2) = true -> bounds c es1 = true.
  Hypothesis entries_cut : forall pre o post es, entries (pre ++ o :: post) = Some es ->
    exists es1 e tail, es = es1 ++ e :: tail /\ entries pre = Some es1 /\ length es1 = length pre /\ length tail = length post /\
      Q es1 o e tail.

  Lemma body_cut ctor pre o post r : ts_image ts ctor (pre ++ o :: post) = Some r -> cut_at ts first h tyf Q ctor pre o post r.
  Proof.
    intros H. destruct (body_shape _ _ _ H) as (ha & c & es & Ha & Ees & Hok & Hr). destruct (body_skipn _ _ _ Hr) as [Hsk Hlen].
    pose proof (entries_self _ _ Ees) as HF.
    destruct (entries_cut _ _ _ _ Ees) as (es1 & e & tail & -> & Epre & Hl1 & Htl & HQ).
    destruct (body_image ctor ha c pre es1 Ha Epre (ok_prefix _ _ _ Hok)) as (r1 & Hi1 & Hr1).
    destruct (body_skipn _ _ _ Hr1) as [_ Hlen1].
    exists es1, e, tail, r1. repeat (split; [assumption|]).
    rewrite Hlen1, Hlen, concat_app, app_length, Nat.add_assoc. apply Nat.le_add_r.
  Qed.
End Body.

(* C05 on the reference image: the Spec's bookkeeping of the entry starts against the walk *)

(* (type code, start offset) of each entry of a body that begins at [off] *)
Fixpoint starts_of (tyf : list N -> N) (off : N) (es : list (list N)) : list (N * N) :=
  match es with
  | [] => []
  | e :: r => (tyf e, off) :: starts_of tyf (off + N.of_nat (length e)) r
  end.

Lemma starts_of_app tyf off a b :
  starts_of tyf off (a ++ b) = starts_of tyf off a ++ starts_of tyf (off + N.of_nat (length (concat a))) b.
Proof.
  revert off. induction a as [|e a IH]; intros off; cbn [app starts_of concat length].
  - rewrite N.add_0_r. reflexivity.
  - rewrite IH, app_length. do 3 f_equal. lia.
Qed.

Lemma length_starts_of tyf off es : length (starts_of tyf off es) = length es.
Proof. revert off. induction es as [|e es IH]; intros off; cbn [starts_of length]; [reflexivity|]. now rewrite IH. Qed.

(* the walk finds exactly those starts *)
Lemma starts_of_walk_result tyf off es :
  map (fun x : N * nat * nat => match x with (t, o, _) => (t, N.of_nat o) end) (walked off tyf es)
  = starts_of tyf (N.of_nat off) es.
Proof.
  unfold walked. revert off. induction es as [|e es IH]; intros off; cbn [map walk_result starts_of]; [reflexivity|].
  rewrite IH. do 2 f_equal. lia.
Qed.

(* a recorded start is where the walk finds that entry *)
Lemma start_in_walk tyf first es k ty off :
  nth_error (starts_of tyf (N.of_nat first) es) k = Some (ty, off) ->
  exists o len, nth_error (walked first tyf es) k = Some (ty, o, len) /\ N.of_nat o = off.
Proof.
  rewrite <- starts_of_walk_result, nth_error_map.
  destruct (nth_error (walked first tyf es) k) as [[[t o] len]|]; [|discriminate].
  cbn [option_map]. intros H. apply Some_inj in H. exists o, len. split; congruence.
Qed.

(* also when it was recorded for a prefix of the entries only *)
Lemma start_is_walked tyf first es1 tail k ty off :
  nth_error (starts_of tyf (N.of_nat first) es1) k = Some (ty, off) ->
  exists o len, nth_error (walked first tyf (es1 ++ tail)) k = Some (ty, o, len) /\ N.of_nat o = off.
Proof.
  intros H. apply start_in_walk. rewrite starts_of_app, nth_error_app1; [exact H|].
  apply nth_error_Some. congruence.
Qed.

(* and conversely the k-th walked entry is at the k-th recorded start *)
Lemma walked_is_start tyf first es k ty o len :
  nth_error (walk_result first es (map tyf es)) k = Some (ty, o, len) ->
  nth_error (starts_of tyf (N.of_nat first) es) k = Some (ty, N.of_nat o).
Proof. intros H. fold (walked first tyf es) in H. rewrite <- starts_of_walk_result, nth_error_map, H. reflexivity. Qed.

(* the run-time C05 judgement from the same premises *)
Lemma c05_handles_ok_of_starts ts r first h (tyf : list N -> N) es pending :
  ts_walk ts = Some (first, h) -> skipn first r = concat es ->
  Forall (fun e => self_describing h e (tyf e)) es ->
  (forall hk, In hk pending -> exists ty, nth_error (starts_of tyf (N.of_nat first) es) (snd hk) = Some (ty, fst hk)) ->
  c05_handles_ok ts r pending = true.
Proof.
  intros Hw Hsk HF Hp. unfold c05_handles_ok. destruct pending as [|x pending']; [reflexivity|].
  remember (x :: pending') as pending eqn:Epend. clear Epend x pending'.
  rewrite Hw, (walk_of_entries r first h tyf es Hsk HF).
  apply forallb_forall. intros hk Hin. destruct (Hp hk Hin) as [ty Hn].
  destruct (start_in_walk tyf first es (snd hk) ty (fst hk) Hn) as (o & len & Hf & Ho).
  rewrite Hf. apply N.eqb_eq. exact Ho.
Qed.

(* The Specs whose operations may refer to earlier entries by handle lay the entries out one by one and thread a state
   [st] (what has been placed where) in which the next operation's references (104 k) are resolved: [bk_entries] is the
   common form of their entry functions, [bk_final] the state after a list of operations.  [ok st off es]: the state
   records exactly the starts of the entries [es] laid out so far, the next one starting at [off]; [names st k ty o]: in
   state [st] the reference (104 k) resolves to offset [o], of an entry of type [ty]. *)
Section Bookkeeping.
  Variable St : Type.
  Variable entry : St -> sx -> option (list N).
  Variable step : St -> N -> list N -> St.
  Variable tyf : list N -> N.
  Variable h : ehdr.
  Variable first : nat.
  Variable ok : St -> N -> list (list N) -> Prop.
  Variable names : St -> N -> N -> N -> Prop.
  Hypothesis ok_step : forall st off racc e,
    ok st off (rev racc) -> ok (step st off e) (off + N.of_nat (length e)) (rev (e :: racc)).
  Hypothesis names_start : forall st off es k ty o,
    ok st off es -> names st k ty o -> nth_error (starts_of tyf (N.of_nat first) es) (N.to_nat k) = Some (ty, o).
  Hypothesis start_names : forall st off es k ty o,
    ok st off es -> nth_error (starts_of tyf (N.of_nat first) es) k = Some (ty, o) -> names st (N.of_nat k) ty o.

  Fixpoint bk_entries (ops : list sx) (st : St) (off : N) (racc : list (list N)) : option (list (list N)) :=
    match ops with
    | [] => Some (frev racc)
    | o :: r =>
        match entry st o with
        | Some e => bk_entries r (step st off e) (off + N.of_nat (length e)) (e :: racc)
        | None => None
        end
    end.

  Fixpoint bk_final (ops : list sx) (st : St) (off : N) : option St :=
    match ops with
    | [] => Some st
    | o :: r => match entry st o with Some e => bk_final r (step st off e) (off + N.of_nat (length e)) | None => None end
    end.

  (* the fold collects in reverse and turns round at the end; each entry comes from its operation, in some state *)
  Lemma bk_entries_Forall2 ops : forall st off racc es,
    bk_entries ops st off racc = Some es ->
    exists tail, es = rev racc ++ tail /\ Forall2 (fun o e => exists st', entry st' o = Some e) ops tail.
  Proof.
    induction ops as [|o ops IH]; intros st off racc es H; cbn [bk_entries] in H.
    - apply Some_inj in H. subst es. exists []. rewrite frev_rev, app_nil_r. split; [reflexivity|constructor].
    - destruct (entry st o) as [e|] eqn:He; [|discriminate H].
      destruct (IH _ _ _ _ H) as (tail & -> & HF). exists (e :: tail). cbn [rev]. rewrite <- app_assoc.
      split; [reflexivity|]. constructor; [now exists st|exact HF].
  Qed.

  Lemma bk_entries_prefix ops st off racc es :
    bk_entries ops st off racc = Some es -> exists tail, es = rev racc ++ tail /\ length tail = length ops.
  Proof.
    intros H. destruct (bk_entries_Forall2 _ _ _ _ _ H) as (tail & E & HF). exists tail.
    split; [exact E|exact (proj1 (Forall2_nth _ ops tail HF))].
  Qed.

  Lemma bk_entries_forall (P : list N -> Prop) : (forall st o e, entry st o = Some e -> P e) ->
    forall ops st off es, bk_entries ops st off [] = Some es -> Forall P es.
  Proof.
    intros HP ops st off es H. destruct (bk_entries_Forall2 _ _ _ _ _ H) as (tail & -> & HF).
    refine (Forall2_forall_r _ P _ ops tail HF). intros o e [st' He]. exact (HP st' o e He).
  Qed.

  (* a history cut in two: the state in between, the prefix laid out alone, and the continuation *)
  Lemma bk_split pre : forall post st off racc es,
    bk_entries (pre ++ post) st off racc = Some es -> ok st off (rev racc) ->
    exists st' off' racc',
      bk_final pre st off = Some st' /\ ok st' off' (rev racc') /\
      bk_entries post st' off' racc' = Some es /\ bk_entries pre st off racc = Some (rev racc') /\
      length racc' = (length racc + length pre)%nat.
  Proof.
    induction pre as [|o pre IH]; intros post st off racc es H Hok.
    - exists st, off, racc. cbn [app] in H. cbn [bk_final bk_entries length]. rewrite frev_rev. auto.
    - cbn [app bk_entries] in H. cbn [bk_final bk_entries].
      destruct (entry st o) as [e|] eqn:He; [|discriminate H].
      destruct (IH post _ _ _ es H (ok_step st off racc e Hok)) as (st' & off' & racc' & Hp & Hok' & Hpost & Hpre & Hl).
      exists st', off', racc'. rewrite Hl. cbn [length]. rewrite Nat.add_succ_comm. auto.
  Qed.

  (* ... cut at one operation: the entries before it, and its own entry laid out in the state after the prefix *)
  Lemma bk_split_at st0 off0 pre o post es :
    ok st0 off0 [] -> bk_entries (pre ++ o :: post) st0 off0 [] = Some es ->
    exists es1 e tail st off,
      es = es1 ++ e :: tail /\ bk_entries pre st0 off0 [] = Some es1 /\ length es1 = length pre /\ length tail = length post /\
      entry st o = Some e /\ ok st off es1.
  Proof.
    intros Hok0 H. destruct (bk_split pre (o :: post) _ _ [] es H Hok0) as (st & off & racc & _ & Hok & Hpost & Hpre & Hl).
    cbn [bk_entries] in Hpost. destruct (entry st o) as [e|] eqn:He; [|discriminate Hpost].
    destruct (bk_entries_prefix _ _ _ _ _ Hpost) as (tail & -> & Htl). cbn [rev]. rewrite <- app_assoc.
    exists (rev racc), e, tail, st, off. rewrite rev_length. auto 10.
  Qed.

  (* A handle reference resolved after any prefix [pre] of a history names, in any image whose body is the entries of the
     WHOLE history (so in every later image), the offset at which the walk finds the entry added by that operation, with
     the type recorded for it; conversely every entry added by [pre] is reachable through its handle. *)
  Theorem bk_reference_handles r st0 pre post es :
    ok st0 (N.of_nat first) [] ->
    bk_entries (pre ++ post) st0 (N.of_nat first) [] = Some es -> skipn first r = concat es ->
    Forall (fun e => self_describing h e (tyf e)) es ->
    exists st off es1 found,
      bk_final pre st0 (N.of_nat first) = Some st /\ ok st off es1 /\ length es1 = length pre /\
      walk (S (length r)) h first (skipn first r) = Some found /\
      length found = length (pre ++ post) /\
      (forall k ty o, names st k ty o ->
         exists off' len, nth_error found (N.to_nat k) = Some (ty, off', len) /\ N.of_nat off' = o) /\
      (forall k, (k < length pre)%nat ->
         exists ty off' len, nth_error found k = Some (ty, off', len) /\ names st (N.of_nat k) ty (N.of_nat off')).
  Proof.
    intros Hok0 Ees Hsk HF.
    destruct (bk_split pre post _ _ [] es Ees Hok0) as (st & off & racc & Hp & Hok & Hpost & _ & Hl1).
    destruct (bk_entries_prefix _ _ _ _ _ Hpost) as (tail & -> & Hl). rewrite <- (rev_length racc) in Hl1.
    set (es1 := rev racc) in *.
    exists st, off, es1, (walked first tyf (es1 ++ tail)).
    split; [exact Hp|]. split; [exact Hok|]. split; [exact Hl1|].
    split; [exact (walk_of_entries r first h tyf _ Hsk HF)|].
    split; [rewrite walked_length, !app_length; cbn [length] in Hl1; lia|].
    split.
    - intros k ty o Hn. exact (start_is_walked tyf first es1 tail _ ty o (names_start _ _ _ _ _ _ Hok Hn)).
    - intros k Hk.
      destruct (nth_error (starts_of tyf (N.of_nat first) es1) k) as [[ty o]|] eqn:En.
      2:{ apply nth_error_None in En. rewrite length_starts_of in En. cbn [length] in Hl1. lia. }
      destruct (start_is_walked tyf first es1 tail k ty o En) as (off' & len & Hf & <-).
      exists ty, off', len. split; [exact Hf|]. exact (start_names _ _ _ _ _ _ Hok En).
  Qed.

  (* in the form of the run-time judgement [c05_handles_ok]: whatever set of (handle, operation number) pairs is pending,
     if each handle is the offset that operation's (104 k) resolves to, the judgement on the image is true *)
  Theorem bk_reference_handles_ok ts r st0 ops es st pending :
    ts_walk ts = Some (first, h) -> ok st0 (N.of_nat first) [] ->
    bk_entries ops st0 (N.of_nat first) [] = Some es -> skipn first r = concat es ->
    Forall (fun e => self_describing h e (tyf e)) es ->
    bk_final ops st0 (N.of_nat first) = Some st ->
    (forall hk, In hk pending -> exists ty, names st (N.of_nat (snd hk)) ty (fst hk)) ->
    c05_handles_ok ts r pending = true.
  Proof.
    intros Hw Hok0 Ees Hsk HF Hp Hpend.
    rewrite <- (app_nil_r ops) in Ees.
    destruct (bk_split ops [] _ _ [] es Ees Hok0) as (st' & off & racc & Hp' & Hok & Hpost & _).
    rewrite Hp in Hp'. apply Some_inj in Hp'. subst st'.
    cbn [bk_entries] in Hpost. rewrite frev_rev in Hpost. apply Some_inj in Hpost. subst es. set (es1 := rev racc) in *.
    apply (c05_handles_ok_of_starts ts r first h tyf es1 pending Hw Hsk HF).
    intros hk Hin. destruct (Hpend hk Hin) as [ty Hn]. exists ty.
    rewrite <- (Nat2N.id (snd hk)). exact (names_start _ _ _ _ _ _ Hok Hn).
  Qed.
End Bookkeeping.
Arguments bk_entries_forall {St entry step}.
Arguments bk_split_at {St entry step ok}.

(* The helpers of Spec/RimtS.v and Spec/PpttS.v.  [sp_all] collects in reverse and turns round at the end: as a relation
   between the arguments and the results *)
Lemma sp_all_acc {A} (f : sx -> option A) : forall l racc res,
  sp_all f l racc = Some res -> exists es, Forall2 (fun o r => f o = Some r) l es /\ res = rev racc ++ es.
Proof.
  induction l as [|x l IH]; intros racc res H; cbn [sp_all] in H.
  - injection H as <-. exists []. rewrite frev_rev, app_nil_r. split; [constructor|reflexivity].
  - destruct (f x) as [a|] eqn:E; [|discriminate].
    destruct (IH _ _ H) as (es & HF & ->). exists (a :: es). split; [constructor; assumption|].
    cbn [rev]. now rewrite <- app_assoc.
Qed.

Lemma sp_all_Forall2 {A} (f : sx -> option A) l res : sp_all f l [] = Some res -> Forall2 (fun o r => f o = Some r) l res.
Proof. intros H. destruct (sp_all_acc f l [] res H) as (es & HF & ->). exact HF. Qed.

Lemma sp_all_forall {A} (f : sx -> option A) (P : A -> Prop) : (forall x a, f x = Some a -> P a) ->
  forall l r, sp_all f l [] = Some r -> Forall P r.
Proof. intros HP l r H. exact (Forall2_forall_r _ P HP l r (sp_all_Forall2 f l r H)). Qed.

Lemma sp_all_spec {A} (f : sx -> option A) l r : sp_all f l [] = Some r ->
  length r = length l /\ forall j x, nth_error l j = Some x -> exists a, nth_error r j = Some a /\ f x = Some a.
Proof. intros H. exact (Forall2_nth _ l r (sp_all_Forall2 f l r H)). Qed.

Lemma resolve_all_seq p ty l : resolve_all p ty l = opt_seq (map (resolve p ty) l).
Proof. induction l as [|x l IH]; [reflexivity|]. cbn [resolve_all map opt_seq]. rewrite IH. now destruct (resolve p ty x). Qed.

Lemma resolve_all_nth p ty xs cs : resolve_all p ty xs = Some cs ->
  length cs = length xs /\
  forall j x, nth_error xs j = Some x -> exists c, nth_error cs j = Some c /\ resolve p ty x = Some c.
Proof. rewrite resolve_all_seq. intros H. exact (Forall2_nth _ xs cs (opt_seq_Forall2 _ xs cs H)). Qed.

(* a reference that resolves is a handle reference (104 k) *)
Lemma resolve_shape p ty x off : resolve p ty x = Some off -> exists k, x = SL [SA 104; SA k].
Proof. unfold resolve. intros H. break_sx H. eexists. reflexivity. Qed.

Lemma sp_lookup_shape n rs x r : sp_lookup n rs x = Some r -> exists k, x = SL [SA 104; SA k].
Proof. unfold sp_lookup. intros H. break_sx H. eexists. reflexivity. Qed.

(* resolving a reference in a [placed] = reading the k-th recorded (type, start), the oldest first *)
Lemma resolve_nth (p : placed) ty x off : snd p = N.of_nat (length (fst p)) ->
  resolve p ty x = Some off <-> exists k, x = SL [SA 104; SA k] /\ nth_error (rev (fst p)) (N.to_nat k) = Some (ty, off).
Proof.
  intros Hn. split.
  - intros H. destruct (resolve_shape _ _ _ _ H) as [k ->]. exists k. split; [reflexivity|]. cbn [resolve] in H.
    destruct (N.ltb_spec k (snd p)) as [Hk|]; [|discriminate H].
    destruct (nth_error (fst p) (N.to_nat (snd p - 1 - k))) as [[t o]|] eqn:En; [|discriminate H].
    destruct (N.eqb_spec t ty) as [->|]; [|discriminate H]. apply Some_inj in H. subst o.
    rewrite nth_error_rev_lt by lia. rewrite <- En. f_equal. lia.
  - intros (k & -> & H). pose proof (nth_error_Some_lt _ _ _ H) as Hk. rewrite rev_length in Hk.
    rewrite nth_error_rev_lt in H by exact Hk. cbn [resolve]. destruct (N.ltb_spec k (snd p)); [|lia].
    replace (N.to_nat (snd p - 1 - k)) with (length (fst p) - 1 - N.to_nat k)%nat by lia. now rewrite H, N.eqb_refl.
Qed.

(* ... and in the (n, rs) of [sp_entries] *)
Lemma sp_lookup_nth n (rs : sp_starts) x r : n = length rs ->
  sp_lookup n rs x = Some r <-> exists k, x = SL [SA 104; SA k] /\ nth_error (rev rs) (N.to_nat k) = Some r.
Proof.
  intros ->. split.
  - intros H. destruct (sp_lookup_shape _ _ _ _ H) as [k ->]. exists k. split; [reflexivity|]. cbn [sp_lookup] in H.
    destruct (Nat.ltb_spec (N.to_nat k) (length rs)); [|discriminate H]. now rewrite nth_error_rev_lt.
  - intros (k & -> & H). pose proof (nth_error_Some_lt _ _ _ H) as Hk. rewrite rev_length in Hk.
    rewrite nth_error_rev_lt in H by exact Hk. cbn [sp_lookup]. destruct (Nat.ltb_spec (N.to_nat k) (length rs)); [exact H|lia].
Qed.

(* the Specs that thread a [placed] (Spec/PpttS.v: PPTT, RHCT): the state is the [placed]: the (type, start) of every entry
   so far, most recent first, and their number *)
Definition pl_names (p : placed) (k ty off : N) : Prop := resolve p ty (SL [SA 104; SA k]) = Some off.
Definition pl_step (tyf : list N -> N) (p : placed) (next : N) (e : list N) : placed := ((tyf e, next) :: fst p, snd p + 1).

Definition pl_entries_from (entry : placed -> sx -> option (list N)) tyf := bk_entries placed entry (pl_step tyf).
Definition pl_placed_from (entry : placed -> sx -> option (list N)) tyf := bk_final placed entry (pl_step tyf).

Section Placed.
  Variable tyf : list N -> N.

  Definition pl_ok (first : N) (p : placed) (next : N) (es : list (list N)) : Prop :=
    rev (fst p) = starts_of tyf first es /\ snd p = N.of_nat (length (fst p)) /\ next = first + N.of_nat (length (concat es)).

  Lemma pl_ok_step first p next racc e : pl_ok first p next (rev racc) ->
    pl_ok first (pl_step tyf p next e) (next + N.of_nat (length e)) (rev (e :: racc)).
  Proof.
    intros (H1 & H2 & H3). unfold pl_ok. cbn [pl_step fst snd rev length]. split; [|split].
    - rewrite H1, starts_of_app. cbn [starts_of]. rewrite <- H3. reflexivity.
    - rewrite H2. lia.
    - rewrite concat_app, app_length. cbn [concat]. rewrite app_nil_r. lia.
  Qed.

  Lemma pl_ok_nil first : pl_ok first ([], 0) first [].
  Proof. unfold pl_ok. cbn [fst snd rev starts_of length concat]. repeat split. lia. Qed.

  (* resolving (104 k) in the bookkeeping = reading the k-th start *)
  Lemma pl_names_start first p next es k ty off : pl_ok first p next es ->
    resolve p ty (SL [SA 104; SA k]) = Some off -> nth_error (starts_of tyf first es) (N.to_nat k) = Some (ty, off).
  Proof.
    intros (H1 & H2 & _) H. apply (resolve_nth p ty _ off H2) in H as (k' & E & H). injection E as <-. now rewrite <- H1.
  Qed.

  Lemma pl_start_names first p next es k ty off : pl_ok first p next es ->
    nth_error (starts_of tyf first es) k = Some (ty, off) -> resolve p ty (SL [SA 104; SA (N.of_nat k)]) = Some off.
  Proof.
    intros (H1 & H2 & _) H. apply (resolve_nth p ty _ off H2). exists (N.of_nat k). now rewrite Nat2N.id, H1.
  Qed.

  Variable entry : placed -> sx -> option (list N).
  Variable h : ehdr.

  Lemma pl_reference_handles r first pre post es :
    pl_entries_from entry tyf (pre ++ post) ([], 0) (N.of_nat first) [] = Some es -> skipn first r = concat es ->
    Forall (fun e => self_describing h e (tyf e)) es ->
    exists p found,
      pl_placed_from entry tyf pre ([], 0) (N.of_nat first) = Some p /\ snd p = N.of_nat (length pre) /\
      walk (S (length r)) h first (skipn first r) = Some found /\
      length found = length (pre ++ post) /\
      (forall k ty off, resolve p ty (SL [SA 104; SA k]) = Some off ->
         exists o len, nth_error found (N.to_nat k) = Some (ty, o, len) /\ N.of_nat o = off) /\
      (forall k, (k < length pre)%nat ->
         exists ty o len, nth_error found k = Some (ty, o, len) /\
                          resolve p ty (SL [SA 104; SA (N.of_nat k)]) = Some (N.of_nat o)).
  Proof.
    intros Ees Hsk HF.
    destruct (bk_reference_handles placed entry (pl_step tyf) tyf h first (pl_ok (N.of_nat first))
                pl_names
                (pl_ok_step _) (pl_names_start _) (pl_start_names _)
                r ([], 0) pre post es (pl_ok_nil _) Ees Hsk HF)
      as (p & next & es1 & found & Hp & (H1 & H2 & _) & Hl1 & Hrest).
    exists p, found. split; [exact Hp|]. split; [|exact Hrest].
    rewrite H2, <- rev_length, H1, length_starts_of, Hl1. reflexivity.
  Qed.

  Lemma pl_reference_handles_ok ts r first ops es p pending :
    ts_walk ts = Some (first, h) ->
    pl_entries_from entry tyf ops ([], 0) (N.of_nat first) [] = Some es -> skipn first r = concat es ->
    Forall (fun e => self_describing h e (tyf e)) es ->
    pl_placed_from entry tyf ops ([], 0) (N.of_nat first) = Some p ->
    (forall hk, In hk pending -> exists ty, resolve p ty (SL [SA 104; SA (N.of_nat (snd hk))]) = Some (fst hk)) ->
    c05_handles_ok ts r pending = true.
  Proof.
    intros Hw. exact (bk_reference_handles_ok placed entry (pl_step tyf) tyf h first (pl_ok (N.of_nat first))
             pl_names
             (pl_ok_step _) (pl_names_start _) ts r ([], 0) ops es p pending Hw (pl_ok_nil _)).
  Qed.
End Placed.

(* the Specs built with [sp_entries] (Spec/RimtS.v): the state is (n, rs) *)

Definition sp_ty (e : list N) : N := nth 0 e 0.

(* under a one-byte type code the type is the first byte *)
Lemma self_describing_sp_ty h e : self_describing h e (field_at e 0 1) -> self_describing h e (sp_ty e).
Proof. intros H. unfold sp_ty. now rewrite nth0_field by exact (proj1 H). Qed.

(* the bookkeeping of [sp_entries] after a list of operations: number of entries and their (start, type), most recent
   first; this is the [(n, rs)] with which the NEXT operation's handle references (104 k) are looked up *)
Fixpoint sp_final (entry : nat -> sp_starts -> sx -> option (list N)) (ops : list sx) (off : N) (n : nat) (rs : sp_starts)
  : option (nat * sp_starts) :=
  match ops with
  | [] => Some (n, rs)
  | o :: r =>
      match entry n rs o with
      | Some e => sp_final entry r (off + N.of_nat (length e)) (S n) ((off, sp_ty e) :: rs)
      | None => None
      end
  end.

Definition swap_NN (x : N * N) : N * N := (snd x, fst x).

Definition sp_st : Type := (nat * sp_starts)%type.
Definition sp_step (st : sp_st) (off : N) (e : list N) : sp_st := (S (fst st), (off, sp_ty e) :: snd st).
Definition sp_names (st : sp_st) (k ty o : N) : Prop := sp_lookup (fst st) (snd st) (SL [SA 104; SA k]) = Some (o, ty).

Definition sp_ok (first : N) (st : sp_st) (off : N) (es : list (list N)) : Prop :=
  rev (snd st) = map swap_NN (starts_of sp_ty first es) /\ fst st = length (snd st) /\
  off = first + N.of_nat (length (concat es)).

Lemma sp_ok_step first st off racc e : sp_ok first st off (rev racc) ->
  sp_ok first (sp_step st off e) (off + N.of_nat (length e)) (rev (e :: racc)).
Proof.
  intros (H1 & H2 & H3). unfold sp_ok. cbn [sp_step fst snd rev length]. split; [|split].
  - rewrite H1, starts_of_app, map_app. cbn [starts_of map swap_NN fst snd]. rewrite <- H3. reflexivity.
  - rewrite H2. reflexivity.
  - rewrite concat_app, app_length. cbn [concat]. rewrite app_nil_r. lia.
Qed.

Lemma sp_ok_nil first : sp_ok first (0%nat, []) first [].
Proof. unfold sp_ok. cbn [fst snd rev starts_of map length concat]. repeat split. lia. Qed.

Lemma sp_names_start first st off es k ty o : sp_ok first st off es ->
  sp_names st k ty o -> nth_error (starts_of sp_ty first es) (N.to_nat k) = Some (ty, o).
Proof.
  intros (H1 & H2 & _) H. apply (sp_lookup_nth _ _ _ _ H2) in H as (k' & E & H). injection E as <-.
  rewrite H1, nth_error_map in H. destruct (nth_error (starts_of sp_ty first es) (N.to_nat k)) as [[t o']|]; [|discriminate H].
  now injection H as -> ->.
Qed.

Lemma sp_start_names first st off es k ty o : sp_ok first st off es ->
  nth_error (starts_of sp_ty first es) k = Some (ty, o) -> sp_names st (N.of_nat k) ty o.
Proof.
  intros (H1 & H2 & _) H. apply (sp_lookup_nth _ _ _ _ H2). exists (N.of_nat k). now rewrite Nat2N.id, H1, nth_error_map, H.
Qed.

Section SpHandles.
  Variable entry : nat -> sp_starts -> sx -> option (list N).
  Let s_entry (st : sp_st) := entry (fst st) (snd st).

  (* [sp_entries] and [sp_final] in the common form *)
  Lemma sp_entries_bk ops : forall off n rs racc,
    sp_entries entry ops off n rs racc = bk_entries sp_st s_entry sp_step ops (n, rs) off racc.
  Proof.
    induction ops as [|o ops IH]; intros; cbn [sp_entries bk_entries]; [reflexivity|]. unfold s_entry at 1. cbn [fst snd].
    destruct (entry n rs o); [apply IH|reflexivity].
  Qed.

  Lemma sp_final_bk ops : forall off n rs, sp_final entry ops off n rs = bk_final sp_st s_entry sp_step ops (n, rs) off.
  Proof.
    induction ops as [|o ops IH]; intros; cbn [sp_final bk_final]; [reflexivity|]. unfold s_entry at 1. cbn [fst snd].
    destruct (entry n rs o); [apply IH|reflexivity].
  Qed.

  Lemma sp_entries_forall (P : list N -> Prop) : (forall n rs o e, entry n rs o = Some e -> P e) ->
    forall ops off n rs es, sp_entries entry ops off n rs [] = Some es -> Forall P es.
  Proof.
    intros HP ops off n rs es H. rewrite sp_entries_bk in H.
    exact (bk_entries_forall P (fun st => HP (fst st) (snd st)) ops _ _ es H).
  Qed.

  Variables (h : ehdr) (first : nat).

  Lemma sp_reference_handles r pre post es :
    sp_entries entry (pre ++ post) (N.of_nat first) 0 [] [] = Some es -> skipn first r = concat es ->
    Forall (fun e => self_describing h e (sp_ty e)) es ->
    exists n rs found,
      sp_final entry pre (N.of_nat first) 0 [] = Some (n, rs) /\ n = length pre /\
      walk (S (length r)) h first (skipn first r) = Some found /\
      length found = length (pre ++ post) /\
      (forall k o ty, sp_lookup n rs (SL [SA 104; SA k]) = Some (o, ty) ->
         exists off len, nth_error found (N.to_nat k) = Some (ty, off, len) /\ N.of_nat off = o) /\
      (forall k, (k < length pre)%nat ->
         exists ty off len, nth_error found k = Some (ty, off, len) /\
                            sp_lookup n rs (SL [SA 104; SA (N.of_nat k)]) = Some (N.of_nat off, ty)).
  Proof.
    intros Ees Hsk HF. rewrite sp_entries_bk in Ees.
    destruct (bk_reference_handles sp_st s_entry sp_step sp_ty h first (sp_ok (N.of_nat first)) sp_names (sp_ok_step _)
                (sp_names_start _) (sp_start_names _) r _ pre post es (sp_ok_nil _) Ees Hsk HF)
      as ([n rs] & off & es1 & found & Hp & (H1 & H2 & _) & Hl1 & Hwalk & Hlen & Hto & Hfrom).
    exists n, rs, found. rewrite sp_final_bk. split; [exact Hp|]. split.
    { cbn [fst snd] in H1, H2. rewrite H2, <- rev_length, H1, map_length, length_starts_of. exact Hl1. }
    split; [exact Hwalk|]. split; [exact Hlen|]. split; [intros k o ty; exact (Hto k ty o)|exact Hfrom].
  Qed.

  Lemma sp_reference_handles_ok ts r ops es n rs pending :
    ts_walk ts = Some (first, h) ->
    sp_entries entry ops (N.of_nat first) 0 [] [] = Some es -> skipn first r = concat es ->
    Forall (fun e => self_describing h e (sp_ty e)) es ->
    sp_final entry ops (N.of_nat first) 0 [] = Some (n, rs) ->
    (forall hk, In hk pending -> exists ty, sp_lookup n rs (SL [SA 104; SA (N.of_nat (snd hk))]) = Some (fst hk, ty)) ->
    c05_handles_ok ts r pending = true.
  Proof.
    intros Hw Ees Hsk HF Hp Hpend. rewrite sp_entries_bk in Ees. rewrite sp_final_bk in Hp.
    exact (bk_reference_handles_ok sp_st s_entry sp_step sp_ty h first (sp_ok (N.of_nat first)) sp_names (sp_ok_step _)
             (sp_names_start _) ts r _ ops es (n, rs) pending Hw (sp_ok_nil _) Ees Hsk HF Hp Hpend).
  Qed.
End SpHandles.

(* [found] is the result of the Spec walk over an image; [x] is a handle reference written when [npre] operations had been
   applied; it names operation k < npre, the walk finds a node of type [ty] as its k-th entry, and [v] is the offset of
   that node *)
Definition names_node (found : list (N * nat * nat)) (npre : nat) (x : sx) (ty : N) (v : N) : Prop :=
  exists k off klen, x = SL [SA 104; SA k] /\ (N.to_nat k < npre)%nat /\
    nth_error found (N.to_nat k) = Some (ty, off, klen) /\ v = N.of_nat off.

(* The image [r] has, from offset [first], the self-describing entries es1 ++ e :: tail.  The walk finds them all, [e] as
   entry number |es1| at first + |concat es1|; and a field of [e] that holds, reduced to its width, the offset of a walked
   node holds that offset exactly once the image is smaller than the modulus, read from [r] at the start of [e] plus its
   offset inside [e]. *)
Section Cut.
  Variables (r : list N) (first : nat) (h : ehdr) (tyf : list N -> N) (es1 : list (list N)) (e : list N) (tail : list (list N)).
  Hypothesis Hsk : skipn first r = concat (es1 ++ e :: tail).
  Hypothesis HF : Forall (fun x => self_describing h x (tyf x)) (es1 ++ e :: tail).

  Lemma cut_walk : walk (S (length r)) h first (skipn first r) = Some (walked first tyf (es1 ++ e :: tail)).
  Proof. exact (walk_of_entries r first h tyf _ Hsk HF). Qed.

  Lemma cut_nth : nth_error (walked first tyf (es1 ++ e :: tail)) (length es1) = Some (tyf e, (first + length (concat es1))%nat, length e).
  Proof.
    unfold walked. rewrite (walk_result_nth first _ _ (length es1) e (tyf e)).
    - rewrite firstn_app, firstn_all, Nat.sub_diag. cbn [firstn]. rewrite app_nil_r. reflexivity.
    - rewrite nth_error_app2, Nat.sub_diag by lia. reflexivity.
    - rewrite map_app, nth_error_app2 by (rewrite map_length; lia). rewrite map_length, Nat.sub_diag. reflexivity.
  Qed.

  Lemma cut_fits k t o len : nth_error (walked first tyf (es1 ++ e :: tail)) k = Some (t, o, len) -> (o + len <= length r)%nat.
  Proof.
    intros H. apply walk_result_bound in H.
    assert (Hpos : (1 <= length (concat (es1 ++ e :: tail)))%nat).
    { apply Forall_app in HF. destruct HF as [_ HF']. inversion HF' as [|? ? [Hp _] _]; subst.
      rewrite concat_app, app_length. cbn [concat]. rewrite app_length. lia. }
    rewrite <- Hsk, skipn_length in *. lia.
  Qed.

  Lemma cut_ref_field x ty v o w bound : names_node (walked first tyf (es1 ++ e :: tail)) (length es1) x ty v ->
    N.of_nat (length r) < bound -> (o + w <= length e)%nat -> field_at e o w = v mod bound ->
    names_node (walked first tyf (es1 ++ e :: tail)) (length es1) x ty (field_at r (first + length (concat es1) + o) w).
  Proof.
    intros (k & off & klen & Hx & Hk & Hf & ->) Hsmall Hfit Hv. exists k, off, klen.
    split; [exact Hx|]. split; [exact Hk|]. split; [exact Hf|].
    rewrite <- Nat.add_assoc, field_at_add, Hsk, concat_app. cbn [concat].
    rewrite field_at_app_r, field_at_app_l, Hv by exact Hfit.
    apply N.mod_small. pose proof (cut_fits _ _ _ _ Hf) as Hb. clear - Hb Hsmall. lia.
  Qed.
End Cut.

(* a start recorded for entry k of a prefix: (104 k) names a walked node of the whole body *)
Lemma start_names_node tyf first es1 rest k ty off :
  nth_error (starts_of tyf (N.of_nat first) es1) (N.to_nat k) = Some (ty, off) ->
  names_node (walked first tyf (es1 ++ rest)) (length es1) (SL [SA 104; SA k]) ty off.
Proof.
  intros H. destruct (start_is_walked tyf first es1 rest _ ty off H) as (o & len & Hf & Ho). exists k, o, len.
  split; [reflexivity|]. split; [|auto]. rewrite <- (length_starts_of tyf (N.of_nat first) es1). exact (nth_error_Some_lt _ _ _ H).
Qed.

Section PlacedCut.
  Variable entry : placed -> sx -> option (list N).
  Variable tyf : list N -> N.

  (* a history cut at one operation: the entries before it, its own entry laid out in the bookkeeping [p] of the prefix, and
     every reference that [p] resolves names a walked node of the whole body *)
  Definition pl_cut (first : nat) (es1 : list (list N)) (o : sx) (e : list N) (tail : list (list N)) : Prop :=
    exists p, entry p o = Some e /\
      forall x ty v, resolve p ty x = Some v -> names_node (walked first tyf (es1 ++ e :: tail)) (length es1) x ty v.

  Lemma pl_split_at first pre o post es :
    pl_entries_from entry tyf (pre ++ o :: post) ([], 0) (N.of_nat first) [] = Some es ->
    exists es1 e tail,
      es = es1 ++ e :: tail /\ pl_entries_from entry tyf pre ([], 0) (N.of_nat first) [] = Some es1 /\
      length es1 = length pre /\ length tail = length post /\ pl_cut first es1 o e tail.
  Proof.
    intros H.
    destruct (bk_split_at (pl_ok_step tyf (N.of_nat first)) _ _ pre o post es (pl_ok_nil tyf _) H)
      as (es1 & e & tail & p & next & Hes & Hpre & Hl1 & Htl & He & Hok).
    exists es1, e, tail. repeat (split; [assumption|]). exists p. split; [exact He|].
    intros x ty v Hr. destruct (resolve_shape _ _ _ _ Hr) as [k ->].
    exact (start_names_node tyf first es1 _ k ty v (pl_names_start tyf _ _ _ _ k ty v Hok Hr)).
  Qed.
End PlacedCut.

Section SpSplit.
  Variable entry : nat -> sp_starts -> sx -> option (list N).

  Definition sp_cut (first : nat) (es1 : list (list N)) (o : sx) (e : list N) (tail : list (list N)) : Prop :=
    exists n rs, entry n rs o = Some e /\
      forall x ty v, sp_lookup n rs x = Some (v, ty) -> names_node (walked first sp_ty (es1 ++ e :: tail)) (length es1) x ty v.

  Lemma sp_split_at first pre o post es :
    sp_entries entry (pre ++ o :: post) (N.of_nat first) 0 [] [] = Some es ->
    exists es1 e tail,
      es = es1 ++ e :: tail /\ sp_entries entry pre (N.of_nat first) 0 [] [] = Some es1 /\
      length es1 = length pre /\ length tail = length post /\ sp_cut first es1 o e tail.
  Proof.
    intros H. rewrite sp_entries_bk in H.
    destruct (bk_split_at (sp_ok_step (N.of_nat first)) _ _ pre o post es (sp_ok_nil _) H)
      as (es1 & e & tail & st & off & Hes & Hpre & Hl1 & Htl & He & Hok).
    exists es1, e, tail. rewrite sp_entries_bk. repeat (split; [assumption|]). exists (fst st), (snd st). split; [exact He|].
    intros x ty v Hr. destruct (sp_lookup_shape _ _ _ _ Hr) as [k ->]. exact (start_names_node sp_ty first es1 _ k ty v (sp_names_start _ _ _ _ k ty v Hok Hr)).
  Qed.
End SpSplit.

(* what the cut gives about the image: the walk, the node of [o], and its reference fields; stated as an elimination rule,
   so that a use is one application and not a chain of case analyses over this long conjunction *)
Lemma cut_at_fields ts first h tyf Q ctor pre o post r (G : Prop) : cut_at ts first h tyf Q ctor pre o post r ->
  (forall es1 e tail,
     Q es1 o e tail -> length es1 = length pre ->
     walk (S (length r)) h first (skipn first r) = Some (walked first tyf (es1 ++ e :: tail)) ->
     nth_error (walked first tyf (es1 ++ e :: tail)) (length es1) = Some (tyf e, (first + length (concat es1))%nat, length e) ->
     (forall x ty v fo w bound, names_node (walked first tyf (es1 ++ e :: tail)) (length es1) x ty v ->
        N.of_nat (length r) < bound -> (fo + w <= length e)%nat -> field_at e fo w = v mod bound ->
        names_node (walked first tyf (es1 ++ e :: tail)) (length es1) x ty (field_at r (first + length (concat es1) + fo) w)) ->
     G) -> G.
Proof.
  intros (es1 & e & tail & r1 & HQ & Hl1 & _ & Hsk & HF & _) HG.
  exact (HG es1 e tail HQ Hl1 (cut_walk r first h tyf es1 e tail Hsk HF) (cut_nth first tyf es1 e tail)
           (cut_ref_field r first h tyf es1 e tail Hsk HF)).
Qed.

