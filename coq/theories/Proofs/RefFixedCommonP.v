(* Lemmas shared by the refinement theorems (model image = reference image) of the fixed-layout structures (FADT, SPCR, BERT,
   the tpm2.rs tables, RSDP, FACS), on top of Proofs/RefTableCommonP.v and Proofs/RefCommonP.v:
   - `hdr_table_is_ref`: the header fact in the form these tables use; `lay_at_some`: what an accepted [lay_at] returns;
   - `ctor_only_refines`, `sx_is_bytes`: constructor-only Specs and the well-formedness of byte-array arguments;
   - Section FoldSim: a Spec that folds an operation over the history against a model that steps along it;
   - `no_markers`, Section Observe: from an accepted history to the observations of a case (Impl/Run.v). *)
From Coq Require Import NArith List Bool Arith.
From ACPI Require Import Proofs.RefCommonP Proofs.BaseP Proofs.WalkP.
From ACPI Require Import Lib.Bytes Lib.Sx Impl.Table Impl.Run
  Spec.Layout Spec.FixedS Proofs.FixedP.
Import ListNotations.

Open Scope N_scope.

(* the form in which the fixed tables use [hdr_image_ref]: a model state that serialises as the header built from the
   constructor's arguments and [rest], with the right Length and a zero byte sum *)
Lemma hdr_table_is_ref {S} (bytes : S -> list N) s sig rev ha len cks rest :
  bytes s = hdr_bytes (mk_hdr sig rev ha) len cks ++ rest -> len = 36 + N.of_nat (length rest) ->
  sum8 (bytes s) = 0 -> bytes s = ref_table sig rev ha rest.
Proof. intros -> Hl Hs. destruct ha. now apply hdr_image_ref. Qed.

Lemma lay_at_some off size l b : lay_at off size l = Some b -> b = assemble l /\ length b = size.
Proof. intros H. exact (proj2 (lay_at_inv off size l b H)). Qed.

Section StepsApp.
  Context {S : Type}.
  Variable step : S -> sx -> option (S * list ev).

  Lemma run_steps_nil s : run_steps step s [] = Some s.
  Proof. reflexivity. Qed.
End StepsApp.

(* a table without mutating operations: the Spec accepts only the empty history *)
Lemma ctor_only_some image ctor ops r : ctor_only image ctor ops = Some r -> ops = [] /\ image ctor = Some r.
Proof. destruct ops; [intros H; split; [reflexivity|exact H]|discriminate]. Qed.

(* so its refinement is a statement about the constructor alone *)
Lemma ctor_only_refines {S} (image : sx -> option (list N)) (new : sx -> option S) (step : S -> sx -> option (S * list ev))
      (bytes : S -> list N) ctor ops r :
  ctor_only image ctor ops = Some r ->
  (image ctor = Some r -> exists s0, new ctor = Some s0 /\ bytes s0 = r) ->
  exists s0 s, new ctor = Some s0 /\ run_steps step s0 ops = Some s /\ bytes s = r.
Proof. intros H Hi. apply ctor_only_some in H. destruct H as [-> H]. destruct (Hi H) as (s0 & Hn & Hb). now exists s0, s0. Qed.

(* byte-array constructor arguments that really are bytes (the exchange language does not enforce it; the harness
   can only produce such arguments, they are `[u8; K]` on the Rust side) *)
Definition sx_is_bytes (s : sx) : Prop := forall b, sx_bytes s = Some b -> bytes_ok b = true.

Definition no_markers (ops : list sx) : bool := forallb (fun o => match o with SA _ => false | SL _ => true end) ops.

Lemma no_markers_real ops : no_markers ops = true -> real_ops ops = ops.
Proof.
  unfold no_markers, real_ops. induction ops as [|o ops IH]; intros H; [reflexivity|].
  cbn [forallb] in H. apply andb_true_iff in H. destruct H as [Ho H].
  destruct o as [n|l]; [discriminate|]. cbn [filter]. now rewrite IH.
Qed.

(* a Spec that folds a partial operation [apply] over the history (markers are outside its domain), and a model whose
   steps follow [apply] on the abstraction [abs] of the Spec's state *)
Section FoldSim.
  Context {V S : Type}.
  Variables (apply : V -> sx -> option V) (fold : V -> list sx -> option V).
  Hypothesis fold_nil : forall v, fold v [] = Some v.
  Hypothesis fold_cons : forall v o r, fold v (o :: r) = match apply v o with Some v' => fold v' r | None => None end.
  Hypothesis apply_marker : forall v n, apply v (SA n) = None.

  Lemma fold_no_markers ops : forall v v', fold v ops = Some v' -> no_markers ops = true.
  Proof.
    induction ops as [|o ops IH]; intros v v' H; [reflexivity|]. rewrite fold_cons in H.
    destruct o as [n|l]; [now rewrite apply_marker in H|].
    destruct (apply v (SL l)); [exact (IH _ _ H)|discriminate].
  Qed.

  Variables (step : S -> sx -> option (S * list ev)) (abs : V -> S).
  Hypothesis step_sim : forall v o v', apply v o = Some v' -> exists e, step (abs v) o = Some (abs v', e).

  Lemma fold_run_sim ops : forall v v', fold v ops = Some v' -> run_steps step (abs v) ops = Some (abs v').
  Proof.
    induction ops as [|o ops IH]; intros v v' H; [rewrite fold_nil in H; now injection H as <-|]. rewrite fold_cons in H.
    destruct o as [n|l]; [now rewrite apply_marker in H|].
    destruct (apply v (SL l)) as [v1|] eqn:Ea; [|discriminate].
    destruct (step_sim _ _ _ Ea) as [e He]. cbn [run_steps]. rewrite He. exact (IH _ _ H).
  Qed.
End FoldSim.

Section Observe.
  Context {S : Type}.
  Variable image : S -> option (list N).
  Variable step : S -> sx -> option (S * list ev).

  Lemma run_ops_acc_steps ops : forall s s' acc tail,
    no_markers ops = true -> run_steps step s ops = Some s' ->
    exists evs, run_ops_acc image step s (ops ++ tail) acc = run_ops_acc image step s' tail (evs ++ acc).
  Proof.
    induction ops as [|o ops IH]; intros s s' acc tail Hm Hr.
    - inversion Hr; subst. exists []. reflexivity.
    - cbn [no_markers forallb] in Hm. apply andb_true_iff in Hm. destruct Hm as [Ho Hm].
      destruct o as [n|l]; [discriminate|].
      cbn [run_steps] in Hr. cbn [app run_ops_acc].
      destruct (step s (SL l)) as [[s1 e]|]; [|discriminate].
      destruct (IH s1 s' (rev_append e acc) tail Hm Hr) as [evs H].
      exists (evs ++ rev e). rewrite H. rewrite rev_append_rev, app_assoc. reflexivity.
  Qed.

  (* a marker-free history the model accepts, followed by one observation: the case ends with the image, without refusal *)
  Lemma run_history_observe (new : sx -> option S) ctor ops s0 s img :
    new ctor = Some s0 -> no_markers ops = true -> run_steps step s0 ops = Some s -> image s = Some img ->
    exists evs, run_history image step new (SL (ctor :: ops ++ [SA 1])) = evs ++ [EvBytes img].
  Proof.
    intros Hn Hm Hr Hi. unfold run_history, run_ops. rewrite Hn.
    destruct (run_ops_acc_steps ops s0 s [] [SA 1] Hm Hr) as [evs H]. rewrite H.
    cbn [run_ops_acc]. rewrite Hi. rewrite frev_rev. cbn [rev]. exists (rev (evs ++ [])). reflexivity.
  Qed.
End Observe.
