(* SRAT: the table-specific obligations of the generic history invariant. *)
From Coq Require Import ZArith List Lia.
From ACPI Require Import Lib.Bytes Lib.Sx Impl.Table Impl.Fields Impl.Srat Proofs.TableP Proofs.MadtP Proofs.Tables
  Proofs.FixedP Proofs.BaseP.
Import ListNotations.
Open Scope N_scope.

Lemma srat_new_inv c s0 : srat_new c = Some s0 -> Inv2 KSrat s0.
Proof. intros H. exact (plain_new_inv KSrat _ _ c s0 H eq_refl). Qed.

Lemma memaff_bytes_length m : length (memaff_bytes m) = 40%nat.
Proof. unfold memaff_bytes, b1, w2, d4, q8. rewrite !app_length, !length_le. reflexivity. Qed.

Lemma sx_handle_length x h : sx_handle x = Some h -> length (handle_bytes h) = 16%nat.
Proof.
  intros H. unfold sx_handle in H. break_sx H.
  - apply bind_Some in H as (hb & E1 & H). apply bind_Some in H as (ub & E2 & H). injection H as <-.
    cbn [handle_bytes]. unfold d4. rewrite !app_length, length_le, (sx_arr_length _ _ _ E1), (sx_arr_length _ _ _ E2). reflexivity.
  - apply bind_Some in H as (u & _ & H). inversion H; subst. cbn [handle_bytes].
    unfold b1, w2, d4, q8. rewrite !app_length, !length_le. reflexivity.
  - inversion H; subst. cbn [handle_bytes]. unfold b1, w2, d4, q8. rewrite !app_length, !length_le. reflexivity.
Qed.

Lemma geninit_bytes_length g : length (handle_bytes (gi_handle g)) = 16%nat -> length (geninit_bytes g) = 32%nat.
Proof. intros H. unfold geninit_bytes, b1, d4. rewrite !app_length, !length_le, H. reflexivity. Qed.

Lemma geninit_builder_handle g o g' : geninit_builder g o = Some g' -> gi_handle g' = gi_handle g.
Proof.
  intros H. unfold geninit_builder in H. break_sx H; inversion H; subst; reflexivity.
Qed.

Lemma rintc_aff_builder_inv f o f' : rintc_aff_builder f o = Some f' -> head2 f' = head2 f /\ flds_len f' = flds_len f.
Proof.
  intros H. unfold rintc_aff_builder in H. break_sx H; apply Some_inj in H; subst;
    rewrite ?f_or_head2, ?fset_head2, ?flds_len_f_or, ?flds_len_fset by lia; split; reflexivity.
Qed.

Lemma rintc_aff_new_len u clock : length u = 4%nat -> flds_len (rintc_aff_new u clock) = 20%nat.
Proof.
  intros H. unfold rintc_aff_new. rewrite !flds_len_app, flds_len_fbytes, H. reflexivity.
Qed.

Lemma srat_addition_sound s o e : t_kind s = KSrat -> srat_addition s o = Some e ->
  a_claimed e = N.of_nat (length (a_bytes e)) /\
  (needs_pos (t_kind s) = true -> (1 <= length (a_bytes e))%nat /\ a_claimed e < 2 ^ 16).
Proof.
  intros Hk H. split; [|rewrite Hk; discriminate].
  unfold srat_addition in H. break_sx H.
  - (* RINTC affinity *)
    apply bind_Some in H as (u & Eu & H). apply bind_Some in H as (f & Ef & H). injection H as <-.
    cbn [a_claimed a_bytes]. rewrite ser_flds_length.
    apply (apply_builders_inv rintc_aff_builder (fun f => flds_len f = 20%nat)) in Ef.
    + rewrite Ef. reflexivity.
    + intros x o x' Hx Hb. rewrite (proj2 (rintc_aff_builder_inv _ _ _ Hb)). exact Hx.
    + apply rintc_aff_new_len. exact (sx_arr_length _ _ _ Eu).
  - (* generic initiator *)
    apply bind_Some in H as (hd & Eh & H). apply bind_Some in H as (g & Eg & H). injection H as <-.
    cbn [a_claimed a_bytes]. rewrite geninit_bytes_length; [reflexivity|].
    apply (apply_builders_inv geninit_builder (fun g => gi_handle g = hd)) in Eg; [| |reflexivity].
    + rewrite Eg. exact (sx_handle_length _ _ Eh).
    + intros x o x' Hx Hb. rewrite (geninit_builder_handle _ _ _ Hb). exact Hx.
  - (* memory affinity *)
    apply bind_Some in H as (m & _ & H). injection H as <-. cbn [a_claimed a_bytes]. now rewrite memaff_bytes_length.
Qed.

Definition srat_table : addtable :=
  {| at_name := [83; 82; 65; 84]; at_kind := KSrat; at_new := srat_new; at_entry := srat_addition;
     at_new_inv := srat_new_inv; at_sound := srat_addition_sound |}.

(* C01, C02 for the SRAT *)
Theorem srat_sum_len md c ops s0 s :
  srat_new c = Some s0 -> run_adds srat_addition md s0 ops = Some s -> N.of_nat (length (tbl_image s)) < 2 ^ 32 ->
  sum8 (tbl_image s) = 0 /\ Spec.Layout.field_at (tbl_image s) 4 4 = N.of_nat (length (tbl_image s)).
Proof. exact (addtable_sum_len srat_table md c ops s0 s). Qed.
