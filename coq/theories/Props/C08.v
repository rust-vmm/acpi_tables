(* C08 -- integer constants round-trip and use the narrowest AML encoding. *)
From Coq Require Import NArith List.
From ACPI Require Import Impl.AmlCore Spec.AmlCoreS Proofs.PkgLenP.
Import ListNotations.
Open Scope N_scope.

(* every 64-bit value decodes back to itself, whatever follows it in the stream *)
Theorem c08_roundtrip :
  forall n r, n < 2 ^ 64 -> int_decode (enc_u64 n ++ r) = Some (n, r).
Proof. intros n r H. rewrite enc_u64_spec. now apply int_decode_spec_int. Qed.

(* the emission is the specification's narrowest form: ZeroOp, OneOp, else the narrowest prefix *)
Theorem c08_narrowest :
  forall n, n < 2 ^ 64 -> enc_u64 n = spec_int n /\ length (enc_u64 n) = narrowest_len n.
Proof. intros n H. split; [apply enc_u64_spec|]. rewrite enc_u64_spec. now apply spec_int_narrowest. Qed.

(* the same value yields the same bytes through every integer type able to carry it *)
Theorem c08_type_independent :
  forall n,
    (n < 2 ^ 8 -> enc_u8 n = enc_u64 n) /\
    (n < 2 ^ 16 -> enc_u16 n = enc_u64 n) /\
    (n < 2 ^ 32 -> enc_u32 n = enc_u64 n) /\
    (n < 2 ^ 64 -> enc_usize n = enc_u64 n).
Proof.
  intros n. rewrite enc_u64_spec. repeat split; intros H.
  - now apply enc_u8_spec. - now apply enc_u16_spec. - now apply enc_u32_spec. - now apply enc_usize_spec.
Qed.

Example c08_examples :
  enc_u64 0 = [0] /\ enc_u64 1 = [1] /\ enc_u64 255 = [0x0A; 255] /\ enc_u64 256 = [0x0B; 0; 1] /\
  enc_u64 65536 = [0x0C; 0; 0; 1; 0] /\ enc_u64 4294967296 = [0x0E; 0; 0; 0; 0; 1; 0; 0; 0].
Proof. vm_compute. repeat split. Qed.

Print Assumptions c08_roundtrip.
Print Assumptions c08_narrowest.
Print Assumptions c08_type_independent.
