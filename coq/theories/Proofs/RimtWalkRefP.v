(* RIMT, C03 and C05 on the reference image: for every history in the domain of Spec/RimtS.v whose image is smaller than 4 GiB
   the reference image is exactly tiled by the devices that were added (walk from offset 48 by each device's own 16-bit length
   field at its bytes 2..3), the device count (offset 36) is the number of devices and the device array offset (offset 40) is
   48; every device passes the per-entry self-check (IOMMU: interrupt wire count and wire array offset; PCIe root complex: ID
   mapping count and mapping array offset; platform device: mapping array offset = 12 + name + NUL, NUL in place, mapping
   count -- all against the device length); and the offsets the Spec keeps for handle references are those the walk finds. *)
From Coq Require Import NArith List Lia.
From ACPI Require Import Lib.Bytes Lib.Sx Impl.Table Spec.Layout Spec.RimtS Spec.SelfCheck Judge
  Proofs.WalkP Proofs.WalkRefCommon2P Proofs.SelfCommonP Proofs.RimtRefP Proofs.BaseP Proofs.RimtStructP.
Import ListNotations.
Open Scope N_scope.

(* a device with elements of the right sizes that fits 16 bits passes the per-entry self-check: each count and offset field
   is read off the head of the device ([rimt_dev_field16]) and compared with the device's size *)
Lemma rimt_dev_good d : rimt_dev_ok d -> N.of_nat (rimt_dev_size d) <= 65535 -> entry_good H_u8_x_u16 18 sp_ty (rimt_dev_bytes d).
Proof.
  intros Hel Hfit. split; [exact (rimt_dev_self d Hel Hfit)|].
  pose proof (rimt_dev_length d Hel) as Hlen.
  rewrite rimt_dev_ty.
  destruct d as [id b p px ws|id seg ats pri ms|id nm ms]; cbn [entry_self_ok rimt_self]; unfold lenN; rewrite Hlen.
  - (* IOMMU: wire count, wire array offset *)
    rewrite (rimt_dev_field16 _ 28 (length ws) Hfit eq_refl), (rimt_dev_field16 _ 30 32 Hfit eq_refl) by (cbn [rimt_dev_size]; lia).
    cbn [rimt_dev_size]. rewrite (proj2 (N.eqb_eq _ _)) by lia. reflexivity.
  - (* PCIe root complex: mapping count, mapping array offset *)
    rewrite (rimt_dev_field16 _ 14 (length ms) Hfit eq_refl), (rimt_dev_field16 _ 12 16 Hfit eq_refl) by (cbn [rimt_dev_size]; lia).
    cbn [rimt_dev_size]. rewrite (proj2 (N.eqb_eq _ _)) by lia. reflexivity.
  - (* platform device: mapping array offset behind the name and its NUL, mapping count *)
    rewrite (rimt_dev_field16 _ 8 (12 + length nm + 1) Hfit eq_refl), (rimt_dev_field16 _ 10 (length ms) Hfit eq_refl)
      by (cbn [rimt_dev_size]; lia).
    cbn [rimt_dev_size] in *. rewrite (proj2 (N.leb_le 13 _)), (proj2 (N.eqb_eq _ _)) by lia.
    destruct (rimt_dev_split (DPlatform id nm ms)) as (fixed & Hfx & ->). cbn [rimt_dev_tail rimt_dev_head_size app] in *.
    rewrite app_assoc, byte_at_here; [reflexivity| |lia]. rewrite app_length, map_length, Hfx. lia.
Qed.

Lemma rimt_entry_good n rs o e : rimt_entry_ref n rs o = Some e -> entry_good H_u8_x_u16 18 sp_ty e.
Proof. intros H. apply rimt_entry_ref_cases in H as (d & _ & Hel & Hfit & ->). exact (rimt_dev_good d Hel Hfit). Qed.

Lemma rimt_entries_good ops es : rimt_entries_ref ops = Some es -> Forall (entry_good H_u8_x_u16 18 sp_ty) es.
Proof. intros H. exact (sp_entries_forall rimt_entry_ref _ rimt_entry_good ops _ _ _ es H). Qed.

(* The size bound is needed for the device count only: Spec/RimtS.v does not bound the number of devices, and a count of
   2^32 or more does not fit the 32-bit DeviceCount field. *)
Definition rimt_ref : reftable rimt_spec 18 (fun r => N.of_nat (length r) < 2 ^ 32).
Proof.
  refine (image3_reftable rimt_spec 18 _ [82; 73; 77; 84] KRimt H_u8_x_u16 sp_ty rimt_entries_ref eq_refl eq_refl
            (fun _ _ => eq_refl) (fun _ _ => eq_refl) rimt_entries_good _).
  intros ops es r Ees Hr Hfit o w v [E|[E|[]]]; injection E as <- <- <-.
  - split; [left; reflexivity|]. (* the device count: there are fewer devices than bytes *)
    pose proof (concat_len_ge es (self_describing_pos _ _ es (entry_good_self _ _ _ es (rimt_entries_good ops es Ees)))).
    rewrite (ref_image_length _ _ es r Hr eq_refl) in Hfit. change (2 ^ 32) with 4294967296 in Hfit.
    change (2 ^ (8 * N.of_nat 4)) with 4294967296. cbn [mid_layout layout_size] in Hfit. lia.
  - split; [right; left; reflexivity|reflexivity].
Defined.

Lemma rimt_image_body ctor ops r : ts_image rimt_spec ctor ops = Some r ->
  exists es, rimt_entries_ref ops = Some es /\ skipn 48 r = concat es /\
    Forall (fun e => self_describing H_u8_x_u16 e (sp_ty e)) es.
Proof. exact (reftable_body rimt_ref ctor ops r). Qed.

Theorem rimt_reference_tiles : forall ctor ops r,
  ts_image rimt_spec ctor ops = Some r -> N.of_nat (length r) < 2 ^ 32 ->
  c03_judge rimt_spec ctor r ops = true.
Proof. exact (reftable_tiles rimt_ref). Qed.

(* no size hypothesis: the device COUNT of the table (a 32-bit field) is not part of the per-entry check *)
Theorem rimt_selfcheck : forall ctor ops r, ts_image rimt_spec ctor ops = Some r -> c03_self 18 r = true.
Proof. exact (reftable_selfcheck rimt_ref). Qed.

(* C05 on the reference image, in the form of the run-time judgement [c05_handles_ok]: if each pending handle is the offset
   the Spec's bookkeeping after [ops] looks that operation's (104 k) up to, the judgement on the reference image is true *)
Corollary rimt_reference_handles_ok : forall ctor ops r n rs pending,
  ts_image rimt_spec ctor ops = Some r -> sp_final rimt_entry_ref ops 48 0 [] = Some (n, rs) ->
  (forall hk, In hk pending -> exists ty, sp_lookup n rs (SL [SA 104; SA (N.of_nat (snd hk))]) = Some (fst hk, ty)) ->
  c05_handles_ok rimt_spec r pending = true.
Proof.
  intros ctor ops r n rs pending H Hp Hpend. destruct (rimt_image_body ctor _ r H) as (es & Esp & Hsk & HF).
  exact (sp_reference_handles_ok rimt_entry_ref H_u8_x_u16 48%nat rimt_spec r ops es n rs pending eq_refl Esp Hsk HF Hp Hpend).
Qed.

Print Assumptions rimt_reference_tiles.
Print Assumptions rimt_selfcheck.
Print Assumptions rimt_reference_handles_ok.
