(* SRAT: the Impl model refines the Spec (property C04 as a theorem).
   For every constructor argument and every finite history inside the specification's domain that is a well-formed case
   (builder lists made of builder calls; the byte arrays of an ACPI device handle made of bytes), in both build modes, the
   model accepts the history and its image is byte for byte the reference image `ts_image srat_spec ctor ops`.
   Both well-formedness conditions are necessary: see `srat_refines_refuted_builder` and `srat_refines_refuted_bytes`. *)
From Coq Require Import NArith List Lia Bool Arith.
From ACPI Require Import Lib.Bytes Lib.Sx Lib.Machine Impl.Table Impl.Fields Impl.Srat
  Spec.Layout Spec.MadtS Spec.SratS Proofs.TableP Proofs.SratP Proofs.BitsP Proofs.RefCommonP Proofs.BaseP Proofs.WalkP Proofs.C11CommonP Proofs.SlotsP.
Import ListNotations.
Open Scope N_scope.

Definition flag_if (b : bool) (v : N) : N := if b then v else 0.

Definition memaff_wf (o : sx) : bool := match o with SL [SA k] => (1 <=? k) && (k <=? 3) | _ => false end.

Lemma memaff_wf_cases o : memaff_wf o = true -> o = SL [SA 1] \/ o = SL [SA 2] \/ o = SL [SA 3].
Proof.
  unfold memaff_wf. intros H. destruct o as [n|[|[k|?] [|? ?]]]; try discriminate H.
  apply andb_true_iff in H. destruct H as [H1 H2]. apply N.leb_le in H1. apply N.leb_le in H2.
  assert (E : k = 1 \/ k = 2 \/ k = 3) by lia. destruct E as [->|[->| ->]]; auto.
Qed.

Definition memaff_flags (b1 b2 b3 : bool) : N := flag_if b1 1 + flag_if b2 2 + flag_if b3 4.

Lemma memaff_flags_lor1 b1 b2 b3 : N.lor (memaff_flags b1 b2 b3) 1 = memaff_flags true b2 b3.
Proof. destruct b1, b2, b3; reflexivity. Qed.
Lemma memaff_flags_lor2 b1 b2 b3 : N.lor (memaff_flags b1 b2 b3) 2 = memaff_flags b1 true b3.
Proof. destruct b1, b2, b3; reflexivity. Qed.
Lemma memaff_flags_lor4 b1 b2 b3 : N.lor (memaff_flags b1 b2 b3) 4 = memaff_flags b1 b2 true.
Proof. destruct b1, b2, b3; reflexivity. Qed.

(* the Memory Affinity structure that holds the slots [c]: flag bit k-1 tells that builder k was called *)
Definition memaff_of (pd base len : N) (c : N -> option (list N)) : memaff :=
  {| ma_pd := pd; ma_base := base; ma_len := len; ma_flags := memaff_flags (isS (c 1)) (isS (c 2)) (isS (c 3)) |}.

Lemma memaff_step pd base len c o : memaff_wf o = true ->
  exists k args, o = SL (SA k :: args) /\
    memaff_builder (memaff_of pd base len c) o = Some (memaff_of pd base len (enter sx_nums c k args)).
Proof.
  intros H. unfold memaff_of.
  destruct (memaff_wf_cases o H) as [->|[->| ->]]; eexists _, _; (split; [reflexivity|]);
    cbn [memaff_builder]; unfold memaff_or; cbn [ma_pd ma_base ma_len ma_flags].
  - rewrite memaff_flags_lor1. reflexivity.
  - rewrite memaff_flags_lor2. reflexivity.
  - rewrite memaff_flags_lor4. reflexivity.
Qed.

(* the two dwords the hand-written serialiser extracts from a u64 are the low and high halves *)
Lemma lo32 x : d4 (N.land x LOW32) = le 4 (x mod 2 ^ 32).
Proof. unfold d4. f_equal. change LOW32 with (N.ones 32). apply N.land_ones. Qed.

Lemma hi32 x : d4 (N.land (N.shiftr x 32) LOW32) = le 4 (x / 2 ^ 32).
Proof.
  unfold d4. change LOW32 with (N.ones 32). rewrite N.land_ones, N.shiftr_div_pow2.
  exact (le_mod 4 (x / 2 ^ 32)).
Qed.

Lemma srat_memaff_is_reference pd base len bs : forallb memaff_wf bs = true ->
  exists m, apply_builders memaff_builder (memaff_new pd base len) bs = Some m /\
            srat_entry_ref (SL [SA 1; SA pd; SA base; SA len; SL bs]) = Some (memaff_bytes m).
Proof.
  intros Hwf.
  pose proof (slots_only sx_nums memaff_builder memaff_wf (memaff_of pd base len) (memaff_step pd base len) bs Hwf (fun _ => None)) as Hrun.
  rewrite <- apply_builders_fold in Hrun. eexists. split; [exact Hrun|].
  unfold memaff_bytes, memaff_of. cbn [ma_pd ma_base ma_len ma_flags]. rewrite !hi32, !lo32. reflexivity.
Qed.

(* the byte arrays of Handle::new_acpi are arrays of bytes *)
Definition handle_wf (h : sx) : bool :=
  match h with
  | SL [SA 0; hid; uid] =>
      match sx_bytes hid, sx_bytes uid with Some a, Some b => bytes_ok a && bytes_ok b | _, _ => true end
  | _ => true
  end.

(* (device << 3) | function is device * 8 + function on the specification's domain *)
Lemma devfn_ok dev fn : dev < 32 -> fn < 8 -> devfn dev fn = dev * 8 + fn.
Proof.
  intros Hd Hf. unfold devfn, cast, U8. rewrite shiftl_mul. change (2 ^ 3) with 8. change (2 ^ 8) with 256.
  rewrite N.mod_small by lia. exact (lor_disjoint fn dev 3 Hf).
Qed.

(* the type byte that Impl/Srat.v [geninit_bytes] writes for a handle, named so that it can be rewritten *)
Definition handle_type (hd : handle) : N := match hd with HAcpi _ _ => 0 | HPci _ _ _ _ => 1 end.

Lemma srat_handle_is_reference h ty hb : handle_wf h = true -> srat_handle_ref h = Some (ty, hb) ->
  exists hd, sx_handle h = Some hd /\ handle_bytes hd = hb /\ handle_type hd = ty /\ bytes_ok hb = true.
Proof.
  intros Hwf H. pose proof H as H'. unfold srat_handle_ref in H'. break_sx H'.
  - (* ACPI: HID and UID *)
    cbn [handle_wf] in Hwf. clear H.
    match type of H' with context [match sx_bytes ?a with _ => _ end] => destruct (sx_bytes a) as [hidb|] eqn:Ehid; [|discriminate H'] end.
    match type of H' with context [match sx_bytes ?a with _ => _ end] => destruct (sx_bytes a) as [uidb|] eqn:Euid; [|discriminate H'] end.
    match type of H' with context [if ?c then _ else _] => destruct c eqn:Ec; [|discriminate H'] end. apply andb_true_iff in Ec. destruct Ec as [Hl8 Hl4].
    apply Nat.eqb_eq in Hl8. apply Nat.eqb_eq in Hl4.
    destruct (lay 16 _) as [x|] eqn:El; [|discriminate H']. cbn [option_map] in H'. inversion H'; subst ty x; clear H'.
    apply lay_some in El. apply andb_true_iff in Hwf. destruct Hwf as [Hb1 Hb2].
    exists (HAcpi hidb uidb). split.
    + cbn [sx_handle]. rewrite (sx_arr_of_bytes _ _ _ Ehid Hl8), (sx_arr_of_bytes _ _ _ Euid Hl4). reflexivity.
    + split; [|split; [reflexivity|rewrite El; apply bytes_ok_assemble]].
      rewrite El, !assemble_app, (assemble_bytes _ _ Hb1), (assemble_bytes _ _ Hb2). reflexivity.
  - (* PCI, new_pci *)
    clear H. match type of H' with context [if ?c then _ else _] => destruct c eqn:Ec; [|discriminate H'] end.
    apply andb_true_iff in Ec. destruct Ec as [Hd Hf]. pose proof Hd as Hd'. pose proof Hf as Hf'.
    apply N.ltb_lt in Hd. apply N.ltb_lt in Hf.
    destruct (lay 16 _) as [x|] eqn:El; [|discriminate H']. cbn [option_map] in H'. inversion H'; subst ty x; clear H'.
    apply lay_some in El. eexists. split.
    + cbn [sx_handle]. unfold pci_ok. rewrite Hd', Hf'. reflexivity.
    + cbn [handle_bytes handle_type]. split; [|split; [reflexivity|rewrite El; apply bytes_ok_assemble]].
      rewrite El, (devfn_ok _ _ Hd Hf). reflexivity.
  - (* PCI, struct literal *)
    clear H. match type of H' with context [if ?c then _ else _] => destruct c eqn:Ec; [|discriminate H'] end.
    apply andb_true_iff in Ec. destruct Ec as [Hd Hf]. apply N.ltb_lt in Hd. apply N.ltb_lt in Hf.
    destruct (lay 16 _) as [x|] eqn:El; [|discriminate H']. cbn [option_map] in H'. inversion H'; subst ty x; clear H'.
    apply lay_some in El. eexists. split; [reflexivity|]. cbn [handle_bytes handle_type].
    split; [|split; [reflexivity|rewrite El; apply bytes_ok_assemble]].
    rewrite El, (devfn_ok _ _ Hd Hf). reflexivity.
Qed.

Definition geninit_wf (o : sx) : bool := match o with SL [SA k] => (k =? 1) || (k =? 2) | _ => false end.

Lemma geninit_wf_cases o : geninit_wf o = true -> o = SL [SA 1] \/ o = SL [SA 2].
Proof.
  unfold geninit_wf. intros H. destruct o as [n|[|[k|?] [|? ?]]]; try discriminate H.
  apply orb_true_iff in H. destruct H as [H|H]; apply N.eqb_eq in H; subst; auto.
Qed.

Definition geninit_flags (b1 b2 : bool) : N := flag_if b1 1 + flag_if b2 2.
Lemma geninit_flags_lor1 b1 b2 : N.lor (geninit_flags b1 b2) 1 = geninit_flags true b2.
Proof. destruct b1, b2; reflexivity. Qed.
Lemma geninit_flags_lor2 b1 b2 : N.lor (geninit_flags b1 b2) 2 = geninit_flags b1 true.
Proof. destruct b1, b2; reflexivity. Qed.

Definition geninit_of (pd : N) (hd : handle) (c : N -> option (list N)) : geninit :=
  {| gi_pd := pd; gi_handle := hd; gi_flags := geninit_flags (isS (c 1)) (isS (c 2)) |}.

Lemma geninit_step pd hd c o : geninit_wf o = true ->
  exists k args, o = SL (SA k :: args) /\ geninit_builder (geninit_of pd hd c) o = Some (geninit_of pd hd (enter sx_nums c k args)).
Proof.
  intros H. unfold geninit_of.
  destruct (geninit_wf_cases o H) as [->| ->]; eexists _, _; (split; [reflexivity|]);
    cbn [geninit_builder]; unfold geninit_or; cbn [gi_pd gi_handle gi_flags].
  - rewrite geninit_flags_lor1. reflexivity.
  - rewrite geninit_flags_lor2. reflexivity.
Qed.

Lemma srat_geninit_is_reference pd h bs b : handle_wf h = true -> forallb geninit_wf bs = true ->
  srat_entry_ref (SL [SA 2; SA pd; h; SL bs]) = Some b ->
  exists hd g, sx_handle h = Some hd /\
               apply_builders geninit_builder {| gi_pd := pd; gi_handle := hd; gi_flags := 0 |} bs = Some g /\
               geninit_bytes g = b.
Proof.
  intros Hh Hwf H. cbn [srat_entry_ref] in H.
  destruct (srat_handle_ref h) as [[ty hb]|] eqn:Eh; [|discriminate H].
  destruct (srat_handle_is_reference h ty hb Hh Eh) as (hd & Hhd & Hhb & Hty & Hbok).
  apply lay_some in H. rewrite !assemble_app, (assemble_bytes _ hb Hbok) in H. subst b.
  pose proof (slots_only sx_nums geninit_builder geninit_wf (geninit_of pd hd) (geninit_step pd hd) bs Hwf (fun _ => None)) as Hrun.
  rewrite <- apply_builders_fold in Hrun. exists hd. eexists. split; [exact Hhd|]. split; [exact Hrun|].
  unfold geninit_bytes, geninit_of. cbn [gi_pd gi_handle gi_flags]. fold (handle_type hd). rewrite Hhb, Hty. reflexivity.
Qed.

Definition rintc_wf (o : sx) : bool :=
  match o with SL [SA k] => k =? 1 | SL [SA k; SA _] => k =? 2 | _ => false end.

Lemma rintc_wf_cases o : rintc_wf o = true -> o = SL [SA 1] \/ exists pd, o = SL [SA 2; SA pd].
Proof.
  unfold rintc_wf. intros H. destruct o as [n|[|[k|?] [|[v|?] [|? ?]]]]; try discriminate H;
    apply N.eqb_eq in H; subst; eauto.
Qed.

Definition rintc_flds (pd u0 u1 u2 u3 fl clock : N) : flds :=
  [F 1 7; F 1 20; F 2 0; F 4 pd; F 1 u0; F 1 u1; F 1 u2; F 1 u3; F 4 fl; F 4 clock].

Lemma flag_if_lor1 b : N.lor (flag_if b 1) 1 = 1.
Proof. destruct b; reflexivity. Qed.

Definition rintc_of (u0 u1 u2 u3 clock : N) (c : N -> option (list N)) : flds :=
  rintc_flds (val (c 2)) u0 u1 u2 u3 (flag_if (isS (c 1)) 1) clock.

Lemma rintc_step u0 u1 u2 u3 clock c o : rintc_wf o = true ->
  exists k args, o = SL (SA k :: args) /\
    rintc_aff_builder (rintc_of u0 u1 u2 u3 clock c) o = Some (rintc_of u0 u1 u2 u3 clock (enter sx_nums c k args)).
Proof.
  intros H. destruct (rintc_wf_cases o H) as [->|[pd ->]]; eexists _, _; (split; [reflexivity|]).
  - unfold rintc_of. cbn [rintc_aff_builder rintc_flds f_or F]. rewrite flag_if_lor1. reflexivity.
  - reflexivity.
Qed.

Lemma srat_rintc_is_reference uid clock bs b : forallb rintc_wf bs = true ->
  srat_entry_ref (SL [SA 3; uid; SA clock; SL bs]) = Some b ->
  exists u f, sx_arr 4 uid = Some u /\ apply_builders rintc_aff_builder (rintc_aff_new u clock) bs = Some f /\ ser_flds f = b.
Proof.
  intros Hwf H. cbn [srat_entry_ref] in H.
  destruct (sx_bytes uid) as [ub|] eqn:Eu; [|discriminate H].
  destruct (Nat.eqb_spec (length ub) 4) as [Hl|]; [|discriminate H].
  pose proof (sx_arr_of_bytes _ _ _ Eu Hl) as Harr.
  destruct ub as [|u0 [|u1 [|u2 [|u3 [|]]]]]; try discriminate Hl.
  pose proof (slots_only sx_nums rintc_aff_builder rintc_wf (rintc_of u0 u1 u2 u3 clock) (rintc_step u0 u1 u2 u3 clock) bs Hwf
                (fun _ => None)) as Hrun.
  rewrite <- apply_builders_fold in Hrun. eexists. eexists. split; [exact Harr|]. split; [exact Hrun|].
  apply Some_inj. rewrite <- H. reflexivity.
Qed.

Definition srat_op_wf (o : sx) : bool :=
  match o with
  | SL [SA 1; _; _; _; SL bs] => forallb memaff_wf bs
  | SL [SA 2; _; h; SL bs] => handle_wf h && forallb geninit_wf bs
  | SL [SA 3; _; _; SL bs] => forallb rintc_wf bs
  | _ => true
  end.

(* the three structures the specification defines *)
Inductive srat_shape : sx -> Prop :=
| SS1 pd base len bs : srat_shape (SL [SA 1; SA pd; SA base; SA len; SL bs])
| SS2 pd h bs : srat_shape (SL [SA 2; SA pd; h; SL bs])
| SS3 uid clock bs : srat_shape (SL [SA 3; uid; SA clock; SL bs]).

Lemma srat_ref_shape o b : srat_entry_ref o = Some b -> srat_shape o.
Proof. intros H. unfold srat_entry_ref in H. break_sx H; constructor. Qed.

(* C04 per entry, for the three structure kinds and all argument values / builder chains / handle forms *)
Theorem srat_entries_are_reference s o b :
  srat_op_wf o = true -> srat_entry_ref o = Some b ->
  exists e, srat_addition s o = Some e /\ a_bytes e = b /\ a_flag e = t_flag s /\ a_returns e = false.
Proof.
  intros Hwf H. destruct (srat_ref_shape o b H) as [pd base len bs|pd h bs|uid clock bs];
    cbn [srat_op_wf] in Hwf; cbn [srat_addition].
  - destruct (srat_memaff_is_reference pd base len bs Hwf) as (m & Hm & Hr).
    rewrite Hr in H. injection H as <-. rewrite Hm. cbn [option_bind]. eexists. repeat split.
  - apply andb_true_iff in Hwf. destruct Hwf as [Hh Hbs].
    destruct (srat_geninit_is_reference pd h bs b Hh Hbs H) as (hd & g & Hhd & Hg & Hb).
    rewrite Hhd. cbn [option_bind]. rewrite Hg. cbn [option_bind]. eexists. repeat split. exact Hb.
  - destruct (srat_rintc_is_reference uid clock bs b Hwf H) as (u & f & Hu & Hf & Hb).
    rewrite Hu. cbn [option_bind]. rewrite Hf. cbn [option_bind]. eexists. repeat split. exact Hb.
Qed.

Definition srat_ops_wf (ops : list sx) : Prop := Forall (fun o => srat_op_wf o = true) ops.

Lemma srat_agrees s o b : wf_only srat_op_wf srat_entry_ref o = Some b -> exists e, srat_addition s o = Some e /\ a_bytes e = b.
Proof.
  unfold wf_only. intros H. destruct (srat_op_wf o) eqn:Hwf; [|discriminate].
  destruct (srat_entries_are_reference s o b Hwf H) as (e & He & Hb & _). now exists e.
Qed.

Lemma srat_refines_calls md ctor ops r :
  ts_image srat_spec ctor ops = Some r -> srat_ops_wf ops -> N.of_nat (length r) < 2 ^ 32 ->
  exists s0 s, srat_new ctor = Some s0 /\ run_adds srat_addition md s0 ops = Some s /\ tbl_image s = r /\ all_calls ops.
Proof.
  intros Himg Hwf Hfit. apply (table3_accepts KSrat [83; 82; 65; 84] srat_addition srat_entries_ref eq_refl md ctor ops r Himg).
  intros s0 es I0 He0 _ Hes ->. unfold srat_entries_ref in Hes. rewrite <- (wf_only_map srat_op_wf _ ops Hwf) in Hes.
  exact (plain_image KSrat srat_addition srat_addition_sound _ (fun _ => eq_refl) srat_agrees
           md s0 ops es I0 He0 (opt_concat_Forall2 _ _ _ Hes) Hfit ltac:(discriminate)).
Qed.

Theorem srat_refines : forall md ctor ops r,
  ts_image srat_spec ctor ops = Some r ->
  srat_ops_wf ops ->
  N.of_nat (length r) < 2 ^ 32 ->
  exists s0 s, srat_new ctor = Some s0 /\ run_adds srat_addition md s0 ops = Some s /\ tbl_image s = r.
Proof. intros md ctor ops r Himg Hwf Hfit. exact (accepted_refines (srat_refines_calls md ctor ops r Himg Hwf Hfit)). Qed.

Lemma srat_no_handle s o e : srat_addition s o = Some e -> a_returns e = false.
Proof.
  unfold srat_addition. intros H. break_sx H.
  all: repeat match type of H with (do _ <- ?X; _) = _ => destruct X; [|discriminate H]; cbn [option_bind] in H end.
  all: injection H as <-; reflexivity.
Qed.

Theorem srat_case_refines : forall md ctor ops r,
  ts_image srat_spec ctor ops = Some r -> srat_ops_wf ops -> N.of_nat (length r) < 2 ^ 32 ->
  srat_case md (SL (ctor :: ops ++ [SA 1])) = map (fun _ => EvNum 0) ops ++ [EvBytes r].
Proof.
  intros md ctor ops r Himg Hwf Hfit.
  exact (case_zeros (srat_refines_calls md ctor ops r Himg Hwf Hfit) srat_no_handle).
Qed.

Definition srat_witness_ctor : sx :=
  SL [SL [SA 0; SA 0; SA 0; SA 0; SA 0; SA 0]; SL [SA 0; SA 0; SA 0; SA 0; SA 0; SA 0; SA 0; SA 0]; SA 0].

(* (a) the Spec reads "was builder k called" and ignores list elements that are not a builder call; the model (like the harness)
   refuses an unknown builder.  Smallest witness: one Memory Affinity structure with the builder list (0). *)
Definition srat_witness_ops_a : list sx := [SL [SA 1; SA 0; SA 0; SA 0; SL [SA 0]]].

Example srat_refines_refuted_builder :
  exists r, ts_image srat_spec srat_witness_ctor srat_witness_ops_a = Some r /\ N.of_nat (length r) < 2 ^ 32 /\
    forall md, exists s0, srat_new srat_witness_ctor = Some s0 /\ run_adds srat_addition md s0 srat_witness_ops_a = None.
Proof.
  eexists. split; [vm_compute; reflexivity|]. split; [vm_compute; reflexivity|].
  intros md. eexists. split; [reflexivity|]. destruct md; vm_compute; reflexivity.
Qed.

(* (b) the model's Handle::Acpi keeps the [u8; 8] / [u8; 4] arguments as given (no truncation: the Rust type is already u8),
   the Spec lays every array element out as one byte (mod 256).  With an element >= 256 (not expressible in Rust) the model
   accepts the history but its "image" contains the non-byte. *)
Definition srat_witness_ops_b : list sx :=
  [SL [SA 2; SA 0; SL [SA 0; SL [SA 256; SA 0; SA 0; SA 0; SA 0; SA 0; SA 0; SA 0]; SL [SA 0; SA 0; SA 0; SA 0]]; SL []]].

Example srat_refines_refuted_bytes :
  exists r, ts_image srat_spec srat_witness_ctor srat_witness_ops_b = Some r /\ N.of_nat (length r) < 2 ^ 32 /\
    forall md, exists s0 s, srat_new srat_witness_ctor = Some s0 /\
                            run_adds srat_addition md s0 srat_witness_ops_b = Some s /\ tbl_image s <> r.
Proof.
  eexists. split; [vm_compute; reflexivity|]. split; [vm_compute; reflexivity|].
  intros md. eexists. eexists. split; [reflexivity|]. split; [destruct md; vm_compute; reflexivity|].
  destruct md; vm_compute; discriminate.
Qed.

Print Assumptions srat_entries_are_reference.
Print Assumptions srat_refines.
Print Assumptions srat_case_refines.
Print Assumptions srat_refines_refuted_builder.
Print Assumptions srat_refines_refuted_bytes.
