(* SLIT: the Impl model refines the Spec layer (C04 as a theorem).
   For every constructor argument and every history inside the specification's domain, in both build modes, the
   model accepts the history and its image is byte for byte the reference image: the calls of such a history are in
   range, so it is accepted (slit_sim_total); the state it reaches stands for the matrix of last values (slit_sim_run);
   and the image of a state is the reference table of what the state stands for (slit_sim_image). *)
From Coq Require Import NArith List Lia Bool.
From ACPI Require Import Lib.Bytes Lib.Sx Lib.Machine Impl.Table Impl.Slit
  Spec.Layout Spec.HmatS Spec.SlitS
  Proofs.FixedP Proofs.SlitP Proofs.RefTableCommonP Proofs.RefCommonR2P Proofs.BaseP.
Import ListNotations.

Open Scope N_scope.

Lemma slit_sim_image h n M s : slit_sim h n M s ->
  Impl.Slit.slit_image s =
  ref_table (h_sig h) (h_rev h) (ha_of h) (le 8 n ++ flat_map (fun i => map (fun j => M i j) (seqN n)) (seqN n)).
Proof.
  intros [I <- <- Hc]. pose proof (length_cells s I) as Hlen.
  assert (Ecells : cells s = flat_map (fun i => map (fun j => M i j) (seqN (st_loc s))) (seqN (st_loc s))).
  { apply list_is_matrix; [exact Hlen|]. intros i j Hi Hj. exact (Hc i j Hi Hj). }
  rewrite <- Ecells. apply hdr_image_ref; [|exact (sinv_sum8 s I)].
  rewrite (si_len s I), app_length. unfold q8. rewrite length_le. lia.
Qed.

Lemma slit_op_ok_inv n o : slit_op_ok n o = true ->
  exists a b v, o = SL [SA 1; SA a; SA b; SA v] /\ a < n /\ b < n /\ v < 256.
Proof.
  unfold slit_op_ok. intros H. break_sx H.
  apply andb_true_iff in H. destruct H as [H Hv]. apply andb_true_iff in H. destruct H as [Ha Hb].
  apply N.ltb_lt in Ha, Hb, Hv. eexists _, _, _. split; [reflexivity|]. auto.
Qed.

(* the Spec's domain and its image *)
Lemma slit_domain ctor ops r : ts_image slit_spec ctor ops = Some r ->
  exists o t r0 n h, ctor = SL [o; t; r0; SA n] /\ sx_hdr_args o t r0 = Some h /\ 44 + n * n < 2 ^ 32 /\
    forallb (slit_op_ok n) ops = true /\
    r = ref_table [83; 76; 73; 84] 1 h (le 8 n ++ flat_map (fun i => map (fun j => last_pair i j ops 10) (seqN n)) (seqN n)).
Proof.
  cbn [ts_image slit_spec]. unfold SlitS.slit_image. intros H.
  destruct ctor as [|[|o [|t [|r0 [|[n|] [|]]]]]]; try discriminate H.
  destruct (sx_hdr_args _ _ _) as [h|] eqn:Eh; [|discriminate H].
  destruct (44 + n * n <? 2 ^ 32) eqn:E1; [|discriminate H]. cbn [andb] in H.
  destruct (forallb (slit_op_ok n) ops) eqn:E2; [|discriminate H].
  apply N.ltb_lt in E1. apply Some_inj in H. do 5 eexists. repeat split; eauto.
Qed.

(* inside the domain: the calls are in range, there is no marker, the runner on the vocabulary is slit_run on the calls,
   and the Spec's abstract matrix is the one of Proofs/SlitP.v *)
Lemma slit_dom_calls md n ops : forallb (slit_op_ok n) ops = true ->
  Forall (op_in_range n) (calls ops) /\ all_calls ops /\
  (forall s, run_steps (slit_step md) s ops = slit_run md s (calls ops)) /\
  (forall i j acc, last_pair i j ops acc = slit_last i j (calls ops) acc).
Proof.
  induction ops as [|o ops IH]; intros Hok; [repeat split; constructor|].
  cbn [forallb] in Hok. apply andb_true_iff in Hok. destruct Hok as [Ho Hok].
  destruct (slit_op_ok_inv n o Ho) as (a & b & v & -> & Ha & Hb & Hv).
  destruct (IH Hok) as (H1 & H2 & H3 & H4).
  assert (Ev : cast U8 v = v) by (unfold cast, U8; change (2 ^ 8) with 256; apply N.mod_small; exact Hv).
  change (calls (SL [SA 1; SA a; SA b; SA v] :: ops)) with ((a, b, cast U8 v) :: calls ops). rewrite Ev. repeat split.
  - constructor; [split; assumption|exact H1].
  - constructor; [exact Logic.I|exact H2].
  - intros s. cbn [run_steps slit_run]. rewrite slit_step_is, Ev.
    destruct (slit_set_distance md s a b v); cbn [option_map]; [apply H3|reflexivity].
  - intros i j acc. cbn [last_pair slit_last]. apply H4.
Qed.

(* the constructor accepts every matrix that fits the Length field *)
Lemma slit_new_accepts o t r0 n ha : sx_hdr_args o t r0 = Some ha -> 44 + n * n < 2 ^ 32 ->
  exists s0, slit_new (SL [o; t; r0; SA n]) = Some s0 /\ st_loc s0 = n /\ st_hdr s0 = mk_hdr [83; 76; 73; 84] 1 ha.
Proof.
  intros Eh Hsz. unfold slit_new. rewrite (sx_hdr_of_args Eh). cbn [option_bind]. unfold mul_c, add_c.
  destruct (N.ltb_spec (n * n) U32) as [H1|H1]; [|unfold U32 in H1; lia]. cbn [option_bind].
  destruct (N.ltb_spec (n * n + 44) U32) as [H2|H2]; [|unfold U32 in H2; lia]. cbn [option_bind].
  eexists. repeat split.
Qed.

(* the refinement, with what else its proof knows: the invariant of the state reached, and that the history has no marker *)
Lemma slit_refines_inv md ctor ops r :
  ts_image slit_spec ctor ops = Some r ->
  exists s0 s, slit_new ctor = Some s0 /\ run_steps (slit_step md) s0 ops = Some s /\ Impl.Slit.slit_image s = r /\
    SInv s /\ all_calls ops.
Proof.
  intros H. destruct (slit_domain _ _ _ H) as (o & t & r0 & n & [oem tb orev] & -> & Eh & Hsz & Hok & ->).
  destruct (slit_new_accepts o t r0 n _ Eh Hsz) as (s0 & Enew & HL0 & Hh0).
  pose proof (slit_sim_new _ _ Enew) as HS0. rewrite HL0, Hh0 in HS0.
  destruct (slit_dom_calls md n ops Hok) as (Hin & Hcalls & Hrun & Hlast).
  destruct (slit_sim_total md _ n (calls ops) _ s0 HS0 Hin) as [s Er].
  destruct (slit_sim_run md _ n (calls ops) _ s0 s HS0 Er) as [_ HS].
  exists s0, s. split; [exact Enew|]. split; [rewrite Hrun; exact Er|]. split; [|exact (conj (sim_inv _ _ _ _ HS) Hcalls)].
  rewrite (slit_sim_image _ _ _ s HS). cbn [mk_hdr h_sig h_rev ha_of h_oem h_tbl h_orev ha_oem ha_tbl ha_orev].
  do 2 f_equal. apply flat_map_ext. intros i. apply map_ext. intros j. symmetry. apply Hlast.
Qed.

Theorem slit_refines md ctor ops r :
  ts_image slit_spec ctor ops = Some r ->
  exists s0 s, slit_new ctor = Some s0 /\ run_steps (slit_step md) s0 ops = Some s /\ Impl.Slit.slit_image s = r.
Proof. intros H. destruct (slit_refines_inv md ctor ops r H) as (s0 & s & H1 & H2 & H3 & _). eauto. Qed.

Lemma slit_step_num md s o s1 e : slit_step md s o = Some (s1, e) -> exists n, e = [EvNum n] /\ True.
Proof. intros H. destruct (slit_step_inv md s o s1 e H) as (a & b & v & _ & _ & ->). now exists 0. Qed.

Corollary slit_case_refines md ctor ops r :
  ts_image slit_spec ctor ops = Some r ->
  exists evs, Forall is_num evs /\ slit_case md (SL (ctor :: ops ++ [SA 1])) = evs ++ [EvBytes r].
Proof.
  intros H. destruct (slit_refines_inv md ctor ops r H) as (s0 & s & Hn & Hr & Hi & _ & Hc).
  destruct (run_history_end (fun s => Some (Impl.Slit.slit_image s)) (slit_step md) (fun _ => True) (slit_step_num md)
              slit_new ctor ops s0 s r Hc Hn Hr (f_equal Some Hi)) as (ns & _ & _ & E).
  exists (map EvNum ns). split; [apply nums_are_num|exact E].
Qed.

Print Assumptions slit_refines.
Print Assumptions slit_case_refines.
