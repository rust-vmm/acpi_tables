(* Coherence of the AML oracles with the Impl model (components 40 and 41).

   The property theorems of C06 / C07 / C10 / C15 are about the model ([enc], [norm], [wf]); the executable judgement
   is made by the oracle functions of Spec/AmlTermS.v and Judge.v, which no theorem mentions.  This file closes the gap:
   on a stated domain of case S-expressions the oracle ACCEPTS what the model itself emits,
        oracle prop 40 c (run_case md 40 c) = true   (prop = 6, 7, 10, 15)        oracle 15 41 c (run_case md 41 c) = true,
   so that wherever the correspondence K holds (crate = model on the case) the judgement O cannot raise an alarm.  The
   statements are written through what these unfold to: [c06_oracle c (aml_case md c)] and the like.

   A case is read twice, independently: by the model's [term_of_sx] into a term, and by the Spec's [expect] into the tree
   the bytes must parse to.  The proofs go by induction over the graph of the first reading ([read_ind]): [link], the
   expected tree is the normal form of the term; [derive], the Spec's own checks, the argument ranges and the arity table
   give [wf] and the decidable [emitb]; and [EM_all], by induction on terms, [emitb] with the size bound [weight] makes the
   model emit.  The round-trip theorem then gives what the C06 oracle checks, [frame_sites] what the C07 oracle checks, the descriptor
   lemmas of DescP / DescValP what the C10 oracle checks. *)
From Coq Require Import NArith List Lia Bool Arith.
From ACPI Require Import Lib.Bytes Lib.Sx Lib.Machine Impl.AmlCore Impl.AmlTerm Spec.AmlCoreS Spec.AmlTermS
  Proofs.PkgLenP Proofs.PathP Proofs.EisaUuidP Proofs.FrameSitesP Proofs.FieldListP
  Spec.DescDecodeS Proofs.DescP Proofs.DescValP Proofs.AmlRoundTrip Judge Proofs.CoherenceKernelsP Proofs.BaseP.
Import ListNotations.
Open Scope N_scope.

Section SxInd.
  Variable P : sx -> Prop.
  Hypothesis Hatom : forall n, P (SA n).
  Hypothesis Hlist : forall l, Forall P l -> P (SL l).
  Fixpoint sx_ind' (s : sx) : P s :=
    match s with
    | SA n => Hatom n
    | SL l => Hlist l ((fix all (l : list sx) : Forall P l :=
                          match l with [] => Forall_nil P | x :: r => Forall_cons x (sx_ind' x) (all r) end) l)
    end.
End SxInd.

(* the children of a list and the children of its list-valued elements (the vocabulary keeps child lists one level down) *)
Definition of_kids (P : sx -> Prop) (x : sx) : Prop := match x with SL l => Forall P l | SA _ => True end.

Lemma sx_deep_ind (P : sx -> Prop) :
  (forall n, P (SA n)) -> (forall l, Forall P l -> Forall (of_kids P) l -> P (SL l)) -> forall s, P s.
Proof.
  intros Ha Hl s.
  assert (H : P s /\ of_kids P s).
  { induction s as [n|l IH] using sx_ind'; [split; [apply Ha|exact I]|].
    assert (H1 : Forall P l) by (eapply Forall_impl; [|exact IH]; intros a Hq; exact (proj1 Hq)).
    assert (H2 : Forall (of_kids P) l) by (eapply Forall_impl; [|exact IH]; intros a Hq; exact (proj2 Hq)).
    split; [apply Hl; assumption|exact H1]. }
  exact (proj1 H).
Qed.

Lemma terms_fix l :
  (fix terms (l : list sx) : option (list term) :=
     match l with
     | [] => Some []
     | x :: r => match term_of_sx x, terms r with Some a, Some b => Some (a :: b) | _, _ => None end
     end) l = map_opt term_of_sx l.
Proof. induction l as [|x l IH]; [reflexivity|]. cbn [map_opt]. rewrite IH. reflexivity. Qed.

Lemma expects_fix el l :
  (fix expects (el : bool) (l : list sx) : option (list gt) :=
     match l with
     | [] => Some []
     | x :: r => match expect el x, expects el r with Some a, Some b => Some (a :: b) | _, _ => None end
     end) el l = map_opt (expect el) l.
Proof. induction l as [|x l IH]; [reflexivity|]. cbn [map_opt]. rewrite IH. reflexivity. Qed.

Lemma map_opt_length {A B} (f : A -> option B) l : forall r, map_opt f l = Some r -> length r = length l.
Proof.
  induction l as [|x l IH]; intros r H; [inversion H; reflexivity|]. cbn [map_opt] in H.
  destruct (f x); [|discriminate]. destruct (map_opt f l) as [r'|]; [|discriminate]. inversion H; subst. cbn [length]. now rewrite (IH r' eq_refl).
Qed.

Definition tkids (l : list sx) : option (list term) := map_opt term_of_sx l.
Definition ekids (el : bool) (l : list sx) : option (list gt) := map_opt (expect el) l.

(* One step of [term_of_sx], given the reading [R] of the children.  The two spellings of a string, of a Scope, of a Package
   and the two loops differ in one code only and share a constructor.  The premises are named: [destruct] on a [read1]
   introduces the byte strings as [Eb] / [Ep], the readings of the operands as [Ia] [Ib] ..., of a child list as [Hk] (for a ResourceTemplate also as the equation [Ek]: its
   cases compare the children with the Spec's reference bytes, all at once). *)
Inductive read1 (R : sx -> term -> Prop) : sx -> term -> Prop :=
| r_zero : read1 R (SL [SA 1]) TZero
| r_one : read1 R (SL [SA 2]) TOne
| r_ones : read1 R (SL [SA 3]) TOnes
| r_int ty n : read1 R (SL [SA 4; SA ty; SA n]) (TInt ty n)
| r_str (owned : bool) b s (Eb : sx_bytes b = Some s) : read1 R (SL [SA (if owned then 6 else 5); b]) (TStr s)
| r_path b s (Eb : sx_bytes b = Some s) : read1 R (SL [SA 7; b]) (TPath s)
| r_fieldname b s (Eb : sx_bytes b = Some s) : read1 R (SL [SA 8; b]) (TFieldName s)
| r_eisa b s (Eb : sx_bytes b = Some s) : read1 R (SL [SA 9; b]) (TEisa s)
| r_uuid b s (Eb : sx_bytes b = Some s) : read1 R (SL [SA 10; b]) (TUuid s)
| r_bufdata b s (Eb : sx_bytes b = Some s) : read1 R (SL [SA 11; b]) (TBufData s)
| r_arg n : read1 R (SL [SA 12; SA n]) (TArg n)
| r_local n : read1 R (SL [SA 13; SA n]) (TLocal n)
| r_desc d : read1 R (SL (desc_to_sx d)) (TDesc d)
| r_op1 k a x (Ia : R a x) : read1 R (SL [SA 30; SA k; a]) (TOp1 k x)
| r_op2 k a b x y (Ia : R a x) (Ib : R b y) : read1 R (SL [SA 31; SA k; a; b]) (TOp2 k x y)
| r_op3 k t0 a b x y z (It : R t0 x) (Ia : R a y) (Ib : R b z) : read1 R (SL [SA 32; SA k; t0; a; b]) (TOp3 k x y z)
| r_op4 k a b c0 d x y z w (Ia : R a x) (Ib : R b y) (Ic : R c0 z) (Id : R d w) :
    read1 R (SL [SA 33; SA k; a; b; c0; d]) (TOp4 k x y z w)
| r_name p i s x (Ep : sx_bytes p = Some s) (Ii : R i x) : read1 R (SL [SA 40; p; i]) (TName s x)
| r_device p ks s ts (Ep : sx_bytes p = Some s) (Hk : Forall2 R ks ts) : read1 R (SL [SA 41; p; SL ks]) (TDevice s ts)
| r_scope (raw : bool) p ks s ts (Ep : sx_bytes p = Some s) (Hk : Forall2 R ks ts) :
    read1 R (SL [SA (if raw then 43 else 42); p; SL ks]) (if raw then TScopeRaw s ts else TScope s ts)
| r_method p ar sr ks s ts (Ep : sx_bytes p = Some s) (Hk : Forall2 R ks ts) :
    read1 R (SL [SA 44; p; SA ar; SA sr; SL ks]) (TMethod s ar sr ts)
| r_power p lv od ks s ts (Ep : sx_bytes p = Some s) (Hk : Forall2 R ks ts) :
    read1 R (SL [SA 45; p; SA lv; SA od; SL ks]) (TPowerRes s lv od ts)
| r_opregion p sp o ln s x y (Ep : sx_bytes p = Some s) (Io : R o x) (Il : R ln y) :
    read1 R (SL [SA 46; p; SA sp; o; ln]) (TOpRegion s sp x y)
| r_mutex p sy s (Ep : sx_bytes p = Some s) : read1 R (SL [SA 47; p; SA sy]) (TMutex s sy)
| r_acquire p tm s (Ep : sx_bytes p = Some s) : read1 R (SL [SA 48; p; SA tm]) (TAcquire s tm)
| r_release p s (Ep : sx_bytes p = Some s) : read1 R (SL [SA 49; p]) (TRelease s)
| r_call p ks s ts (Ep : sx_bytes p = Some s) (Hk : Forall2 R ks ts) : read1 R (SL [SA 50; p; SL ks]) (TCall s ts)
| r_field p ac lk up es s fs (Ep : sx_bytes p = Some s) (Ef : map_opt fentry_of_sx es = Some fs) :
    read1 R (SL [SA 51; p; SA ac; SA lk; SA up; SL es]) (TField s ac lk up fs)
| r_package (builder : bool) ks ts (Hk : Forall2 R ks ts) :
    read1 R (SL [SA (if builder then 61 else 60); SL ks]) (if builder then TPkgBuilder ts else TPackage ts)
| r_template ks ts (Ek : tkids ks = Some ts) (Hk : Forall2 R ks ts) : read1 R (SL [SA 62; SL ks]) (TResTemplate ts)
| r_loop (once : bool) pr ks x ts (Ip : R pr x) (Hk : Forall2 R ks ts) :
    read1 R (SL [SA (if once then 63 else 65); pr; SL ks]) (if once then TIf x ts else TWhile x ts)
| r_else ks ts (Hk : Forall2 R ks ts) : read1 R (SL [SA 64; SL ks]) (TElse ts).

Ltac split_pos p n :=
  match n with
  | O => idtac
  | S ?m => destruct p as [p|p|]; [split_pos p m | split_pos p m | idtac]
  end.

Section ReadInd.
  Variable P : sx -> term -> Prop.
  Hypothesis step : forall c t, term_of_sx c = Some t -> read1 P c t -> P c t.

  Lemma kids_read ks : Forall (fun a => forall x, term_of_sx a = Some x -> P a x) ks ->
    forall ts, tkids ks = Some ts -> Forall2 P ks ts.
  Proof.
    induction 1 as [|a ks Ha _ IH]; intros ts Hk; [injection Hk as <-; constructor|].
    unfold tkids in *. cbn [map_opt] in Hk. destruct (term_of_sx a) as [x|] eqn:Ea; [|discriminate].
    destruct (map_opt term_of_sx ks) as [ts'|]; [|discriminate]. injection Hk as <-.
    constructor; [exact (Ha x eq_refl)|exact (IH ts' eq_refl)].
  Qed.

  Theorem read_ind : forall c t, term_of_sx c = Some t -> P c t.
  Proof using step.
    induction c as [n|l IH ID] using sx_deep_ind; intros t Ht; [discriminate Ht|]. apply (step _ _ Ht).
    assert (Hall : forall a x, In a l -> term_of_sx a = Some x -> P a x).
    { intros a x Hin. rewrite Forall_forall in IH. exact (IH a Hin x). }
    assert (Hdeep : forall ks ts, In (SL ks) l -> tkids ks = Some ts -> Forall2 P ks ts).
    { intros ks ts Hin. rewrite Forall_forall in ID. exact (kids_read ks (ID _ Hin) ts). }
    clear IH ID.
    (* by cases on the head code (unfolding the reader once, before the 2^7 codes are told apart), then on the list *)
    destruct l as [|[k|] r]; try discriminate Ht. destruct k as [|p]; [discriminate Ht|].
    cbn [term_of_sx] in Ht. split_pos p 7%nat; try discriminate Ht.
    all: cbn [desc_of_sx] in Ht; break_sx Ht; rewrite ?terms_fix in Ht.
    all: repeat match type of Ht with
                | context [sx_bytes ?b] => destruct (sx_bytes b) eqn:?; try discriminate Ht
                | context [term_of_sx ?a] => destruct (term_of_sx a) eqn:?; try discriminate Ht
                | context [map_opt ?f ?l] => destruct (map_opt f l) eqn:?; try discriminate Ht
                end.
    all: injection Ht as <-.
    all: first [ constructor | apply (r_str P false) | apply (r_str P true) | apply (r_scope P false) | apply (r_scope P true)
               | apply (r_package P false) | apply (r_package P true) | apply (r_loop P true) | apply (r_loop P false)
               | exact (r_desc P (DMem32 _ _ _)) | exact (r_desc P (DAddr _ _ _ _ _ _ None))
               | exact (r_desc P (DAddr _ _ _ _ _ _ (Some _))) | exact (r_desc P (DIO _ _ _ _)) | exact (r_desc P (DIrq _ _ _ _ _))
               | exact (r_desc P (DReg _ _ _ _ _)) ];
      first [ assumption | apply Hall; [simpl; tauto|assumption] | apply Hdeep; [simpl; tauto|assumption] ].
  Qed.
End ReadInd.

(* [expect] reads names, descriptors and field entries by local functions; [name_of], [ref_of], [fe_of] name them so that its
   equations can be stated *)
Definition name_of (p : sx) : option gt :=
  match sx_bytes p with
  | Some t => match spec_path t with Some (rt, segs) => Some (GName rt segs) | None => None end
  | None => None
  end.

Definition ref_of (d : sx) : option (list N) := match d with SL dl => ref_desc dl | SA _ => None end.

Definition fe_of (e : sx) : option gt :=
  match e with
  | SL [SA 0; nm; SA len] =>
      match sx_bytes nm with Some n => if is_nameseg n && (len <? 2 ^ 28) then Some (GField n len) else None | None => None end
  | SL [SA 1; SA len] => if len <? 2 ^ 28 then Some (GField [] len) else None
  | _ => None
  end.

(* for the equations of [expect] whose child list goes through its inner fixpoint *)
Ltac exs := unfold ekids; rewrite <- ?expects_fix; reflexivity.

Lemma ex_str el (owned : bool) b : expect el (SL [SA (if owned then 6 else 5); b]) =
  match sx_bytes b with Some t => if forallb (fun c => (1 <=? c) && (c <=? 0x7F)) t then Some (GStr t) else None | None => None end.
Proof. destruct owned; reflexivity. Qed.
Lemma ex7 el p : expect el (SL [SA 7; p]) =
  match sx_bytes p with
  | Some t => match spec_path t with
              | Some (rt, segs) => Some (if el then GName rt segs else GCall rt segs [])
              | None => None end
  | None => None end.
Proof. reflexivity. Qed.
Lemma ex8 el b : expect el (SL [SA 8; b]) =
  match sx_bytes b with
  | Some t => if is_nameseg t then Some (if el then GName false [t] else GCall false [t] []) else None
  | None => None end.
Proof. reflexivity. Qed.
Lemma ex9 el b : expect el (SL [SA 9; b]) = match sx_bytes b with Some t => option_map GInt (spec_eisa_value t) | None => None end.
Proof. reflexivity. Qed.
Lemma ex10 el b : expect el (SL [SA 10; b]) =
  match sx_bytes b with Some t => option_map (GBuffer (GInt 16)) (spec_uuid_bytes t) | None => None end.
Proof. reflexivity. Qed.
Lemma ex11 el b : expect el (SL [SA 11; b]) =
  match sx_bytes b with Some t => Some (GBuffer (GInt (N.of_nat (length t))) t) | None => None end.
Proof. reflexivity. Qed.
Lemma ex12 el n : expect el (SL [SA 12; SA n]) = if n <=? 6 then Some (GArg n) else None. Proof. reflexivity. Qed.
Lemma ex13 el n : expect el (SL [SA 13; SA n]) = if n <=? 7 then Some (GLocal n) else None. Proof. reflexivity. Qed.
Lemma ex30 el k a : expect el (SL [SA 30; SA k; a]) =
  match k with
  | 0 => mkop 0x8E [expect false a] (Some []) | 1 => mkop 0x87 [expect false a] (Some [])
  | 2 => mkop 0xA4 [expect false a] (Some []) | 3 => mkop 0x83 [expect false a] (Some [])
  | 4 => match expect false a with Some sz => Some (GBuffer sz []) | None => None end
  | 5 => mkop 0x13 [expect false a] (Some [])
  | _ => None
  end.
Proof. reflexivity. Qed.
Lemma ex31 el k a b : expect el (SL [SA 31; SA k; a; b]) =
  match k with
  | 0 => mkop 0x93 [expect false a; expect false b] (Some []) | 1 => mkop 0x95 [expect false a; expect false b] (Some [])
  | 2 => mkop 0x94 [expect false a; expect false b] (Some []) | 3 => mkop 0x9293 [expect false a; expect false b] (Some [])
  | 4 => mkop 0x9295 [expect false a; expect false b] (Some []) | 5 => mkop 0x9294 [expect false a; expect false b] (Some [])
  | 6 => mkop 0x70 [expect false b; expect false a] (Some [])
  | 7 => mkop 0x86 [expect false a; expect false b] (Some [])
  | 8 => mkop 0x96 [expect false b; expect false a] (Some [])
  | 9 => mkop 0x99 [expect false b; expect false a] (Some [])
  | _ => None
  end.
Proof. reflexivity. Qed.
Lemma ex32 el k t a b : expect el (SL [SA 32; SA k; t; a; b]) =
  match op3_code k with
  | Some code => mkop code [expect false a; expect false b; expect false t] (Some [])
  | None => None
  end.
Proof. reflexivity. Qed.
Lemma ex33 el k a b c d : expect el (SL [SA 33; SA k; a; b; c; d]) =
  match k with
  | 0 => mkop 0x5B13 [expect false b; expect false c; expect false d; expect false a] (Some [])
  | 1 => mkop 0x9E [expect false a; expect false b; expect false c; expect false d] (Some [])
  | _ => None
  end.
Proof. destruct k as [|[p|p|]]; reflexivity. Qed.
Lemma ex40 el p i : expect el (SL [SA 40; p; i]) = mkop 0x08 [name_of p; expect false i] (Some []). Proof. reflexivity. Qed.
Lemma ex41 el p ks : expect el (SL [SA 41; p; SL ks]) = mkop 0x5B82 [name_of p] (ekids false ks). Proof. exs. Qed.
Lemma ex_scope el (raw : bool) p ks : expect el (SL [SA (if raw then 43 else 42); p; SL ks]) = mkop 0x10 [name_of p] (ekids false ks).
Proof. destruct raw; exs. Qed.
Lemma ex44 el p ar sr ks : expect el (SL [SA 44; p; SA ar; SA sr; SL ks]) =
  if (ar <=? 7) && (sr <=? 1) then mkop 0x14 [name_of p; Some (GNum (ar + 8 * sr))] (ekids false ks) else None.
Proof. exs. Qed.
Lemma ex45 el p lv od ks : expect el (SL [SA 45; p; SA lv; SA od; SL ks]) =
  mkop 0x5B84 [name_of p; Some (GNum lv); Some (GNum od)] (ekids false ks).
Proof. exs. Qed.
Lemma ex46 el p sp o ln : expect el (SL [SA 46; p; SA sp; o; ln]) =
  mkop 0x5B80 [name_of p; Some (GNum sp); expect false o; expect false ln] (Some []).
Proof. reflexivity. Qed.
Lemma ex47 el p sy : expect el (SL [SA 47; p; SA sy]) = mkop 0x5B01 [name_of p; Some (GNum sy)] (Some []). Proof. reflexivity. Qed.
Lemma ex48 el p tm : expect el (SL [SA 48; p; SA tm]) = mkop 0x5B23 [name_of p; Some (GNum tm)] (Some []). Proof. reflexivity. Qed.
Lemma ex49 el p : expect el (SL [SA 49; p]) = mkop 0x5B27 [name_of p] (Some []). Proof. reflexivity. Qed.
Lemma ex50 el p ks : expect el (SL [SA 50; p; SL ks]) =
  match sx_bytes p with
  | Some t => match spec_path t, ekids false ks with
              | Some (rt, segs), Some args => if el && negb (Nat.eqb (length args) 0) then None else
                                              Some (if el then GName rt segs else GCall rt segs args)
              | _, _ => None end
  | None => None end.
Proof. exs. Qed.
Lemma ex51 el p ac lk up es : expect el (SL [SA 51; p; SA ac; SA lk; SA up; SL es]) =
  if (ac <=? 5) && (lk <=? 1) && (up <=? 2)
  then mkop 0x5B81 [name_of p; Some (GNum (ac + 16 * lk + 32 * up))] (opt_all (map fe_of es)) else None.
Proof. reflexivity. Qed.
Lemma ex_pkg el (builder : bool) ks : expect el (SL [SA (if builder then 61 else 60); SL ks]) =
  if Nat.leb (length ks) 255 then mkop 0x12 [Some (GNum (N.of_nat (length ks)))] (ekids true ks) else None.
Proof. destruct builder; exs. Qed.
Lemma ex62 el ks : expect el (SL [SA 62; SL ks]) =
  match opt_all (map ref_of ks) with
  | Some ds => let payload := concat ds ++ [0x79; 0x00] in Some (GBuffer (GInt (N.of_nat (length payload))) payload)
  | None => None
  end.
Proof. reflexivity. Qed.
Lemma ex_loop el (once : bool) pr ks : expect el (SL [SA (if once then 63 else 65); pr; SL ks]) =
  mkop (if once then 0xA0 else 0xA2) [expect false pr] (ekids false ks).
Proof. destruct once; exs. Qed.
Lemma ex64 el ks : expect el (SL [SA 64; SL ks]) = mkop 0xA1 [] (ekids false ks). Proof. exs. Qed.
Lemma ex_desc el d : expect el (SL (desc_to_sx d)) = None.
Proof. destruct d as [rw base len|w ty ca rw mn mx [t|]|mn mx al len|c e a s n|sp wd off ac ad]; reflexivity. Qed.

Lemma mkop_defined code fs ko g o : mkop code fs ko = Some g -> In o fs -> exists x, o = Some x.
Proof. unfold mkop. intros H Hin. destruct o as [x|]; [eauto|]. rewrite (opt_all_none fs Hin) in H. discriminate H. Qed.

Lemma ex30_some el k a g : expect el (SL [SA 30; SA k; a]) = Some g -> (k <? 6) = true /\ exists ga, expect false a = Some ga.
Proof.
  rewrite ex30. intros H. destruct k as [|kp]; [|split_pos kp 3%nat]; try discriminate H; (split; [reflexivity|]);
    try (apply (mkop_defined _ _ _ _ _ H); simpl; tauto).
  destruct (expect false a); [eauto|discriminate].
Qed.

Lemma ex31_some el k a b g : expect el (SL [SA 31; SA k; a; b]) = Some g ->
  (k <? 10) = true /\ (exists ga, expect false a = Some ga) /\ exists gb, expect false b = Some gb.
Proof.
  rewrite ex31. intros H. destruct k as [|kp]; [|split_pos kp 4%nat]; try discriminate H; (split; [reflexivity|]);
    split; apply (mkop_defined _ _ _ _ _ H); simpl; tauto.
Qed.

Lemma ex32_some el k t a b g : expect el (SL [SA 32; SA k; t; a; b]) = Some g ->
  (k < 17 /\ exists code, op3_code k = Some code) /\ (exists gt, expect false t = Some gt) /\ (exists ga, expect false a = Some ga) /\
  exists gb, expect false b = Some gb.
Proof.
  rewrite ex32. intros H. destruct (op3_code k) as [code|] eqn:Eo; [|discriminate]. split.
  - split; [|eauto]. assert (Hn : nth_error op3_list (N.to_nat k) <> None) by (change (op3_code k <> None); rewrite Eo; discriminate).
    apply nth_error_Some in Hn. cbn [op3_list length] in Hn. lia.
  - repeat split; apply (mkop_defined _ _ _ _ _ H); simpl; tauto.
Qed.

Lemma ex33_some el k a b c d g : expect el (SL [SA 33; SA k; a; b; c; d]) = Some g ->
  (k <? 2) = true /\ (exists ga, expect false a = Some ga) /\ (exists gb, expect false b = Some gb) /\
  (exists gc, expect false c = Some gc) /\ exists gd, expect false d = Some gd.
Proof.
  rewrite ex33. intros H. destruct k as [|[kp|kp|]]; try discriminate H; (split; [reflexivity|]);
    repeat split; apply (mkop_defined _ _ _ _ _ H); simpl; tauto.
Qed.

(* Path::new accepts the text and the segment count fits the MultiNamePrefix count byte *)
Definition pathb (s : list N) : bool :=
  match path_new s with Some q => Nat.leb (length (p_parts q)) 255 | None => false end.

Lemma spec_path_new s rt segs :
  spec_path s = Some (rt, segs) ->
  path_new s = Some {| p_root := rt; p_parts := segs |} /\ wf_parts segs /\ pathb s = true.
Proof.
  unfold spec_path, pathb, path_new. rewrite spec_split_is_split_dot.
  set (root := match s with ch :: _ => ch =? 92 | [] => false end).
  set (parts := split_dot [] (if root then tl s else s)).
  destruct (forallb is_nameseg parts && Nat.leb (length parts) 255) eqn:E; [|discriminate].
  intros H. inversion H; subst rt segs. clear H.
  apply andb_true_iff in E. destruct E as [E1 E2]. apply Nat.leb_le in E2.
  assert (Hwf : wf_parts parts).
  { unfold wf_parts. apply Forall_forall. intros x Hx. rewrite forallb_forall in E1. now apply E1. }
  rewrite (wf_parts_len4 parts Hwf). split; [reflexivity|]. split; [exact Hwf|]. now apply Nat.leb_le.
Qed.

Lemma name_of_gt p x gn : sx_bytes p = Some x -> name_of p = Some gn -> name_gt x = Some gn /\ wf_name x /\ pathb x = true.
Proof.
  intros Hx H. unfold name_of in H. rewrite Hx in H. destruct (spec_path x) as [[rt segs]|] eqn:E; [|discriminate].
  inversion H; subst gn. destruct (spec_path_new x rt segs E) as (Hn & Hwf & Pb).
  unfold name_gt, wf_name. rewrite Hn. split; [reflexivity|]. split; [eexists; split; [reflexivity|exact Hwf]|exact Pb].
Qed.

(* [shv] and [uhv] name the hex-digit readers local to [spec_eisa_value] (partial) and to [spec_uuid_bytes] (total) *)
Definition shv (c : N) : option N :=
  if (48 <=? c) && (c <=? 57) then Some (c - 48) else if (65 <=? c) && (c <=? 70) then Some (c - 55)
  else if (97 <=? c) && (c <=? 102) then Some (c - 87) else None.

Lemma spec_eisa_unfold c0 c1 c2 h3 h4 h5 h6 :
  spec_eisa_value [c0; c1; c2; h3; h4; h5; h6] =
  match shv h3, shv h4, shv h5, shv h6 with
  | Some d3, Some d4, Some d5, Some d6 =>
      if valid_eisa [c0; c1; c2; 48; 48; 48; 48] then
        Some (unle (frev (le 4 ((c0 - 64) * 2 ^ 26 + (c1 - 64) * 2 ^ 21 + (c2 - 64) * 2 ^ 16 + d3 * 2 ^ 12 + d4 * 2 ^ 8 + d5 * 2 ^ 4 + d6))))
      else None
  | _, _, _, _ => None
  end.
Proof. reflexivity. Qed.

(* the Spec tries the ranges 0-9, A-F, a-f in this order, the model 0-9, a-f, A-F; they are disjoint *)
Lemma shv_hex_digit c : shv c = hex_digit c.
Proof.
  unfold shv, hex_digit. destruct ((48 <=? c) && (c <=? 57)); [reflexivity|].
  destruct ((65 <=? c) && (c <=? 70)) eqn:E1, ((97 <=? c) && (c <=? 102)) eqn:E2; try reflexivity.
  apply andb_true_iff in E1, E2. rewrite !N.leb_le in E1, E2. lia.
Qed.

Lemma spec_eisa_model s v : spec_eisa_value s = Some v -> eisa_value s = Some v.
Proof.
  destruct s as [|c0 [|c1 [|c2 [|h3 [|h4 [|h5 [|h6 [|x s]]]]]]]]; try discriminate.
  rewrite spec_eisa_unfold, !shv_hex_digit.
  destruct (hex_digit h3) as [d3|] eqn:F3; [|discriminate]. destruct (hex_digit h4) as [d4|] eqn:F4; [|discriminate].
  destruct (hex_digit h5) as [d5|] eqn:F5; [|discriminate]. destruct (hex_digit h6) as [d6|] eqn:F6; [|discriminate].
  destruct (valid_eisa _) eqn:V; [|discriminate]. intros H. rewrite <- H. clear H v.
  cbn [valid_eisa] in V. change (is_hex_upper 48) with true in V. rewrite !andb_true_r in V.
  apply andb_true_iff in V. destruct V as [V G2]. apply andb_true_iff in V. destruct V as [G0 G1].
  destruct (eisa_value_pack c0 c1 c2 h3 h4 h5 h6 d3 d4 d5 d6 G0 G1 G2 F3 F4 F5 F6) as (_ & _ & _ & ->).
  unfold swap_bytes32, eisa_pack. now rewrite frev_rev.
Qed.

Definition uhv (c : N) : N := if (48 <=? c) && (c <=? 57) then c - 48 else if (65 <=? c) && (c <=? 70) then c - 55 else c - 87.

Lemma spec_uuid_unfold s :
  spec_uuid_bytes s =
  if canonical_uuid s
  then Some (map (fun i => 16 * uhv (nth i s 0) + uhv (nth (S i) s 0)) [6; 4; 2; 0; 11; 9; 16; 14; 19; 21; 24; 26; 28; 30; 32; 34]%nat)
  else None.
Proof. reflexivity. Qed.

Lemma hexv_uhv c : is_hex_any c = true -> hexv c = uhv c.
Proof.
  intros H. unfold hexv. rewrite <- shv_hex_digit. unfold shv, uhv, is_hex_any in *.
  destruct ((48 <=? c) && (c <=? 57)); [reflexivity|]. destruct ((65 <=? c) && (c <=? 70)); [reflexivity|].
  destruct ((97 <=? c) && (c <=? 102)); [reflexivity|discriminate].
Qed.

Lemma spec_uuid_model s u : spec_uuid_bytes s = Some u -> uuid_bytes s = Some u.
Proof.
  rewrite spec_uuid_unfold. destruct (canonical_uuid s) eqn:C; [|discriminate]. intros H. rewrite <- H. clear H u.
  destruct (canonical_uuid_spec s C) as (_ & _ & Hh & ->). f_equal.
  change uuid_order with (map (fun i => (i, S i)) [6; 4; 2; 0; 11; 9; 16; 14; 19; 21; 24; 26; 28; 30; 32; 34]%nat). rewrite map_map.
  apply map_ext_in. intros i Hi.
  (* neither position of a pair is a separator, and both are inside the text *)
  assert (Hb : forallb (fun i => Nat.ltb (S i) 36 && negb (existsb (Nat.eqb i) [8; 13; 18; 23]%nat) && negb (existsb (Nat.eqb (S i)) [8; 13; 18; 23]%nat))
                       [6; 4; 2; 0; 11; 9; 16; 14; 19; 21; 24; 26; 28; 30; 32; 34]%nat = true) by reflexivity.
  rewrite forallb_forall in Hb. specialize (Hb i Hi). apply andb_true_iff in Hb. destruct Hb as [Hb Hn2].
  apply andb_true_iff in Hb. destruct Hb as [Hlt Hn1]. apply negb_true_iff in Hn1, Hn2.
  assert (Hlt' : Nat.ltb i 36 = true) by (apply Nat.ltb_lt; apply Nat.ltb_lt in Hlt; lia).
  now rewrite (hexv_uhv _ (Hh i Hlt' Hn1)), (hexv_uhv _ (Hh (S i) Hlt Hn2)).
Qed.

Lemma fields_link es : forall fs gs,
  map_opt fentry_of_sx es = Some fs -> opt_all (map fe_of es) = Some gs ->
  gs = map fentry_gt fs /\ Forall wf_fentry fs.
Proof.
  induction es as [|e es IH]; intros fs gs Hf Hg.
  - inversion Hf; inversion Hg; subst. split; [reflexivity|constructor].
  - cbn [map_opt] in Hf. cbn [map opt_all] in Hg.
    destruct (fentry_of_sx e) as [f|] eqn:Ef; [|discriminate]. destruct (map_opt fentry_of_sx es) as [fs'|]; [|discriminate].
    inversion Hf; subst fs. clear Hf.
    destruct (fe_of e) as [g|] eqn:Eg; [|discriminate]. destruct (opt_all (map fe_of es)) as [gs'|]; [|discriminate].
    inversion Hg; subst gs. clear Hg.
    destruct (IH fs' gs' eq_refl eq_refl) as [-> HF].
    assert (Hone : g = fentry_gt f /\ wf_fentry f).
    { destruct e as [n|l]; [discriminate|]. unfold fentry_of_sx in Ef. unfold fe_of in Eg.
      destruct l as [|[k|] l]; try discriminate. destruct k as [|[p|p|]]; try discriminate.
      - destruct l as [|nm [|[len|] [|]]]; try discriminate.
        destruct (sx_bytes nm) as [n|]; [|discriminate]. cbn [option_map] in Ef. inversion Ef; subst f.
        destruct (is_nameseg n && (len <? 2 ^ 28)) eqn:E; [|discriminate]. inversion Eg; subst g.
        apply andb_true_iff in E. destruct E as [E1 E2]. apply N.ltb_lt in E2. split; [reflexivity|split; assumption].
      - destruct l as [|[len|] [|]]; try discriminate. inversion Ef; subst f.
        destruct (len <? 2 ^ 28) eqn:E; [|discriminate]. inversion Eg; subst g. apply N.ltb_lt in E. split; [reflexivity|exact E]. }
    destruct Hone as [-> Hw]. split; [reflexivity|constructor; assumption].
Qed.

(* argument ranges the exchange vocabulary does not enforce (the Rust types do) *)
Definition desc_in_rangeb (d : desc) : bool :=
  match d with
  | DMem32 rw base len => (rw <? 2) && (base <? 2 ^ 32) && (len <? 2 ^ 32)
  | DAddr w ty ca rw min max tr =>
      ((w =? 16) || (w =? 32) || (w =? 64)) && (ty <? 3) && (ca <? 4) && (rw <? 2) && (min <? 2 ^ w) && (max <? 2 ^ w) &&
      match tr with Some t => t <? 2 ^ w | None => true end
  | DIO min max al len => (min <? 2 ^ 16) && (max <? 2 ^ 16) && (al <? 2 ^ 8) && (len <? 2 ^ 8)
  | DIrq c e a s n => (c <? 2) && (e <? 2) && (a <? 2) && (s <? 2) && (n <? 2 ^ 32)
  | DReg sp w o ac ad => (sp <? 2 ^ 8) && (w <? 2 ^ 8) && (o <? 2 ^ 8) && (ac <? 2 ^ 8) && (ad <? 2 ^ 64)
  end.

Lemma desc_in_rangeb_ok d : desc_in_rangeb d = true -> desc_in_range d.
Proof.
  destruct d as [rw base len|w ty ca rw mn mx tr|mn mx al len|c e a s n|sp wd off ac ad]; cbn [desc_in_rangeb desc_in_range];
    intros H; repeat (apply andb_true_iff in H; destruct H as [H ?]);
    repeat match goal with E : (_ <? _) = true |- _ => apply N.ltb_lt in E end.
  - repeat split; assumption.
  - repeat split; try assumption.
    + apply orb_true_iff in H. destruct H as [H|H]; [apply orb_true_iff in H; destruct H as [H|H]|]; apply N.eqb_eq in H; auto.
    + destruct tr; [now apply N.ltb_lt|exact I].
  - repeat split; assumption.
  - repeat split; assumption.
  - repeat split; assumption.
Qed.

(* integers inside their carrier type; u8 / u16 arguments inside their type; descriptors in range *)
Fixpoint argsb (t : term) {struct t} : bool :=
  let all := fix all (l : list term) : bool := match l with [] => true | x :: r => argsb x && all r end in
  match t with
  | TInt ty n => ((ty =? 8) && (n <? 2 ^ 8)) || ((ty =? 16) && (n <? 2 ^ 16)) || ((ty =? 32) && (n <? 2 ^ 32))
                 || (((ty =? 64) || (ty =? 0)) && (n <? 2 ^ 64))
  | TDesc d => desc_in_rangeb d
  | TOp1 _ a => argsb a
  | TOp2 _ a b => argsb a && argsb b
  | TOp3 _ a b c => argsb a && argsb b && argsb c
  | TOp4 _ a b c d => argsb a && argsb b && argsb c && argsb d
  | TName _ i => argsb i
  | TDevice _ ks | TScope _ ks | TScopeRaw _ ks | TMethod _ _ _ ks | TCall _ ks | TPackage ks | TPkgBuilder ks
  | TResTemplate ks | TElse ks => all ks
  | TPowerRes _ lv od ks => (lv <? 256) && (od <? 2 ^ 16) && all ks
  | TOpRegion _ sp o l => (sp <? 256) && argsb o && argsb l
  | TMutex _ sy => sy <? 256
  | TAcquire _ tm => tm <? 2 ^ 16
  | TIf pr ks | TWhile pr ks => argsb pr && all ks
  | _ => true
  end.

Lemma ref_of_desc : forall x t, term_of_sx x = Some t -> forall r, ref_of x = Some r -> exists d, x = SL (desc_to_sx d) /\ t = TDesc d.
Proof.
  refine (read_ind _ _). intros x t _ H r Hr.
  destruct H; try match goal with b : bool |- _ => destruct b end; try discriminate Hr. eauto.
Qed.

Lemma template_link ks : forall ts, tkids ks = Some ts ->
  forall ds, opt_all (map ref_of ks) = Some ds -> forallb argsb ts = true ->
  exists dd, ts = map TDesc dd /\ map enc_desc dd = map Some ds.
Proof.
  unfold tkids. induction ks as [|a ks IH]; intros ts Ht ds Hd Ha.
  - injection Ht as <-. injection Hd as <-. exists []. split; reflexivity.
  - cbn [map_opt] in Ht. destruct (term_of_sx a) as [x|] eqn:Ea; [|discriminate]. destruct (map_opt term_of_sx ks) as [ts'|]; [|discriminate].
    injection Ht as <-.
    cbn [map opt_all] in Hd. destruct (ref_of a) as [r|] eqn:Er; [|discriminate]. destruct (opt_all (map ref_of ks)) as [ds'|]; [|discriminate].
    injection Hd as <-. cbn [forallb] in Ha. apply andb_true_iff in Ha. destruct Ha as [Hx Ha].
    destruct (IH ts' eq_refl ds' eq_refl Ha) as (dd & -> & Hm). destruct (ref_of_desc a x Ea r Er) as (d & -> & ->).
    apply desc_in_rangeb_ok in Hx. exists (d :: dd). split; [reflexivity|].
    cbn [map]. rewrite Hm, (desc_is_reference d Hx). f_equal. exact Er.
Qed.

Lemma template_payload_descs dd ds : map enc_desc dd = map Some ds -> template_payload (map TDesc dd) = Some (concat ds ++ [0x79; 0x00]).
Proof.
  intros Hm. unfold template_payload. replace (map_opt desc_bytes (map TDesc dd)) with (Some ds); [reflexivity|].
  revert ds Hm. induction dd as [|d dd IH]; intros [|b ds] Hm; try discriminate Hm; [reflexivity|].
  injection Hm as H1 H2. cbn [map map_opt desc_bytes]. rewrite H1, <- (IH ds H2). reflexivity.
Qed.

Definition ole {A} (a a' : option A) : Prop := forall v, a = Some v -> a' = Some v.

Lemma ole_refl {A} (a : option A) : ole a a. Proof. intros v H; exact H. Qed.
Lemma ole_none {A} (a : option A) : ole None a. Proof. intros v H; discriminate H. Qed.
Lemma ole_if {A} (b : bool) (a a' : option A) : ole a a' -> ole (if b then a else None) a'.
Proof. destruct b; [auto|intros _; apply ole_none]. Qed.
Lemma ole_map {A B} (f : A -> B) a a' : ole a a' -> ole (option_map f a) (option_map f a').
Proof. intros H v. destruct a as [x|]; [|discriminate]. rewrite (H x eq_refl). auto. Qed.

Lemma ole_opt_all {A} (fs fs' : list (option A)) : Forall2 ole fs fs' -> ole (opt_all fs) (opt_all fs').
Proof.
  induction 1 as [|a a' fs fs' Ha _ IH]; [apply ole_refl|]. intros v H. cbn [opt_all] in *.
  destruct a as [x|]; [|discriminate]. rewrite (Ha x eq_refl).
  destruct (opt_all fs) as [r|]; [|discriminate]. rewrite (IH r eq_refl). exact H.
Qed.

Lemma ole_mkop code fs fs' ko ko' : Forall2 ole fs fs' -> ole ko ko' -> ole (mkop code fs ko) (mkop code fs' ko').
Proof.
  intros Hf Hk v H. unfold mkop in *. pose proof (ole_opt_all fs fs' Hf) as Ho.
  destruct (opt_all fs) as [fl|]; [|discriminate]. rewrite (Ho fl eq_refl).
  destruct ko as [kl|]; [|discriminate]. rewrite (Hk kl eq_refl). exact H.
Qed.

Lemma ole_name p x : sx_bytes p = Some x -> ole (name_of p) (name_gt x).
Proof. intros Hx v H. exact (proj1 (name_of_gt p x v Hx H)). Qed.

Lemma Forall_nth3 {A} (P : A -> Prop) a b c l : Forall P (a :: b :: c :: l) -> P a /\ P b /\ P c.
Proof. intros H. inversion H as [|? ? H1 H']; subst. inversion H' as [|? ? H2 H'']; subst. inversion H'' as [|? ? H3 _]; subst. auto. Qed.

Definition LK (c : sx) (t : term) : Prop := forall el, argsb t = true -> ole (expect el c) (norm el t).

Lemma LK_kids el ks ts : Forall2 LK ks ts -> forallb argsb ts = true ->
  ole (ekids el ks) (norms el ts).
Proof.
  induction 1 as [|a x ks ts Hx _ IH]; intros Ha; [apply ole_refl|].
  cbn [forallb] in Ha. apply andb_true_iff in Ha. destruct Ha as [Ha1 Ha2].
  intros v H. unfold ekids, norms in *. cbn [map_opt] in *.
  destruct (expect el a) as [g|] eqn:Eg; [|discriminate]. rewrite (Hx el Ha1 g Eg).
  destruct (map_opt (expect el) ks) as [gs|]; [|discriminate]. rewrite (IH Ha2 gs eq_refl). exact H.
Qed.

(* [ole] is a congruence through [if], [mkop] (item by item) and child lists: a case of [link] whose two sides are the same
   operator over parts related by the induction hypotheses is closed by these *)
#[local] Hint Resolve ole_refl ole_none ole_if ole_mkop ole_name LK_kids Forall2_nil Forall2_cons : ole.

Theorem link : forall c t, term_of_sx c = Some t -> LK c t.
Proof.
  apply read_ind. intros c t Ht H. destruct H; try match goal with b : bool |- _ => destruct b end; intros el Ha.
  all: cbn [argsb] in Ha; rewrite ?forallb_fix in Ha; andbs Ha; cbn [norm]; rewrite ?norms_fix.
  - apply ole_refl.
  - apply ole_refl.
  - apply ole_refl.
  - apply ole_refl.
  - rewrite (ex_str el true), Eb. auto with ole.
  - rewrite (ex_str el false), Eb. auto with ole.
  - rewrite ex7, Eb. intros v H. destruct (spec_path s) as [[rt segs]|] eqn:E; [|discriminate].
    destruct (spec_path_new _ _ _ E) as (Hn & _). rewrite Hn. exact H.
  - rewrite ex8, Eb. auto with ole.
  - rewrite ex9, Eb. exact (ole_map GInt _ _ (spec_eisa_model s)).
  - rewrite ex10, Eb. exact (ole_map _ _ _ (spec_uuid_model s)).
  - rewrite ex11, Eb. apply ole_refl.
  - rewrite ex12. auto with ole.
  - rewrite ex13. auto with ole.
  - rewrite ex_desc. apply ole_none.
  - rewrite ex30. specialize (Ia false Ha).
    destruct k as [|kp]; [|split_pos kp 3%nat]; cbn [op1_gcode]; auto with ole.
    exact (ole_map (fun sz => GBuffer sz []) _ _ Ia).
  - rewrite ex31. destruct k as [|kp]; [|split_pos kp 4%nat]; cbn [cmp_gcode]; auto 7 with ole.
  - rewrite ex32. destruct (op3_code k); auto 8 with ole.
  - rewrite ex33. destruct k as [|[kp|kp|]]; auto 8 with ole.
  - rewrite ex40. auto 6 with ole.
  - rewrite ex41. auto with ole.
  - rewrite (ex_scope el true). auto with ole.
  - rewrite (ex_scope el false). auto with ole.
  - rewrite ex44. auto with ole.
  - rewrite ex45. auto 6 with ole.
  - rewrite ex46. auto 8 with ole.
  - rewrite ex47. auto with ole.
  - rewrite ex48. auto with ole.
  - rewrite ex49. auto with ole.
  - rewrite ex50, Ep. intros v H.
    destruct (spec_path s) as [[rt segs]|] eqn:E; [|discriminate]. destruct (ekids false ks) as [args|] eqn:Ek; [|discriminate].
    destruct (spec_path_new _ _ _ E) as (-> & _). rewrite (LK_kids false ks ts Hk Ha args Ek). cbn [p_root p_parts].
    destruct el; [|exact H]. cbn [andb] in H. destruct (negb _); [discriminate|exact H].
  - rewrite ex51. apply ole_if, ole_mkop; auto with ole.
    intros v H. destruct (fields_link es fs v Ef H) as [-> _]. reflexivity.
  - rewrite (ex_pkg el true), <- (Forall2_length _ _ _ Hk). auto 6 with ole.
  - rewrite (ex_pkg el false), <- (Forall2_length _ _ _ Hk). auto 6 with ole.
  - rewrite ex62. intros v H. destruct (opt_all (map ref_of ks)) as [ds|] eqn:Ed; [|discriminate].
    destruct (template_link ks ts Ek ds Ed Ha) as (dd & -> & Hm). cbn [norm]. rewrite (template_payload_descs dd ds Hm). exact H.
  - rewrite (ex_loop el true). auto 7 with ole.
  - rewrite (ex_loop el false). auto 7 with ole.
  - rewrite ex64. auto with ole.
Qed.

Definition is_some {A} (o : option A) : bool := match o with Some _ => true | None => false end.
Definition olen (o : option (list N)) : nat := match o with Some b => length b | None => O end.

Definition fentryb (e : fentry) : bool := match e with FNamed _ len | FReserved len => len <? 2 ^ 28 end.

Fixpoint emitb (t : term) {struct t} : bool :=
  let all := fix all (l : list term) : bool := match l with [] => true | x :: r => emitb x && all r end in
  match t with
  | TZero | TOne | TOnes | TStr _ | TFieldName _ | TBufData _ => true
  | TInt ty n => is_some (enc_int ty n)
  | TPath s => pathb s
  | TEisa s => is_some (eisa_value s)
  | TUuid s => is_some (uuid_bytes s)
  | TArg n => n <=? 6
  | TLocal n => n <=? 7
  | TDesc d => is_some (enc_desc d)
  | TOp1 k a => (k <? 6) && emitb a
  | TOp2 k a b => (k <? 10) && emitb a && emitb b
  | TOp3 k a b c => is_some (op3_code k) && emitb a && emitb b && emitb c
  | TOp4 k a b c d => (k <? 2) && emitb a && emitb b && emitb c && emitb d
  | TName p i => pathb p && emitb i
  | TDevice p ks | TScope p ks | TScopeRaw p ks | TPowerRes p _ _ ks | TCall p ks => pathb p && all ks
  | TMethod p ar _ ks => pathb p && (ar <=? 7) && all ks
  | TOpRegion p _ o l => pathb p && emitb o && emitb l
  | TMutex p _ | TAcquire p _ | TRelease p => pathb p
  | TField p _ _ _ es => pathb p && forallb fentryb es
  | TPackage ks | TPkgBuilder ks => (N.of_nat (length ks) <=? 255) && all ks
  | TResTemplate ks | TElse ks => all ks
  | TIf pr ks | TWhile pr ks => emitb pr && all ks
  end.

Lemma descs_emit dd ds : map enc_desc dd = map Some ds -> forallb emitb (map TDesc dd) = true.
Proof.
  revert ds. induction dd as [|d dd IH]; intros [|b ds] Hm; try discriminate Hm; [reflexivity|].
  injection Hm as H1 H2. cbn [map forallb emitb]. rewrite H1, (IH ds H2). reflexivity.
Qed.

(* an upper bound of the encoded size: every PkgLength counted at its maximal four bytes *)
Local Open Scope nat_scope.
Definition fentry_weight (e : fentry) : nat := match e with FNamed name _ => length name + 4 | FReserved _ => 5 end.

Fixpoint weight (t : term) {struct t} : nat :=
  let ws := fix ws (l : list term) : nat := match l with [] => O | x :: r => weight x + ws r end in
  let pw (p : list N) := olen (enc_path_text p) in
  match t with
  | TZero | TOne | TOnes | TArg _ | TLocal _ => 1
  | TInt ty n => olen (enc_int ty n)
  | TStr s => length s + 2
  | TPath s => pw s
  | TFieldName s => length s
  | TEisa s => olen (eisa_enc s)
  | TUuid _ => 20
  | TBufData b => 14 + length b
  | TDesc d => olen (enc_desc d)
  | TOp1 _ a => 5 + weight a
  | TOp2 _ a b => 2 + weight a + weight b
  | TOp3 _ a b c => 1 + weight a + weight b + weight c
  | TOp4 _ a b c d => 2 + weight a + weight b + weight c + weight d
  | TName p i => 1 + pw p + weight i
  | TDevice p ks => 6 + pw p + ws ks
  | TScope p ks | TScopeRaw p ks => 5 + pw p + ws ks
  | TMethod p _ _ ks => 6 + pw p + ws ks
  | TPowerRes p _ _ ks => 9 + pw p + ws ks
  | TOpRegion p _ o l => 3 + pw p + weight o + weight l
  | TMutex p _ => 3 + pw p
  | TAcquire p _ => 4 + pw p
  | TRelease p => 2 + pw p
  | TCall p args => pw p + ws args
  | TField p _ _ _ es => 7 + pw p + fold_right (fun e acc => fentry_weight e + acc) O es
  | TPackage ks | TPkgBuilder ks => 6 + ws ks
  | TResTemplate ks => 16 + ws ks
  | TIf pr ks | TWhile pr ks => 5 + weight pr + ws ks
  | TElse ks => 5 + ws ks
  end.

Definition weights (l : list term) : nat := fold_right (fun x acc => weight x + acc) O l.
Local Close Scope nat_scope.

Lemma weight_fix l :
  (fix ws (l : list term) : nat := match l with [] => O | x :: r => (weight x + ws r)%nat end) l = weights l.
Proof. induction l as [|x l IH]; [reflexivity|]. cbn [weights fold_right]. now rewrite IH. Qed.

Lemma spec_int_len n : (1 <= length (spec_int n) <= 9)%nat.
Proof.
  unfold spec_int. destruct (n =? 0); [cbn; lia|]. destruct (n =? 1); [cbn; lia|].
  destruct (n <? 2 ^ 8); [|destruct (n <? 2 ^ 16); [|destruct (n <? 2 ^ 32)]]; cbn [length]; rewrite length_le; lia.
Qed.

Lemma enc_usize_len n : (1 <= length (enc_usize n) <= 9)%nat.
Proof. unfold enc_usize. rewrite enc_u64_spec. apply spec_int_len. Qed.

Lemma pathb_enc s : pathb s = true -> exists e, enc_path_text s = Some e /\ (1 <= length e)%nat.
Proof.
  unfold pathb, enc_path_text. destruct (path_new s) as [q|] eqn:Eq; [|discriminate]. intros H. apply Nat.leb_le in H.
  cbn [option_bind]. destruct (path_new_sound s q Eq) as [_ H4].
  assert (Hne : p_parts q <> []).
  { unfold path_new in Eq. destruct (forallb _ _); [|discriminate]. inversion Eq. cbn [p_parts]. apply split_dot_nonempty. }
  destruct (p_parts q) as [|s1 rest] eqn:Ep; [congruence|]. inversion H4 as [|? ? Hs1 _]; subst.
  rewrite path_enc_accept by (rewrite Ep; cbn [length] in *; lia). eexists. split; [reflexivity|].
  unfold spec_path_form. rewrite Ep, !app_length. cbn [concat]. rewrite app_length. lia.
Qed.

Lemma is_some_true {A} (o : option A) : is_some o = true -> exists x, o = Some x.
Proof. destruct o; [eauto|discriminate]. Qed.

(* In [EM] the lower bound is [depth t]: the C06 oracle gives its parser the fuel [S (length b)], and the round trip asks for
   fuel above [depth t]. *)
Definition emits (o : option (list N)) (lo hi : nat) : Prop := exists b, o = Some b /\ (lo <= length b <= hi)%nat.

Lemma emits_some b lo hi : (lo <= length b <= hi)%nat -> emits (Some b) lo hi.
Proof. intros H. exists b. auto. Qed.

Lemma emits_framed md op body lo hi : N.of_nat hi < 2 ^ 28 ->
  (lo <= length op + 1 + length body /\ length op + 4 + length body <= hi)%nat -> emits (framed md op body) lo hi.
Proof.
  intros Hhi Hb. destruct (pkg_len_accept md (N.of_nat (length body)) true) as (pl & Ep & Lf); [change (2 ^ 28) with 268435456 in *; lia|].
  unfold framed. rewrite Ep. apply emits_some. rewrite !app_length. lia.
Qed.

Lemma below_le n m : (m <= n)%nat -> N.of_nat n < 2 ^ 28 -> N.of_nat m < 2 ^ 28.
Proof. lia. Qed.

Definition EM (t : term) : Prop :=
  forall md, emitb t = true -> N.of_nat (weight t) < 2 ^ 28 -> emits (enc md t) (depth t) (weight t).

Lemma EM_kids md ks : Forall EM ks -> forallb emitb ks = true -> N.of_nat (weights ks) < 2 ^ 28 ->
  emits (encs md ks) (depths ks) (weights ks).
Proof.
  induction ks as [|x ks IH]; intros HF He Hw; [apply emits_some; cbn; lia|].
  inversion HF as [|? ? Hx Hks]; subst. cbn [forallb] in He. apply andb_true_iff in He. destruct He as [He1 He2].
  cbn [weights fold_right] in Hw. fold (weights ks) in Hw.
  destruct (Hx md He1) as (ex & Ex & Hlx); [eapply below_le; [|exact Hw]; auto with arith|].
  destruct (IH Hks He2) as (er & Er & Hlr); [eapply below_le; [|exact Hw]; auto with arith|].
  rewrite encs_cons, Ex, Er. apply emits_some.
  cbn [depths weights fold_right]. fold (depths ks) (weights ks). rewrite app_length. lia.
Qed.

(* the pieces of an encoding: a path, a child list, a sub-term -- each replaced by the bytes it emits *)
Ltac usepath Hp ep Ep Lp := destruct (pathb_enc _ Hp) as (ep & Ep & Lp); rewrite Ep in *; cbn [olen option_bind] in *.
Ltac usekids HF md Hw eks Ek Lk :=
  destruct (EM_kids md _ HF) as (eks & Ek & Lk); [assumption|eapply below_le; [|exact Hw]; auto with arith|]; rewrite Ek; cbn [option_bind].
Ltac useterm IH md Hw ea Ea La :=
  destruct (IH md) as (ea & Ea & La); [assumption|eapply below_le; [|exact Hw]; auto with arith|]; rewrite Ea; cbn [option_bind].
Ltac by_lengths := unfold w2; repeat progress (rewrite ?app_length, ?length_le; cbn [length]); lia.

Lemma EM_all : forall t, EM t.
Proof.
  apply term_ind'. intros t IH.
  destruct t as [ | | |ty n|s|s|s|s|s|b|n|n|d|k a|k a b|k t a b|k a b c d|p i|p ks|p ks|p ks|p ar sr ks|p lv od ks|p sp o l|p sy|p tm|p
                |p args|p ac lk up entries|ks|ks|ks|pr ks|ks|pr ks]; cbn [sub_all] in IH; intros md He Hw.
  all: rewrite ?scope_raw_eq, ?pkg_builder_eq, ?restemplate_framed; cbv zeta; cbn [emitb] in He; rewrite ?forallb_fix in He; andbs He;
    cbn [weight] in Hw; rewrite ?weight_fix in Hw; cbn [enc depth weight]; rewrite ?encs_fix, ?depth_list_fix, ?weight_fix.
  - (* TZero *) apply emits_some; cbn; lia.
  - (* TOne *) apply emits_some; cbn; lia.
  - (* TOnes *) apply emits_some; cbn; lia.
  - (* TInt *) destruct (enc_int ty n); [apply emits_some; cbn; lia|discriminate].
  - (* TStr *) apply emits_some. unfold enc_string. by_lengths.
  - (* TPath *) usepath He ep Ep Lp. apply emits_some. by_lengths.
  - (* TFieldName *) apply emits_some. lia.
  - (* TEisa *) unfold eisa_enc. destruct (eisa_value s); [apply emits_some; cbn; lia|discriminate].
  - (* TUuid *) destruct (is_some_true _ He) as [u Eu]. unfold uuid_enc. rewrite Eu. cbn [option_bind].
    rewrite (proj1 (buffer16 md u [] (uuid_bytes_length _ _ Eu))). apply emits_some. rewrite app_length, (uuid_bytes_length _ _ Eu). cbn [length]. lia.
  - (* TBufData *) unfold buffer_data. pose proof (enc_usize_len (N.of_nat (length b))) as Lu. apply emits_framed; [exact Hw|by_lengths].
  - (* TArg *) rewrite He. apply emits_some. cbn. lia.
  - (* TLocal *) rewrite He. apply emits_some. cbn. lia.
  - (* TDesc *) destruct (enc_desc d); [apply emits_some; cbn; lia|discriminate].
  - (* TOp1 *) useterm IH md Hw ea Ea La. apply N.ltb_lt in He.
    assert (Hk : k = 0 \/ k = 1 \/ k = 2 \/ k = 3 \/ k = 4 \/ k = 5) by lia.
    destruct Hk as [->|[->|[->|[->|[->| ->]]]]]; cbn [op1_code option_bind];
      first [apply emits_some; by_lengths | apply emits_framed; [exact Hw|by_lengths]].
  - (* TOp2 *) destruct IH as [IHt1 IHt2]. useterm IHt1 md Hw ea Ea La. useterm IHt2 md Hw eb Eb Lb. apply N.ltb_lt in He.
    assert (Hk : k = 0 \/ k = 1 \/ k = 2 \/ k = 3 \/ k = 4 \/ k = 5 \/ k = 6 \/ k = 7 \/ k = 8 \/ k = 9) by lia.
    destruct Hk as [->|[->|[->|[->|[->|[->|[->|[->|[->| ->]]]]]]]]]; cbn [cmp_code option_bind]; apply emits_some; by_lengths.
  - (* TOp3: the operands are serialised before the target *) destruct IH as (IHt1 & IHt2 & IHt3). destruct (is_some_true _ He) as [op Eo].
    destruct (IHt1 md) as (et & Et & Lt); [assumption|eapply below_le; [|exact Hw]; auto with arith|]. useterm IHt2 md Hw ea Ea La. useterm IHt3 md Hw eb Eb Lb.
    rewrite Et, Eo. apply emits_some. by_lengths.
  - (* TOp4 *) destruct IH as (IHt1 & IHt2 & IHt3 & IHt4). useterm IHt1 md Hw ea Ea La. useterm IHt2 md Hw eb Eb Lb. useterm IHt3 md Hw ec Ec Lc. useterm IHt4 md Hw ed Ed Ld.
    apply N.ltb_lt in He. assert (Hk : k = 0 \/ k = 1) by lia. destruct Hk as [-> | ->]; apply emits_some; by_lengths.
  - (* TName *) usepath He ep Ep Lp. useterm IH md Hw ei Ei Li. apply emits_some. by_lengths.
  - (* TDevice *) usepath He ep Ep Lp. usekids IH md Hw eks Ek Lk. apply emits_framed; [exact Hw|by_lengths].
  - (* TScope *) usepath He ep Ep Lp. usekids IH md Hw eks Ek Lk. apply emits_framed; [exact Hw|by_lengths].
  - (* TScopeRaw *) usepath He ep Ep Lp. usekids IH md Hw eks Ek Lk. apply emits_framed; [exact Hw|by_lengths].
  - (* TMethod *) usepath He ep Ep Lp. rewrite He1. cbn [assert option_bind]. usekids IH md Hw eks Ek Lk. apply emits_framed; [exact Hw|by_lengths].
  - (* TPowerRes *) usepath He ep Ep Lp. usekids IH md Hw eks Ek Lk. apply emits_framed; [exact Hw|by_lengths].
  - (* TOpRegion *) destruct IH as [IHt1 IHt2]. usepath He ep Ep Lp. useterm IHt1 md Hw eo Eo Lo. useterm IHt2 md Hw el El Ll. apply emits_some. by_lengths.
  - (* TMutex *) usepath He ep Ep Lp. apply emits_some. by_lengths.
  - (* TAcquire *) usepath He ep Ep Lp. apply emits_some. by_lengths.
  - (* TRelease *) usepath He ep Ep Lp. apply emits_some. by_lengths.
  - (* TCall *) usepath He ep Ep Lp. usekids IH md Hw eks Ek Lk. apply emits_some. by_lengths.
  - (* TField *) usepath He ep Ep Lp.
    assert (Hes : emits (opt_concat_map (enc_fentry md) entries) 0 (fold_right (fun e acc => (fentry_weight e + acc)%nat) O entries)).
    { clear -He0. induction entries as [|e es IHe]; [apply emits_some; cbn; lia|].
      cbn [forallb] in He0. apply andb_true_iff in He0. destruct He0 as [H1 H2]. destruct (IHe H2) as (er & Er & Lr).
      cbn [opt_concat_map fold_right]. rewrite Er.
      destruct e as [name len|len]; cbn [fentryb] in H1; apply N.ltb_lt in H1;
        (destruct (pkg_len_accept md len false) as (pe & Epe & Lpe); [now rewrite N.add_0_r|]); cbn [enc_fentry]; rewrite Epe; cbn [option_bind fentry_weight];
        apply emits_some; rewrite ?app_length; cbn [length]; rewrite ?app_length; lia. }
    destruct Hes as (ees & Ees & Les). rewrite Ees. cbn [option_bind]. apply emits_framed; [exact Hw|by_lengths].
  - (* TPackage *) rewrite He. cbn [assert option_bind]. usekids IH md Hw eks Ek Lk. apply emits_framed; [exact Hw|by_lengths].
  - (* TPkgBuilder *) rewrite He. cbn [assert option_bind]. usekids IH md Hw eks Ek Lk. apply emits_framed; [exact Hw|by_lengths].
  - (* TResTemplate *) fold (encs md ks). usekids IH md Hw eks Ek Lk. unfold buffer_data.
    pose proof (enc_usize_len (N.of_nat (length (eks ++ [0x79; 0])))) as Lu. set (u := enc_usize _) in *. apply emits_framed; [exact Hw|by_lengths].
  - (* TIf *) destruct IH as [IHt IH]. useterm IHt md Hw ep Ep Lp. usekids IH md Hw eks Ek Lk. apply emits_framed; [exact Hw|by_lengths].
  - (* TElse *) usekids IH md Hw eks Ek Lk. apply emits_framed; [exact Hw|by_lengths].
  - (* TWhile *) destruct IH as [IHt IH]. useterm IHt md Hw ep Ep Lp. usekids IH md Hw eks Ek Lk. apply emits_framed; [exact Hw|by_lengths].
Qed.

Definition env_tbl (tbl : list (name_key * nat)) : arity_env :=
  fun k => match find (fun e => key_eqb (fst e) k) tbl with Some e => snd e | None => O end.

Definition consistent (tbl : list (name_key * nat)) : bool :=
  forallb (fun e => forallb (fun e' => negb (key_eqb (fst e) (fst e')) || Nat.eqb (snd e) (snd e')) tbl) tbl.

Lemma env_of_tbl c : env_of c = env_tbl (calls_of c). Proof. reflexivity. Qed.
Lemma env_consistent_tbl c : env_consistent c = consistent (calls_of c). Proof. reflexivity. Qed.

Lemma key_eqb_refl k : key_eqb k k = true.
Proof. unfold key_eqb. rewrite list_N_eqb_refl, Nat.eqb_refl. destruct (fst k); reflexivity. Qed.

Lemma env_lookup tbl key n : consistent tbl = true -> In (key, n) tbl -> env_tbl tbl key = n.
Proof.
  intros Hc Hin. unfold env_tbl.
  destruct (find (fun e => key_eqb (fst e) key) tbl) as [e|] eqn:Ef.
  - apply find_some in Ef. destruct Ef as [He Hk]. unfold consistent in Hc. rewrite forallb_forall in Hc.
    specialize (Hc e He). rewrite forallb_forall in Hc. specialize (Hc (key, n) Hin). cbn [fst snd] in Hc.
    rewrite Hk in Hc. cbn [negb orb] in Hc. now apply Nat.eqb_eq in Hc.
  - exfalso. pose proof (find_none _ _ Ef (key, n) Hin) as Hn. cbn [fst] in Hn. rewrite key_eqb_refl in Hn. discriminate.
Qed.

Definition own_call (l : list sx) : list (name_key * nat) :=
  match l with
  | [SA 50; p; SL ks] =>
      match sx_bytes p with
      | Some t => match spec_path t with Some key => [(key, length ks)] | None => [] end
      | None => []
      end
  | _ => []
  end.

Lemma sub_fix l :
  (fix sub (l : list sx) : list (name_key * nat) := match l with [] => [] | x :: r => calls_of x ++ sub r end) l
  = flat_map calls_of l.
Proof. induction l as [|x l IH]; [reflexivity|]. cbn [flat_map]. now rewrite IH. Qed.

Lemma calls_of_eq l : calls_of (SL l) = own_call l ++ flat_map calls_of l.
Proof.
  rewrite <- sub_fix. cbn [calls_of].
  destruct l as [|x r]; [reflexivity|]. destruct x as [k|l']; [|reflexivity].
  destruct k as [|kp]; [reflexivity|]. split_pos kp 6%nat; try reflexivity.
  destruct r as [|p [|[n|ks] [|y r]]]; try reflexivity.
  unfold own_call. destruct (sx_bytes p) as [t|]; [|reflexivity]. destruct (spec_path t); reflexivity.
Qed.

Definition kids_of (s : sx) : list sx := match s with SL l => l | SA _ => [] end.

Lemma sub_incl c x : In x (kids_of c) -> incl (calls_of x) (calls_of c).
Proof.
  destruct c as [n|l]; [intros []|]. cbn [kids_of]. intros Hin e He. rewrite calls_of_eq. apply in_or_app. right.
  apply in_flat_map. exists x. split; assumption.
Qed.

Lemma sub_incl2 c ks x : In (SL ks) (kids_of c) -> In x ks -> incl (calls_of x) (calls_of c).
Proof.
  intros H1 H2 e He. apply (sub_incl c (SL ks) H1). apply (sub_incl (SL ks) x H2). exact He.
Qed.

(* bare references in term position must not name an invoked method (the parser would read arguments) *)
Fixpoint refsb (env : arity_env) (el : bool) (t : term) {struct t} : bool :=
  let all := fix all (el' : bool) (l : list term) : bool := match l with [] => true | x :: r => refsb env el' x && all el' r end in
  match t with
  | TPath s => el || match path_new s with Some q => Nat.eqb (env (key_of q)) 0 | None => true end
  | TFieldName s => el || Nat.eqb (env (false, [s])) 0
  | TOp1 _ a => refsb env false a
  | TOp2 _ a b => refsb env false a && refsb env false b
  | TOp3 _ a b c => refsb env false a && refsb env false b && refsb env false c
  | TOp4 _ a b c d => refsb env false a && refsb env false b && refsb env false c && refsb env false d
  | TName _ i => refsb env false i
  | TDevice _ ks | TScope _ ks | TScopeRaw _ ks | TMethod _ _ _ ks | TPowerRes _ _ _ ks | TCall _ ks | TElse ks => all false ks
  | TOpRegion _ _ o l => refsb env false o && refsb env false l
  | TPackage ks | TPkgBuilder ks => all true ks
  | TIf pr ks | TWhile pr ks => refsb env false pr && all false ks
  | _ => true
  end.

Lemma refsb_fix env el l :
  (fix all (el' : bool) (l : list term) : bool := match l with [] => true | x :: r => refsb env el' x && all el' r end) el l
  = forallb (refsb env el) l.
Proof. induction l as [|x l IH]; [reflexivity|]. cbn [forallb]. now rewrite IH. Qed.

Lemma argsb_int env el ty n : argsb (TInt ty n) = true -> wf env el (TInt ty n) /\ emitb (TInt ty n) = true.
Proof.
  cbn [argsb wf emitb]. intros H.
  repeat (apply orb_true_iff in H; destruct H as [H|H]); apply andb_true_iff in H; destruct H as [H1 H2]; apply N.ltb_lt in H2.
  - apply N.eqb_eq in H1. subst ty. split; [auto|reflexivity].
  - apply N.eqb_eq in H1. subst ty. split; [auto|reflexivity].
  - apply N.eqb_eq in H1. subst ty. split; [auto 6|reflexivity].
  - apply orb_true_iff in H1. destruct H1 as [H1|H1]; apply N.eqb_eq in H1; subst ty; (split; [auto 7|reflexivity]).
Qed.

(* [env] and [tbl] stay fixed while the induction goes down the case: the invocations of a sub-case are among those listed *)
Section DeriveEnv.
  Variable tbl : list (name_key * nat).
  Variable env : arity_env.
  Hypothesis Henv : forall key n, In (key, n) tbl -> env key = n.

  Definition WDt (c : sx) (t : term) : Prop :=
    forall el g, expect el c = Some g -> argsb t = true -> refsb env el t = true -> incl (calls_of c) tbl ->
                 wf env el t /\ emitb t = true.

  Lemma str_ok s g el :
    (if forallb (fun c => (1 <=? c) && (c <=? 0x7F)) s then Some (GStr s) else None) = Some g -> wf env el (TStr s) /\ emitb (TStr s) = true.
  Proof.
    destruct (forallb _ s) eqn:E; [intros _|discriminate]. split; [|reflexivity]. cbn [wf]. apply Forall_forall. intros x Hx.
    rewrite forallb_forall in E. specialize (E x Hx). apply andb_true_iff in E. destruct E as [E _]. apply N.leb_le in E. lia.
  Qed.

  Lemma WD_kids el ks ts : Forall2 WDt ks ts ->
    forall gs, ekids el ks = Some gs -> forallb argsb ts = true -> forallb (refsb env el) ts = true ->
    (forall x, In x ks -> incl (calls_of x) tbl) -> wfs env el ts /\ forallb emitb ts = true.
  Proof.
    induction 1 as [|a x ks ts Hx _ IH]; intros gs Hg Ha Hr Hi; [split; [constructor|reflexivity]|].
    unfold ekids in *. cbn [map_opt] in Hg.
    destruct (expect el a) as [g|] eqn:Eg; [|discriminate]. destruct (map_opt (expect el) ks) as [gs'|]; [|discriminate].
    cbn [forallb] in Ha, Hr. apply andb_true_iff in Ha, Hr. destruct Ha as [Ha1 Ha2]. destruct Hr as [Hr1 Hr2].
    destruct (Hx el g Eg Ha1 Hr1 (Hi a (or_introl eq_refl))) as [W E].
    destruct (IH gs' eq_refl Ha2 Hr2 (fun y Hy => Hi y (or_intror Hy))) as [Ws Es].
    split; [constructor; assumption|]. cbn [forallb]. now rewrite E, Es.
  Qed.

  (* [Hg : expect .. = Some g] through the equation of its shape: every [name_of], [expect], [ekids] in it is defined *)
  Ltac esome H :=
    repeat match type of H with
           | context [name_of ?p] => let E := fresh "En" in destruct (name_of p) eqn:E
           | context [expect ?el ?a] => let E := fresh "Ee" in destruct (expect el a) eqn:E
           | context [ekids ?el ?a] => let E := fresh "Eks" in destruct (ekids el a) eqn:E
           end;
    cbn [mkop opt_all option_map] in H; try discriminate H.

  (* the induction hypothesis [I] of a child / [Hk] of a child list, used at what [esome] found *)
  Ltac child I Hinc :=
    match type of I with
    | WDt ?a ?x =>
        match goal with
        | Ee : expect ?el a = Some ?g |- _ =>
            let W := fresh "Wf" in let E := fresh "Em" in
            destruct (I el g Ee) as [W E]; [assumption|assumption|apply Hinc; simpl; tauto|]
        end
    end.

  Ltac kidsl Hk Hinc2 :=
    match type of Hk with
    | Forall2 _ ?ks ?ts =>
        match goal with
        | Ee : ekids ?el ks = Some ?gs |- _ =>
            let W := fresh "Wfs" in let E := fresh "Ems" in
            destruct (WD_kids el ks ts Hk gs Ee) as [W E]; [assumption|assumption|apply Hinc2; simpl; tauto|]
        end
    end.

  (* closes [wf env el t /\ emitb t = true] once every conjunct is in the context: the boolean ones rewrite to [true], the rest
     are assumptions or arithmetic *)
  Ltac settle := cbn [wf emitb]; rewrite ?wfs_fix, ?forallb_fix;
              repeat match goal with E : _ = true |- _ => rewrite E end; cbn [andb];
              repeat split; try assumption; try reflexivity; try lia.

  Lemma package_ok ks ts g : Forall2 WDt ks ts ->
    (forall x, In x ks -> incl (calls_of x) tbl) ->
    (if Nat.leb (length ks) 255 then mkop 0x12 [Some (GNum (N.of_nat (length ks)))] (ekids true ks) else None) = Some g ->
    forallb argsb ts = true -> forallb (refsb env true) ts = true ->
    wfs env true ts /\ (N.of_nat (length ts) <=? 255) && forallb emitb ts = true.
  Proof.
    intros Hk Hi Hg Ha Hr. destruct (Nat.leb (length ks) 255) eqn:Ec; [|discriminate]. apply Nat.leb_le in Ec.
    esome Hg. destruct (WD_kids true ks ts Hk _ Eks Ha Hr Hi) as [Wfs Ems]. rewrite Ems, (Forall2_length _ _ _ Hk).
    split; [exact Wfs|]. rewrite andb_true_r. apply N.leb_le. lia.
  Qed.

  Theorem derive_env : forall c t, term_of_sx c = Some t -> WDt c t.
  Proof.
    apply read_ind. intros c t Ht H. destruct H; try match goal with b : bool |- _ => destruct b end; intros el g Hg Ha Hr Hincl.
    (* the invocations of every child, and of every element of a child list, are listed as well *)
    all: pose proof (fun x Hx => incl_tran (sub_incl _ x Hx) Hincl) as Hinc;
      pose proof (fun ks Hk x Hx => incl_tran (sub_incl2 _ ks x Hk Hx) Hincl) as Hinc2; cbn [kids_of] in Hinc, Hinc2.
    all: cbn [argsb refsb] in Ha, Hr; rewrite ?forallb_fix in Ha; rewrite ?refsb_fix in Hr; andbs Ha; andbs Hr.
    - split; [exact I|reflexivity].
    - split; [exact I|reflexivity].
    - split; [exact I|reflexivity].
    - apply argsb_int. cbn [argsb]. now rewrite Ha.
    - rewrite (ex_str el true), Eb in Hg. exact (str_ok s g el Hg).
    - rewrite (ex_str el false), Eb in Hg. exact (str_ok s g el Hg).
    - rewrite ex7, Eb in Hg. destruct (spec_path s) as [[rt segs]|] eqn:E; [|discriminate].
      destruct (spec_path_new _ _ _ E) as (Hn & Hw & Hl). rewrite Hn in Hr. split.
      + cbn [wf]. eexists. split; [exact Hn|]. split; [exact Hw|]. intros ->. cbn [orb] in Hr. now apply Nat.eqb_eq in Hr.
      + exact Hl.
    - rewrite ex8, Eb in Hg. destruct (is_nameseg s) eqn:E; [|discriminate].
      split; [|reflexivity]. cbn [wf]. split; [exact E|]. intros ->. cbn [orb] in Hr. now apply Nat.eqb_eq in Hr.
    - rewrite ex9, Eb in Hg. destruct (spec_eisa_value s) as [v|] eqn:E; [|discriminate]. split; [exact I|].
      cbn [emitb]. now rewrite (spec_eisa_model _ _ E).
    - rewrite ex10, Eb in Hg. destruct (spec_uuid_bytes s) as [v|] eqn:E; [|discriminate]. split; [exact I|].
      cbn [emitb]. now rewrite (spec_uuid_model _ _ E).
    - split; [exact I|reflexivity].
    - rewrite ex12 in Hg. destruct (n <=? 6) eqn:E; [|discriminate]. split; [exact I|exact E].
    - rewrite ex13 in Hg. destruct (n <=? 7) eqn:E; [|discriminate]. split; [exact I|exact E].
    - rewrite ex_desc in Hg. discriminate Hg.
    - destruct (ex30_some _ _ _ _ Hg) as (Hk & ga & Ee). child Ia Hinc. pose proof (proj1 (N.ltb_lt _ _) Hk). settle.
    - destruct (ex31_some _ _ _ _ _ Hg) as (Hk & (ga & Ee1) & gb & Ee2). child Ia Hinc. child Ib Hinc.
      pose proof (proj1 (N.ltb_lt _ _) Hk). settle.
    - destruct (ex32_some _ _ _ _ _ _ Hg) as ((Hk & code & Eo) & (gt0 & Ee1) & (ga & Ee2) & gb & Ee3).
      child It Hinc. child Ia Hinc. child Ib Hinc. cbn [wf emitb]. rewrite Eo. cbn [is_some]. settle.
    - destruct (ex33_some _ _ _ _ _ _ _ Hg) as (Hk & (ga & Ee1) & (gb & Ee2) & (gc & Ee3) & gd & Ee4).
      child Ia Hinc. child Ib Hinc. child Ic Hinc. child Id Hinc. pose proof (proj1 (N.ltb_lt _ _) Hk). settle.
    - rewrite ex40 in Hg. esome Hg. destruct (name_of_gt p _ _ Ep En) as (_ & Wn & Pb). child Ii Hinc. settle.
    - rewrite ex41 in Hg. esome Hg. destruct (name_of_gt p _ _ Ep En) as (_ & Wn & Pb). kidsl Hk Hinc2. settle.
    - rewrite (ex_scope el true) in Hg. esome Hg. destruct (name_of_gt p _ _ Ep En) as (_ & Wn & Pb). kidsl Hk Hinc2. settle.
    - rewrite (ex_scope el false) in Hg. esome Hg. destruct (name_of_gt p _ _ Ep En) as (_ & Wn & Pb). kidsl Hk Hinc2. settle.
    - rewrite ex44 in Hg.
      destruct ((ar <=? 7) && (sr <=? 1)) eqn:Ec; [|discriminate]. apply andb_true_iff in Ec. destruct Ec as [Ec1 Ec2].
      esome Hg. destruct (name_of_gt p _ _ Ep En) as (_ & Wn & Pb). kidsl Hk Hinc2. apply N.leb_le in Ec2. settle.
    - rewrite ex45 in Hg. esome Hg. destruct (name_of_gt p _ _ Ep En) as (_ & Wn & Pb). kidsl Hk Hinc2. apply N.ltb_lt in Ha, Ha1. settle.
    - rewrite ex46 in Hg. esome Hg. destruct (name_of_gt p _ _ Ep En) as (_ & Wn & Pb). child Io Hinc. child Il Hinc. apply N.ltb_lt in Ha. settle.
    - rewrite ex47 in Hg. esome Hg. destruct (name_of_gt p _ _ Ep En) as (_ & Wn & Pb). apply N.ltb_lt in Ha. settle.
    - rewrite ex48 in Hg. esome Hg. destruct (name_of_gt p _ _ Ep En) as (_ & Wn & Pb). apply N.ltb_lt in Ha. settle.
    - rewrite ex49 in Hg. esome Hg. destruct (name_of_gt p _ _ Ep En) as (_ & Wn & Pb). settle.
    - (* MethodCall: the arity the table gives the name is the number of arguments here, since this call is in the table *)
      rewrite ex50, Ep in Hg.
      destruct (spec_path s) as [[rt segs]|] eqn:E; [|discriminate]. destruct (ekids false ks) as [args|] eqn:Eks; [|discriminate].
      destruct (spec_path_new _ _ _ E) as (Hn & Hw & Hl). kidsl Hk Hinc2.
      pose proof (Forall2_length _ _ _ Hk) as Hlen. pose proof (map_opt_length _ _ _ Eks) as Hlg.
      split.
      + cbn [wf]. rewrite wfs_fix. split; [|exact Wfs]. eexists. split; [exact Hn|]. split; [exact Hw|].
        destruct el.
        * cbn [andb] in Hg. destruct ks as [|k0 ks']; [|rewrite Hlg in Hg; discriminate Hg]. destruct ts; [reflexivity|discriminate Hlen].
        * unfold key_of. cbn [p_root p_parts]. rewrite Hlen. apply Henv. apply Hincl.
          rewrite calls_of_eq. apply in_or_app. left. unfold own_call. rewrite Ep, E. left. reflexivity.
      + cbn [emitb]. rewrite forallb_fix, Ems, Hl. reflexivity.
    - rewrite ex51 in Hg. destruct ((ac <=? 5) && (lk <=? 1) && (up <=? 2)) eqn:Ec; [|discriminate].
      apply andb_true_iff in Ec. destruct Ec as [Ec Ec3]. apply andb_true_iff in Ec. destruct Ec as [Ec1 Ec2].
      apply N.leb_le in Ec1, Ec2, Ec3.
      destruct (name_of p) as [gn|] eqn:En; [|discriminate]. destruct (opt_all (map fe_of es)) as [gs|] eqn:Eg; [|cbn in Hg; discriminate].
      destruct (name_of_gt p _ _ Ep En) as (_ & Wn & Pb). destruct (fields_link es fs gs Ef Eg) as [_ Hwf].
      split; [cbn [wf]; repeat split; try assumption; lia|]. cbn [emitb]. rewrite Pb. cbn [andb].
      apply forallb_forall. intros e He. rewrite Forall_forall in Hwf. specialize (Hwf e He).
      destruct e as [nm len|len]; cbn [wf_fentry fentryb] in *; apply N.ltb_lt; tauto.
    - rewrite (ex_pkg el true) in Hg. cbn [wf emitb]. rewrite wfs_fix, forallb_fix.
      now apply (package_ok ks ts g Hk (Hinc2 ks ltac:(simpl; tauto))).
    - rewrite (ex_pkg el false) in Hg. cbn [wf emitb]. rewrite wfs_fix, forallb_fix.
      now apply (package_ok ks ts g Hk (Hinc2 ks ltac:(simpl; tauto))).
    - rewrite ex62 in Hg.
      destruct (opt_all (map ref_of ks)) as [ds|] eqn:Ed; [|discriminate].
      destruct (template_link ks ts Ek ds Ed Ha) as (dd & -> & Hm). split.
      + cbn [wf]. apply Forall_forall. intros x Hx. apply in_map_iff in Hx. destruct Hx as (d & <- & _). exists d. reflexivity.
      + cbn [emitb]. rewrite forallb_fix. exact (descs_emit dd ds Hm).
    - rewrite (ex_loop el true) in Hg. esome Hg. child Ip Hinc. kidsl Hk Hinc2. settle.
    - rewrite (ex_loop el false) in Hg. esome Hg. child Ip Hinc. kidsl Hk Hinc2. settle.
    - rewrite ex64 in Hg. esome Hg. kidsl Hk Hinc2. settle.
  Qed.
End DeriveEnv.

(* the environment the oracle uses: the table of the case itself, when no name is invoked with two arities *)
Section Derive.
  Variable tbl : list (name_key * nat).
  Hypothesis Hcons : consistent tbl = true.
  Let env := env_tbl tbl.

  Definition WD (c : sx) : Prop :=
    forall el t g, term_of_sx c = Some t -> expect el c = Some g -> argsb t = true -> refsb env el t = true ->
                   incl (calls_of c) tbl -> wf env el t /\ emitb t = true.

  Theorem derive : forall c, WD c.
  Proof. intros c el t g Ht. exact (derive_env tbl env (fun key n => env_lookup tbl key n Hcons) c t Ht el g). Qed.
End Derive.

Definition gt_sub (P : gt -> Prop) (g : gt) : Prop :=
  match g with
  | GCall _ _ args => Forall P args
  | GBuffer sz _ => P sz
  | GOp _ f k => Forall P f /\ Forall P k
  | _ => True
  end.

Section GtInd.
  Variable P : gt -> Prop.
  Hypothesis step : forall g, gt_sub P g -> P g.
  Fixpoint gt_ind' (g : gt) : P g :=
    let all := fix all (l : list gt) : Forall P l :=
                 match l with [] => Forall_nil P | x :: r => Forall_cons x (gt_ind' x) (all r) end in
    step g match g return gt_sub P g with
           | GCall _ _ args => all args
           | GBuffer sz _ => gt_ind' sz
           | GOp _ f k => conj (all f) (all k)
           | _ => I
           end.
End GtInd.

Lemma all2_refl l : Forall (fun g => gt_eqb g g = true) l ->
  (fix all2 (x y : list gt) : bool :=
     match x, y with [], [] => true | p :: x', q :: y' => gt_eqb p q && all2 x' y' | _, _ => false end) l l = true.
Proof. induction 1 as [|g l Hg _ IH]; [reflexivity|]. rewrite Hg, IH. reflexivity. Qed.

Lemma gt_eqb_refl g : gt_eqb g g = true.
Proof.
  revert g. apply gt_ind'. intros g IH.
  destruct g; cbn [gt_sub] in IH; cbn [gt_eqb]; rewrite ?N.eqb_refl, ?list_N_eqb_refl, ?Nat.eqb_refl, ?eqb_reflx; cbn [andb]; try reflexivity.
  - now apply all2_refl.
  - rewrite IH. reflexivity.
  - rewrite (all2_refl fixed), (all2_refl kids) by apply IH. reflexivity.
Qed.

Definition extra (c : sx) : bool :=
  match term_of_sx c with
  | Some t => argsb t && refsb (env_of c) false t && (N.of_nat (weight t) <? 2 ^ 28)
  | None => false
  end.

(* C06 / C07 / C10 / C15 on component 40: the case is judged ([expect] succeeds and the invocations agree on arities) and [extra] *)
Definition coh_domain (c : sx) : bool := judged 6 40 c && extra c.

Lemma domain_facts c : coh_domain c = true ->
  exists t g, term_of_sx c = Some t /\ expect false c = Some g /\ env_consistent c = true /\
    wf (env_of c) false t /\ norm false t = Some g /\
    forall md, exists b, enc md t = Some b /\ (depth t <= length b)%nat /\ N.of_nat (length b) < 2 ^ 28.
Proof.
  unfold coh_domain, judged, extra. intros H. apply andb_true_iff in H. destruct H as [Hj He].
  destruct (expect false c) as [g|] eqn:Hg; [|discriminate]. destruct (term_of_sx c) as [t|] eqn:Ht; [|discriminate].
  apply andb_true_iff in He. destruct He as [He Hw]. apply andb_true_iff in He. destruct He as [Ha Hr]. apply N.ltb_lt in Hw.
  rewrite env_of_tbl in Hr. rewrite env_consistent_tbl in Hj.
  destruct (derive (calls_of c) Hj c false t g Ht Hg Ha Hr (incl_refl _)) as [Wf Em].
  exists t, g. repeat split; try assumption.
  - exact (link c t Ht false Ha g Hg).
  - intros md. destruct (EM_all t md Em Hw) as (b & E & Hl). exists b. split; [exact E|]. split; [lia|].
    change (2 ^ 28) with 268435456 in *. lia.
Qed.

Lemma small_63 n : n < 2 ^ 28 -> n < 2 ^ 63.
Proof. intros H. eapply N.lt_trans; [exact H|reflexivity]. Qed.

Theorem c06_coherent md c : coh_domain c = true -> c06_oracle c (aml_case md c) = true.
Proof.
  intros H. destruct (domain_facts c H) as (t & g & Ht & Hg & Hc & Wf & Hn & Hem).
  destruct (Hem md) as (b & E & Hd & Hs).
  destruct (roundtrip (env_of c) t false md b Wf E (small_63 _ Hs)) as (g' & Hn' & Hrt).
  rewrite Hn in Hn'. inversion Hn'; subst g'.
  unfold c06_oracle, aml_case. rewrite Hg, Hc, Ht, E. cbn [negb ev_opt].
  pose proof (Hrt (S (length b)) ltac:(lia) []) as Hp. rewrite app_nil_r in Hp. rewrite Hp. apply gt_eqb_refl.
Qed.

Lemma frame_check pl body :
  (forall r, pkg_decode (pl ++ body ++ r) = Some (N.of_nat (length pl + length body), body ++ r)) -> lead_ok pl ->
  (forall w, (1 <= w < length pl)%nat -> pkg_cap w < N.of_nat (length body) + N.of_nat w) ->
  match pkg_decode (pl ++ body) with
  | Some (n, body') =>
      let pre := firstn (length (pl ++ body) - length body') (pl ++ body) in
      (n =? N.of_nat (length (pl ++ body))) && pkg_lead_format_ok pre && pkg_minimal (N.of_nat (length body')) pre
  | None => false
  end = true.
Proof.
  intros Hd Hl Hm. pose proof (Hd []) as H0. rewrite !app_nil_r in H0. rewrite H0. cbv zeta.
  rewrite app_length. replace (length pl + length body - length body)%nat with (length pl) by lia.
  rewrite firstn_app_exact, N.eqb_refl, (lead_ok_bool _ Hl), (pkg_minimal_bool _ _ Hm). reflexivity.
Qed.

(* the [match] of the conclusion is how [c07_frame_oracle] skips the opcode *)
Lemma framed_head_op : forall c t, term_of_sx c = Some t -> c07_framed_head c = true ->
  exists op, frame_op t = Some op /\
             forall e, match op ++ e with 0x5B :: _ :: r => r | _ :: r => r | [] => [] end = e.
Proof.
  refine (read_ind _ _). intros c t _ H Hh.
  destruct H; try match goal with b : bool |- _ => destruct b end; try discriminate Hh; try (eexists; split; reflexivity).
  - (* a bare descriptor has no framed head *) destruct d; discriminate Hh.
  - (* of the one-operand operators, BufferTerm and VarPackageTerm *) destruct k as [|kp]; [discriminate Hh|]. split_pos kp 3%nat; try discriminate Hh; eexists; split; reflexivity.
Qed.

Lemma c07_frame_ok md c t b :
  term_of_sx c = Some t -> enc md t = Some b -> N.of_nat (length b) < 2 ^ 63 -> c07_frame_oracle c [EvBytes b] = true.
Proof.
  intros Ht E Hs. unfold c07_frame_oracle. destruct (c07_framed_head c) eqn:Hh; [|reflexivity]. cbn [negb].
  destruct (framed_head_op c t Ht Hh) as (op & Hop & Hrest).
  destruct (frame_sites md t op b Hop E Hs) as (pl & body & -> & Hd & Hl & Hm). rewrite Hrest. now apply frame_check.
Qed.

Theorem c07_coherent md c : coh_domain c = true -> c07_frame_oracle c (aml_case md c) && c06_oracle c (aml_case md c) = true.
Proof.
  intros H. rewrite (c06_coherent md c H), andb_true_r.
  destruct (domain_facts c H) as (t & g & Ht & _ & _ & _ & _ & Hem). destruct (Hem md) as (b & E & _ & Hs).
  unfold aml_case. rewrite Ht, E. cbn [ev_opt]. exact (c07_frame_ok md c t b Ht E (small_63 _ Hs)).
Qed.

Definition desc_domain (c : sx) : bool :=
  match term_of_sx c with Some (TDesc d) => desc_in_rangeb d | _ => false end.

Lemma desc_case : forall c t, term_of_sx c = Some t -> forall d, t = TDesc d -> c = SL (desc_to_sx d).
Proof.
  refine (read_ind _ _). intros c t _ H d' E.
  destruct H; try match goal with b : bool |- _ => destruct b end; try discriminate E. injection E as ->. reflexivity.
Qed.

Lemma c10_oracle_desc d impl :
  c10_oracle (SL (desc_to_sx d)) impl =
  match ref_desc (desc_to_sx d), impl with
  | Some r, [EvBytes b] => list_N_eqb b r && match rd_walk 2 b with Some [(_, _)] => true | _ => false end
  | Some _, _ => false
  | None, _ => true
  end.
Proof. destruct d as [rw base len|w ty ca rw mn mx [t|]|mn mx al len|c e a s n|sp wd off ac ad]; reflexivity. Qed.

Theorem c10_desc_coherent md c : desc_domain c = true ->
  c10_oracle c (aml_case md c) && c06_oracle c (aml_case md c) = true.
Proof.
  unfold desc_domain. intros H. destruct (term_of_sx c) as [t|] eqn:Ht; [|discriminate]. destruct t; try discriminate.
  pose proof (desc_case c _ Ht d eq_refl) as ->. apply desc_in_rangeb_ok in H.
  unfold c06_oracle. rewrite ex_desc, andb_true_r. rewrite c10_oracle_desc. unfold aml_case. rewrite Ht. cbn [enc].
  rewrite (desc_is_reference d H). destruct (ref_desc (desc_to_sx d)) as [r|] eqn:Er; [|reflexivity]. cbn [ev_opt].
  rewrite list_N_eqb_refl. cbn [andb]. rewrite <- (desc_is_reference d H) in Er.
  pose proof (desc_walk d r Er 1%nat []) as Hw. rewrite app_nil_r in Hw. rewrite Hw. reflexivity.
Qed.

Lemma c10_ok md : forall c t, term_of_sx c = Some t -> forall g b, expect false c = Some g -> argsb t = true ->
  enc md t = Some b -> N.of_nat (length b) < 2 ^ 63 -> c10_oracle c [EvBytes b] = true.
Proof.
  refine (read_ind _ _). intros c t Ht H. destruct H; try match goal with b : bool |- _ => destruct b end; intros g out Hg Ha E Hs;
    try reflexivity.
  - (* a bare descriptor is not judged by C06 *) rewrite ex_desc in Hg. discriminate Hg.
  - (* ResourceTemplate *) rewrite ex62 in Hg. cbn [argsb] in Ha. rewrite forallb_fix in Ha.
    destruct (opt_all (map ref_of ks)) as [ds|] eqn:Ed; [|discriminate].
    destruct (template_link ks ts Ek ds Ed Ha) as (dd & -> & Hm).
    rewrite restemplate_framed, (descs_encs md dd ds Hm) in E. cbn [option_bind] in E.
    pose proof (buffer_data_decode md _ out [] E Hs) as Hbuf. rewrite app_nil_r in Hbuf.
    destruct (rd_walk_descs dd ds Hm) as [Hw Hlen].
    assert (Hl : length ds = length dd) by (rewrite <- (map_length Some ds), <- Hm, map_length; reflexivity).
    unfold c10_oracle.
    change (opt_all (map (fun d : sx => match d with SL dl => ref_desc dl | SA _ => None end) ks)) with (opt_all (map ref_of ks)).
    rewrite Ed, Hbuf, N.eqb_refl, (rd_walk_mono _ _ _ Hw) by (rewrite app_length; cbn [length]; lia).
    rewrite app_length, map_length. cbn [length andb]. rewrite Hl, Nat.add_1_r, Nat.eqb_refl, list_N_eqb_refl, last_last. reflexivity.
Qed.

Theorem c10_coherent md c : coh_domain c = true -> c10_oracle c (aml_case md c) && c06_oracle c (aml_case md c) = true.
Proof.
  intros H. rewrite (c06_coherent md c H), andb_true_r.
  destruct (domain_facts c H) as (t & g & Ht & Hg & _ & _ & _ & Hem). destruct (Hem md) as (b & E & _ & Hs).
  unfold coh_domain, extra in H. rewrite Ht in H. apply andb_true_iff in H. destruct H as [_ H]. andbs H.
  unfold aml_case. rewrite Ht, E. exact (c10_ok md c t Ht g b Hg H E (small_63 _ Hs)).
Qed.

(* C15 on component 41: alternative constructions of the same object *)
Inductive alt : sx -> sx -> Prop :=
| alt_same x : alt x x
| alt_scope p ks : alt (SL [SA 42; p; SL ks]) (SL [SA 43; p; SL ks])            (* Scope::new / Scope::raw *)
| alt_pkg ks : alt (SL [SA 60; SL ks]) (SL [SA 61; SL ks])                     (* Package / PackageBuilder *)
| alt_str b : alt (SL [SA 5; b]) (SL [SA 6; b])                               (* &str / String *)
| alt_int n : n < 2 ^ 64 -> alt (SL [SA 4; SA 0; SA n]) (SL [SA 4; SA 64; SA n]). (* usize / u64 *)

Lemma alt_terms x y : alt x y ->
  (term_of_sx x = None /\ term_of_sx y = None) \/
  (exists a b, term_of_sx x = Some a /\ term_of_sx y = Some b /\ forall md, enc md a = enc md b).
Proof.
  intros [x0|p ks|ks|b|n Hn].
  - destruct (term_of_sx x0) as [a|]; [right; exists a, a; auto|left; auto].
  - cbn [term_of_sx]. rewrite !terms_fix. destruct (sx_bytes p) as [x0|]; [|left; auto]. destruct (map_opt term_of_sx ks) as [ts|]; [|left; auto].
    right. exists (TScope x0 ts), (TScopeRaw x0 ts). repeat split. intros md. symmetry. apply scope_raw_eq.
  - cbn [term_of_sx]. rewrite !terms_fix. destruct (map_opt term_of_sx ks) as [ts|]; [|left; auto]. cbn [option_map].
    right. exists (TPackage ts), (TPkgBuilder ts). repeat split. intros md. symmetry. apply pkg_builder_eq.
  - rewrite <- str_string_same. destruct (term_of_sx (SL [SA 5; b])) as [a|]; [right; exists a, a; auto|left; auto].
  - right. exists (TInt 0 n), (TInt 64 n). repeat split. intros md. now apply usize_u64_eq.
Qed.

Definition pair_domain (x y : sx) : Prop :=
  alt x y /\ (judged 15 41 (SL [x; y]) = true -> coh_domain x = true).

Theorem c15_pair_coherent md x y : pair_domain x y -> c15_oracle (SL [x; y]) (aml_pair_case md (SL [x; y])) = true.
Proof.
  intros [Halt Hdom]. unfold judged in Hdom.
  assert (Hemit : forall g, expect false x = Some g -> exists t b, term_of_sx x = Some t /\ enc md t = Some b).
  { intros g Hg. rewrite Hg in Hdom. destruct (domain_facts x (Hdom eq_refl)) as (t & _ & Ht & _ & _ & _ & _ & Hem).
    destruct (Hem md) as (b & E & _). exists t, b. auto. }
  unfold aml_pair_case, c15_oracle.
  destruct (alt_terms x y Halt) as [[Hx Hy]|(a & b & Hx & Hy & Heq)].
  - rewrite Hx. destruct (expect false x) as [g|] eqn:Hg; [|reflexivity].
    destruct (Hemit g eq_refl) as (t & b & Ht & _). congruence.
  - rewrite Hx, Hy, <- (Heq md). destruct (enc md a) as [ba|] eqn:Ea; [apply list_N_eqb_refl|].
    destruct (expect false x) as [g|] eqn:Hg; [|reflexivity].
    destruct (Hemit g eq_refl) as (t & b' & Ht & E). congruence.
Qed.

(* Outside the domain an unjudged case is accepted whatever is observed (C06 says nothing about it), so the only cases on
   which the C06 oracle can reject the model's own output are the judged ones that fail [extra]; the frame check of C07
   accepts the model's output on every case whatsoever (below 2^63 bytes). *)
Theorem c06_unjudged c impl : judged 6 40 c = false -> c06_oracle c impl = true.
Proof.
  unfold judged, c06_oracle. destruct (expect false c) as [g|]; [|reflexivity]. intros Hc. rewrite Hc. reflexivity.
Qed.

Theorem c06_total md c : (judged 6 40 c = true -> extra c = true) -> oracle 6 40 c (run_case md 40 c) = true.
Proof.
  intros H. destruct (judged 6 40 c) eqn:Hj.
  - apply c06_coherent. unfold coh_domain. rewrite Hj, (H eq_refl). reflexivity.
  - exact (c06_unjudged c _ Hj).
Qed.

Theorem c07_frame_all md c :
  (forall b, aml_case md c = [EvBytes b] -> N.of_nat (length b) < 2 ^ 63) -> c07_frame_oracle c (aml_case md c) = true.
Proof.
  intros Hs. unfold aml_case in *. destruct (term_of_sx c) as [t|] eqn:Ht.
  - destruct (enc md t) as [b|] eqn:E; cbn [ev_opt] in *.
    + exact (c07_frame_ok md c t b Ht E (Hs b eq_refl)).
    + unfold c07_frame_oracle. destruct (negb _); reflexivity.
  - unfold c07_frame_oracle. destruct (negb _); reflexivity.
Qed.

Theorem c07_total md c :
  (judged 6 40 c = true -> extra c = true) ->
  (forall b, run_case md 40 c = [EvBytes b] -> N.of_nat (length b) < 2 ^ 63) ->
  oracle 7 40 c (run_case md 40 c) = true.
Proof.
  intros H Hs. change (c07_frame_oracle c (aml_case md c) && oracle 6 40 c (run_case md 40 c) = true).
  rewrite (c06_total md c H), andb_true_r. exact (c07_frame_all md c Hs).
Qed.

(* The size condition of [extra] is needed: a BufferData of 2^28 bytes or more is judged ([expect] does not look at sizes), the
   model refuses it in both profiles (as the crate does: C18), and the C06 oracle counts the refusal as a violation. *)
Definition big_buffer (n : nat) : sx := SL [SA 11; SL (repeat (SA 0) n)].

Lemma sx_nums_repeat n : sx_nums (repeat (SA 0) n) = Some (repeat 0 n).
Proof. induction n as [|n IH]; [reflexivity|]. cbn [repeat sx_nums]. rewrite IH. reflexivity. Qed.

Lemma calls_repeat n : calls_of (SL (repeat (SA 0) n)) = [].
Proof.
  rewrite calls_of_eq. assert (H1 : own_call (repeat (SA 0) n) = []) by (destruct n; reflexivity). rewrite H1. cbn [app]. clear H1.
  induction n as [|n IH]; [reflexivity|]. cbn [repeat flat_map]. rewrite IH. reflexivity.
Qed.

Theorem oversize_refusal_is_rejected md n : 2 ^ 28 <= N.of_nat n < 2 ^ 62 ->
  judged 6 40 (big_buffer n) = true /\ aml_case md (big_buffer n) = [EvPanic] /\
  c06_oracle (big_buffer n) (aml_case md (big_buffer n)) = false.
Proof.
  intros Hn. unfold big_buffer.
  assert (Hb : sx_bytes (SL (repeat (SA 0) n)) = Some (repeat 0 n)) by (cbn [sx_bytes]; apply sx_nums_repeat).
  assert (Hg : expect false (SL [SA 11; SL (repeat (SA 0) n)]) = Some (GBuffer (GInt (N.of_nat (length (repeat 0 n)))) (repeat 0 n))).
  { rewrite ex11, Hb. reflexivity. }
  assert (Hc : env_consistent (SL [SA 11; SL (repeat (SA 0) n)]) = true).
  { rewrite env_consistent_tbl, calls_of_eq. cbn [own_call flat_map app]. rewrite calls_repeat. reflexivity. }
  assert (Hp : aml_case md (SL [SA 11; SL (repeat (SA 0) n)]) = [EvPanic]).
  { unfold aml_case. change (term_of_sx (SL [SA 11; SL (repeat (SA 0) n)])) with (option_map TBufData (sx_bytes (SL (repeat (SA 0) n)))).
    rewrite Hb. cbn [option_map enc]. unfold buffer_data, framed.
    pose proof (enc_usize_len (N.of_nat (length (repeat 0 n)))) as Lu. set (u := enc_usize _) in *.
    rewrite pkg_len_refuse; [reflexivity| |].
    - rewrite app_length, repeat_length. change (2 ^ 62) with 4611686018427387904 in Hn. change (2 ^ 63) with 9223372036854775808. lia.
    - rewrite app_length, repeat_length. change (2 ^ 28) with 268435456 in *. lia. }
  split; [unfold judged; rewrite Hg; exact Hc|]. split; [exact Hp|].
  rewrite Hp. unfold c06_oracle. rewrite Hg, Hc. reflexivity.
Qed.
