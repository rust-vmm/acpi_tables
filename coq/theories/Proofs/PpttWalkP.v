(* PPTT: every accepted addition is a self-describing entry (type u8, length u8) -- the walk instance for C03 --
   and the count / length fields inside the entries hold the true values or the addition is refused (C18).

   Sites (pptt.rs):
     ProcessorNode::to_aml_bytes   byte 1  = self.len() as u8            guarded by assert!(self.len() <= u8::MAX)
                                   dword 16 = self.resources.len() as u32 (cannot exceed 58 once the length fits)
     CacheNode                     byte 1  = CacheNode::len() as u8 = 28  (fixed-size packed struct)
   The model is mode-independent for PPTT entries (`pptt_addition` takes no mode): the statements hold in both profiles. *)
From Coq Require Import NArith List Lia.
From ACPI Require Import Lib.Bytes Lib.Sx Lib.Machine Impl.Table Impl.Pptt Spec.Layout Proofs.TableP
  Proofs.WalkP Proofs.Tables Proofs.PpttP Proofs.WalkW3Common Proofs.BaseP Proofs.PpttStructP.
Import ListNotations.
Open Scope N_scope.

(* the number of add_cache(&handle) calls among the builders of an add_processor op = the true number of private resources *)
Definition is_add_cache (b : sx) : bool := match b with SL [SA 6; _] => true | _ => false end.
Definition pptt_resources (bs : list sx) : nat := length (filter is_add_cache bs).

Lemma pptt_new_empty c s0 : pptt_new c = Some s0 -> t_ents s0 = [].
Proof. exact (plain_new_empty KPptt _ _ c s0). Qed.

Lemma pptt_addition_self s o e : pptt_addition s o = Some e -> exists ty, self_describing H_u8_u8 (a_bytes e) ty.
Proof. intros H. apply pptt_addition_cases in H as (d & _ & Hfit & ->). eexists. exact (pptt_node_self d Hfit). Qed.

Definition pptt_walk : walktable :=
  {| wt_table := pptt_table; wt_ehdr := H_u8_u8; wt_self := pptt_addition_self; wt_new_empty := pptt_new_empty |}.

(* C18 for every PPTT addition (processor or cache): the length byte is the number of bytes the entry occupies *)
Lemma pptt_length_exact s o e : pptt_addition s o = Some e -> field_at (a_bytes e) 1 1 = N.of_nat (length (a_bytes e)).
Proof. exact (walktable_entry_len_field pptt_walk 1 0 1 s o e eq_refl). Qed.

Lemma pnode_builder_res s p o p' : pnode_builder s p o = Some p' ->
  length (pn_rres p') = ((if is_add_cache o then 1 else 0) + length (pn_rres p))%nat.
Proof.
  unfold pnode_builder. intros H. break_sx H;
    try (destruct (handle_ref s _); [|discriminate H]; cbn [option_bind] in H);
    apply Some_inj in H; subst p'; reflexivity.
Qed.

Lemma pnode_builders_res s bs : forall p p', pnode_builders s p bs = Some p' ->
  length (pn_rres p') = (pptt_resources bs + length (pn_rres p))%nat.
Proof.
  unfold pptt_resources. induction bs as [|o bs IH]; intros p p' H; cbn [pnode_builders] in H.
  - apply Some_inj in H. subst. reflexivity.
  - destruct (pnode_builder s p o) as [p1|] eqn:E; [|discriminate].
    rewrite (IH _ _ H), (pnode_builder_res _ _ _ _ E). cbn [filter]. destruct (is_add_cache o); cbn [length]; lia.
Qed.

(* the node of an accepted add_processor: one private resource per add_cache call, and it fits the length byte *)
Lemma pptt_proc_cases s parent uid bs e : pptt_addition s (SL [SA 1; parent; SA uid; SL bs]) = Some e ->
  exists p, length (pn_rres p) = pptt_resources bs /\ (20 + 4 * pptt_resources bs <= 255)%nat /\ e = pptt_node_addition (NProc p).
Proof.
  intros H. apply pptt_addition_cases in H as (d & Hop & Hfit & ->). inversion Hop as [? ? ? p0 p E0 E1|]; subst.
  apply pnode_new_cases in E0 as (par & _ & ->). pose proof (pnode_builders_res _ _ _ _ E1) as Hres.
  cbn [pn_rres length] in Hres. cbn [pptt_node_size] in Hfit.
  exists p. split; [lia|]. split; [lia|reflexivity].
Qed.

(* C18, processor node: the one-byte length and the private-resource count are the true values *)
Lemma pptt_proc_exact s parent uid bs e : pptt_addition s (SL [SA 1; parent; SA uid; SL bs]) = Some e ->
  field_at (a_bytes e) 1 1 = N.of_nat (length (a_bytes e)) /\
  N.of_nat (length (a_bytes e)) = 20 + 4 * N.of_nat (pptt_resources bs) /\
  field_at (a_bytes e) 16 4 = N.of_nat (pptt_resources bs).
Proof.
  intros H. split; [exact (pptt_length_exact _ _ _ H)|].
  destruct (pptt_proc_cases _ _ _ _ _ H) as (p & Hres & Hfit & ->). cbn [pptt_node_addition a_bytes].
  rewrite pptt_node_length. cbn [pptt_node_size]. rewrite <- Hres in *. split; [lia|].
  apply (pptt_node_field_below (NProc p) 16 4 _ 4294967296 eq_refl eq_refl). lia.
Qed.

(* C18, processor node: a node whose length does not fit the byte is refused (both build profiles: no mode is involved) *)
Lemma pptt_proc_refuses s parent uid bs : 2 ^ 8 <= 20 + 4 * N.of_nat (pptt_resources bs) ->
  pptt_addition s (SL [SA 1; parent; SA uid; SL bs]) = None.
Proof.
  intros Hbig. apply no_Some_None. intros e E.
  destruct (pptt_proc_cases _ _ _ _ _ E) as (p & _ & Hfit & _). change (2 ^ 8) with 256 in Hbig. lia.
Qed.

Corollary pptt_proc_count_refuses s parent uid bs : 2 ^ 32 <= N.of_nat (pptt_resources bs) ->
  pptt_addition s (SL [SA 1; parent; SA uid; SL bs]) = None.
Proof. intros H. apply pptt_proc_refuses. change (2 ^ 32) with 4294967296 in H. change (2 ^ 8) with 256. lia. Qed.

Corollary pptt_proc_refuses_step md s parent uid bs : 2 ^ 8 <= 20 + 4 * N.of_nat (pptt_resources bs) ->
  pptt_step md s (SL [SA 1; parent; SA uid; SL bs]) = None.
Proof. intros H. apply add_step_refused. now apply pptt_proc_refuses. Qed.

Lemma pptt_cache_exact s st e : pptt_addition s (SL [SA 2; SL st]) = Some e ->
  field_at (a_bytes e) 1 1 = 28 /\ length (a_bytes e) = 28%nat.
Proof.
  intros H. rewrite (pptt_length_exact _ _ _ H). apply pptt_addition_cases in H as (d & Hop & _ & ->).
  inversion Hop as [|? fl nl sz sets asso attr ls id E]; subst. cbn [pptt_node_addition a_bytes]. rewrite pptt_node_length.
  split; reflexivity.
Qed.

(* C03 for the PPTT: the instance of the registry theorem *)
Theorem pptt_tiles md c ops s0 s :
  pptt_new c = Some s0 -> run_adds pptt_addition md s0 ops = Some s -> N.of_nat (length (tbl_image s)) < 2 ^ 32 ->
  exists tys,
    Forall2 (self_describing H_u8_u8) (t_ents s) tys /\
    walk (length (t_ents s)) H_u8_u8 36 (skipn 36 (tbl_image s)) = Some (walk_result 36 (t_ents s) tys) /\
    concat (t_ents s) = skipn 36 (tbl_image s) /\
    t_cnt s = N.of_nat (length (t_ents s)).
Proof.
  intros Hn Hr Hfit. pose proof (walktable_tiles pptt_walk md c ops s0 s Hn Hr Hfit) as H. cbv zeta in H.
  destruct (addtable_reach pptt_table md c ops s0 s Hn Hr Hfit) as (_ & Hk & _). cbn [at_kind pptt_table] in Hk.
  rewrite Hk in H. cbn [mid length Nat.add] in H. exact H.
Qed.

(* fixtures of the boundary tests pw_test_* below: a processor node with n private resources on a fresh table *)
Definition pw_ctor : sx := SL [SL (map SA [65;66;67;68;69;70]); SL (map SA [1;2;3;4;5;6;7;8]); SA 1].
Definition pw_s0 : tbl := match pptt_new pw_ctor with Some s => s | None => tbl_new KPptt {| h_sig := []; h_rev := 0; h_oem := []; h_tbl := []; h_orev := 0 |} [] end.
Definition pw_proc (n : nat) : sx := SL [SA 1; SL []; SA 7; SL (repeatN (SL [SA 6; SA 36]) n)].

Example pw_test_58_accepted :
  option_map (fun e => (field_at (a_bytes e) 1 1, field_at (a_bytes e) 16 4, length (a_bytes e))) (pptt_addition pw_s0 (pw_proc 58))
  = Some (252, 58, 252%nat).
Proof. vm_compute. reflexivity. Qed.
Example pw_test_59_refused : pptt_addition pw_s0 (pw_proc 59) = None /\ pptt_step Checked pw_s0 (pw_proc 59) = None /\ pptt_step Wrapping pw_s0 (pw_proc 59) = None.
Proof. vm_compute. auto. Qed.
Example pw_test_64_refused : pptt_addition pw_s0 (pw_proc 64) = None /\ pptt_addition pw_s0 (pw_proc 300) = None.
Proof. vm_compute. auto. Qed.

Print Assumptions pptt_addition_self.
Print Assumptions pptt_new_empty.
Print Assumptions pptt_proc_exact.
Print Assumptions pptt_proc_refuses.
Print Assumptions pptt_proc_count_refuses.
Print Assumptions pptt_proc_refuses_step.
Print Assumptions pptt_cache_exact.
Print Assumptions pptt_length_exact.
Print Assumptions pptt_tiles.
