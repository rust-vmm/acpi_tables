(* CEDT: the table-specific obligations of the generic history invariant, and the CFMWS window-restrictions theorem
   (the restrictions word is the union of the bits of the builders invoked, in any order and with repetitions). *)
From Coq Require Import ZArith List Lia Bool.
From ACPI Require Import Lib.Bytes Lib.Sx Lib.Machine Impl.Table Impl.Fields Impl.Cedt Spec.Layout Spec.CedtS Proofs.TableP
  Proofs.Tables Proofs.FlagsP Proofs.BaseP Proofs.CedtStructP.
Import ListNotations.
Open Scope N_scope.

Lemma cedt_new_inv c s0 : cedt_new c = Some s0 -> Inv2 KCedt s0.
Proof. intros H. exact (plain_new_inv KCedt _ _ c s0 H eq_refl). Qed.

(* CxlHostBridge::len() = 32 = bytes written; PortAssociation::len() = 17 = bytes written *)
Lemma chbs_len uid ver base vl : length (chbs_bytes uid ver base vl) = 32%nat.
Proof. reflexivity. Qed.
Lemma rdpas_len seg b proto base : length (rdpas_bytes seg b proto base) = 17%nat.
Proof. reflexivity. Qed.

(* the claimed size is the number of bytes written: for the CFMWS because the serialiser asserts one target per way
   (`cedt_rec_claimed_size`) *)
Lemma cedt_addition_sound s o e : t_kind s = KCedt -> cedt_addition s o = Some e ->
  a_claimed e = N.of_nat (length (a_bytes e)) /\
  (needs_pos (t_kind s) = true -> (1 <= length (a_bytes e))%nat /\ a_claimed e < 2 ^ 16).
Proof.
  intros Hk H. split; [|rewrite Hk; discriminate].
  apply cedt_addition_cases in H as (d & _ & Hok & Ha & ->). cbn [cedt_rec_addition a_claimed a_bytes].
  rewrite (cedt_rec_claimed_size d Ha), (cedt_rec_length d Hok). reflexivity.
Qed.

Definition cedt_table : addtable :=
  {| at_name := [67; 69; 68; 84]; at_kind := KCedt; at_new := cedt_new; at_entry := cedt_addition;
     at_new_inv := cedt_new_inv; at_sound := cedt_addition_sound |}.

(* C01, C02 for the CEDT *)
Corollary cedt_history md c ops s0 s :
  cedt_new c = Some s0 -> run_adds cedt_addition md s0 ops = Some s -> N.of_nat (length (tbl_image s)) < 2 ^ 32 ->
  sum8 (tbl_image s) = 0 /\ field_at (tbl_image s) 4 4 = N.of_nat (length (tbl_image s)).
Proof. exact (addtable_sum_len cedt_table md c ops s0 s). Qed.

(* C11, CFMWS window restrictions: cedt.rs `window_restrictions` starts at 0 and every builder does `|= bit` *)
Lemma restr_apply_big bits : restr_apply bits = big_or bits.
Proof. unfold restr_apply. now rewrite fold_lor_big. Qed.

Lemma restr_apply_snoc bits b : restr_apply (bits ++ [b]) = N.lor (restr_apply bits) b.
Proof. unfold restr_apply. rewrite fold_left_app. reflexivity. Qed.

Lemma restr_apply_app l1 l2 : restr_apply (l1 ++ l2) = N.lor (restr_apply l1) (restr_apply l2).
Proof. unfold restr_apply. now rewrite fold_left_app, fold_lor_big, <- restr_apply_big. Qed.

(* the word depends only on WHICH builders were invoked: any order, any number of repetitions (`lor_fold_set`) *)
Corollary restr_apply_perm_examples b c l : restr_apply (b :: c :: l) = restr_apply (c :: b :: l) /\ restr_apply (b :: b :: l) = restr_apply (b :: l).
Proof.
  split; apply lor_fold_set; intros x; cbn [In]; tauto.
Qed.

(* Impl <-> Spec: the lor-fold is the sum of the specification bits of exactly the builders invoked *)
Definition restr_val (f1 f2 f3 f4 f5 : bool) : N :=
  (if f1 then 1 else 0) + (if f2 then 2 else 0) + (if f3 then 4 else 0) + (if f4 then 8 else 0) + (if f5 then 16 else 0).

Lemma lor_restr_val k v f1 f2 f3 f4 f5 : restr_bit k = Some v ->
  N.lor (restr_val f1 f2 f3 f4 f5) v =
  restr_val (f1 || (k =? 1)) (f2 || (k =? 2)) (f3 || (k =? 3)) (f4 || (k =? 4)) (f5 || (k =? 5)).
Proof.
  unfold restr_bit. intros H. split_matches H; inversion H; subst; destruct f1, f2, f3, f4, f5; reflexivity.
Qed.

Lemma cedt_invoked_cons j k rest : cedt_invoked j (SL [SA k] :: rest) = (k =? j) || cedt_invoked j rest.
Proof. reflexivity. Qed.

Lemma fold_lor_restr_val builders : forall bits f1 f2 f3 f4 f5,
  sx_list_all restr_builder builders = Some bits ->
  fold_left N.lor bits (restr_val f1 f2 f3 f4 f5) =
  restr_val (f1 || cedt_invoked 1 builders) (f2 || cedt_invoked 2 builders) (f3 || cedt_invoked 3 builders)
            (f4 || cedt_invoked 4 builders) (f5 || cedt_invoked 5 builders).
Proof.
  induction builders as [|b builders IH]; intros bits f1 f2 f3 f4 f5 H; cbn [sx_list_all] in H.
  - inversion H; subst. cbn [fold_left cedt_invoked existsb]. now rewrite !orb_false_r.
  - destruct (restr_builder b) as [v|] eqn:Eb; [|discriminate].
    destruct (sx_list_all restr_builder builders) as [r|] eqn:Er; [|discriminate]. inversion H; subst. clear H.
    cbn [fold_left]. unfold restr_builder in Eb.
    destruct b as [|[|[k|] [|]]]; try discriminate.
    rewrite (lor_restr_val k v) by exact Eb. rewrite (IH r) by reflexivity.
    rewrite !cedt_invoked_cons, !orb_assoc. reflexivity.
Qed.

Lemma restr_val_small f1 f2 f3 f4 f5 : restr_val f1 f2 f3 f4 f5 < 32.
Proof. destruct f1, f2, f3, f4, f5; reflexivity. Qed.

(* the word the Impl model writes = the restrictions value of the Spec layer (bits b0 type-2, b1 type-3, b2 volatile,
   b3 persistent, b4 fixed configuration of exactly the builders invoked) *)
Theorem cfmws_restrictions_spec builders bits :
  sx_list_all restr_builder builders = Some bits -> restr_apply bits = cedt_restrictions builders.
Proof.
  intros H. unfold restr_apply. change 0 with (restr_val false false false false false).
  rewrite (fold_lor_restr_val builders bits) by exact H. reflexivity.
Qed.

Lemma cedt_restrictions_small builders : cedt_restrictions builders < 32.
Proof. exact (restr_val_small _ _ _ _ _). Qed.

(* C11 for the CFMWS, model side: the word at offset 32 of the structure is the N.lor-fold of the builders' bits *)
Theorem cfmws_restrictions_field builders bits base size ways arith gran qtg nw tg :
  sx_list_all restr_builder builders = Some bits ->
  field_at (cfmws_bytes base size ways arith gran (restr_apply bits) qtg nw tg) 32 2 = fold_left N.lor bits 0.
Proof.
  intros H. change (fold_left N.lor bits 0) with (restr_apply bits).
  apply (cedt_rec_field_below (RCfmws base size ways arith gran (restr_apply bits) qtg nw tg) 32 2 _ 65536 eq_refl eq_refl).
  rewrite (cfmws_restrictions_spec builders bits H). pose proof (cedt_restrictions_small builders). lia.
Qed.
