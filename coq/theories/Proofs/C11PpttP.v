(* C11, PPTT: cache type structure (a field list with two flag fields: the eight "valid" bits and the attribute sub-fields)
   and processor hierarchy node (a record whose option calls are interleaved with add_cache and the three pub-field
   assignments).  The theorems about the emitted bytes are c11_pptt_* in Props/C11.v. *)
From Coq Require Import NArith List Bool.
From ACPI Require Import Lib.Bytes Lib.Sx Lib.Machine Impl.Table Impl.Fields Impl.Pptt Spec.OptionsS
  Proofs.FadtP Proofs.C11CommonP.
Import ListNotations.
Open Scope N_scope.

Definition CACHE_WS : list nat := Eval vm_compute in widths cache_default.
(* CacheNodeBuilder::default().to_node() *)
Definition CACHE_BLANK : list N := Eval vm_compute in ser_flds cache_default.

Lemma alloc_bits_spec e : alloc_bits e = cache_alloc_field e.
Proof. destruct e as [|[[p|p|]|[p|p|]|]]; reflexivity. Qed.
Lemma ctype_bits_spec e : ctype_bits e = cache_type_field e.
Proof. destruct e as [|[[p|p|]|[p|p|]|]]; reflexivity. Qed.
Lemma policy_bits_spec e : policy_bits e = cache_policy_field e.
Proof. destruct e as [|[[p|p|]|[p|p|]|]]; reflexivity. Qed.

(* one call: its valid bit goes into the Flags dword and it writes no other field outside the range it governs; its
   enumerated option (if any) goes into the attributes byte *)
Lemma cache_step s f o f' : cache_setter s f o = Some f' ->
  (exists b, writes 3 (fun k => In (fld_range CACHE_WS k) (cache_call_ranges o)) f b f' /\ b = cache_valid_bit o) /\
  (exists c, writes 8 (fun _ => True) f c f' /\ c = cache_attr_bits o).
Proof.
  revert f'. apply opt_case. unfold cache_setter.
  dmatch_goal; try (destruct (handle_ref s _); [|exact I]); cbv beta iota delta [option_bind];
    cbn [cache_valid_bit cache_attr_bits cache_call_ranges];
    rewrite <- ?alloc_bits_spec, <- ?ctype_bits_spec, <- ?policy_bits_spec;
    split; eexists; (split; [writes_tac|dmatch_goal; reflexivity]).
Qed.

Lemma cache_valid_bit_small o : cache_valid_bit o < 2 ^ (8 * N.of_nat (fwid CACHE_WS 3)).
Proof. unfold cache_valid_bit. dmatch_goal; reflexivity. Qed.

Lemma cache_attr_bits_small o : cache_attr_bits o < 2 ^ 8.
Proof.
  unfold cache_attr_bits. dmatch_goal; try reflexivity;
    rewrite <- ?alloc_bits_spec, <- ?ctype_bits_spec, <- ?policy_bits_spec;
    unfold alloc_bits, ctype_bits, policy_bits; dmatch_goal; reflexivity.
Qed.

(* the valid bit k-1 is carried by exactly the calls of setter k *)
Lemma cache_valid_bit_gate k o : In k [1; 2; 3; 4; 5; 6; 7; 8] -> N.testbit (cache_valid_bit o) (k - 1) = cache_supplies k o.
Proof.
  intros Hk. cbn [In] in Hk.
  destruct Hk as [<-|[<-|[<-|[<-|[<-|[<-|[<-|[<-|[]]]]]]]]]; unfold cache_valid_bit, cache_supplies; dmatch_goal; reflexivity.
Qed.

(* distinctness: eight different single valid bits; the three attribute sub-fields occupy disjoint bit groups (1:0, 3:2, 4) and
   map the values of each enumeration injectively *)
Lemma cache_options_distinct :
  distinct_single_bits cache_valid_table && below (2 ^ 32) cache_valid_table = true /\
  map cache_alloc_field [0; 1; 2] = [0; 1; 2] /\ map cache_type_field [0; 1; 2] = [0; 4; 8] /\ map cache_policy_field [0; 1] = [0; 16].
Proof. repeat split; reflexivity. Qed.

Definition pn_reflag (p : pnode) (a : N) : pnode :=
  {| pn_flags := a; pn_parent := pn_parent p; pn_uid := pn_uid p; pn_rres := pn_rres p |}.

(* one call: the flags word evolves as the specification says; an option call touches nothing else; any other call does
   what it does whatever the flags are *)
Lemma pnode_step s p o p' : pnode_builder s p o = Some p' ->
  pn_flags p' = pnode_flags_after (pn_flags p) o /\
  forall a, if pnode_is_option o then pn_reflag p' a = pn_reflag p a
            else pnode_builder s (pn_reflag p a) o = Some (pn_reflag p' (pnode_flags_after a o)).
Proof.
  revert p'. apply opt_case. unfold pnode_builder.
  dmatch_goal; try (destruct (handle_ref s _) as [c|] eqn:Eh; [|exact I]);
    (split; [|intros a]); cbn; rewrite ?N.lor_0_r, ?Eh; reflexivity.
Qed.

Definition pnode_nonoption (o : sx) : bool := negb (pnode_is_option o).

(* without a direct assignment of node.flags the fold is the plain union *)
Lemma pnode_flags_union bs : forall a, forallb (fun o => negb (pnode_assigns_flags o)) bs = true ->
  fold_left pnode_flags_after bs a = N.lor a (big_or (map pnode_call_bit bs)).
Proof.
  induction bs as [|o bs IH]; intros a H; cbn [fold_left map big_or fold_right]; [now rewrite N.lor_0_r|].
  cbn [forallb] in H. apply andb_true_iff in H. destruct H as [Ho Hb].
  fold (big_or (map pnode_call_bit bs)). rewrite IH by exact Hb. rewrite N.lor_assoc. f_equal.
  unfold pnode_flags_after, pnode_assigns_flags in *. dmatch_goal; try reflexivity; discriminate Ho.
Qed.

Lemma pnode_call_bit_small o : pnode_call_bit o < 2 ^ 32.
Proof. unfold pnode_call_bit. dmatch_goal; reflexivity. Qed.

Definition pnode_post (p : pnode) : list N :=
  d4 (pn_parent p) ++ d4 (pn_uid p) ++ d4 (N.of_nat (length (pn_rres p))) ++ pp_dwords (frev (pn_rres p)).

Lemma pnode_options_distinct : distinct_single_bits pnode_option_table && below (2 ^ 32) pnode_option_table = true.
Proof. reflexivity. Qed.
