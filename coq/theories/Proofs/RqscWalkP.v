(* RQSC nested walk (property C03): for every history the Impl model of rqsc.rs accepts, in both build profiles, the two-level
   walker of Spec/RqscWalkS.v applied to the MODEL image finds exactly the controllers that were added, in order, each with
   exactly the resources it was given (type codes and sizes), every inner walk lands on its controller's end and the outer
   walk on the end of the image; ControllerCount (offset 36) is the number of controllers and every controller's ResourceCount
   is the number of resources the inner walk finds.  There is no side condition: the checked u16 / u32 additions of
   add_resource / update_header keep every length field exact on accepted histories.
   A controller enters as a description (`cdesc`, `cd_ok`) of which the walker's lemmas speak without the model; what the model
   builds has one (`qos_of_sx_desc`), and so has a reference controller, being the bytes of one the model builds
   (`rqsc_entry_good`, used by Proofs/WalkRefTablesP.v for C03 on the reference image). *)
From Coq Require Import NArith List Lia Arith Bool.
From ACPI Require Import Lib.Bytes Lib.Sx Lib.Machine Impl.Table Impl.Fields Impl.Gas Impl.Rqsc Spec.Layout
  Spec.GasS Spec.RqscS Spec.RqscWalkS Spec.SelfCheck Proofs.WalkRefCommon2P Proofs.SelfCommonP Proofs.TableP Proofs.WalkP Proofs.WalkW3Common Proofs.RqscP Proofs.RqscRefP Proofs.BaseP.
Import ListNotations.
Open Scope N_scope.

(* a controller's bytes with what they are made of; [cd_count] is what its ResourceCount field holds *)
Record cdesc := { cd_bytes : list N; cd_ty : N; cd_count : N; cd_res : list (list N); cd_rtys : list N }.

Definition cd_ok (d : cdesc) : Prop :=
  self_describing H_u8_x_u16 (cd_bytes d) (cd_ty d) /\
  (exists fx, length fx = RQ_CTRL_FIXED /\ cd_bytes d = fx ++ concat (cd_res d)) /\
  Forall2 (self_describing H_u8_x_u16) (cd_res d) (cd_rtys d) /\
  field_at (cd_bytes d) 26 2 = cd_count d.

Fixpoint walk2_result (off : nat) (ds : list cdesc) : list rq_ctrl :=
  match ds with
  | [] => []
  | d :: r =>
      {| rc_type := cd_ty d; rc_off := off; rc_len := length (cd_bytes d); rc_count := cd_count d;
         rc_res := walk_result (RQ_CTRL_FIXED + off) (cd_res d) (cd_rtys d) |}
      :: walk2_result (length (cd_bytes d) + off) r
  end.

(* [Some]: every inner walk and the outer walk land exactly on their ends *)
Lemma walk2_concat : forall ds off fuel,
  Forall cd_ok ds -> (length ds <= fuel)%nat ->
  rqsc_walk_ctrls fuel off (concat (map cd_bytes ds)) = Some (walk2_result off ds).
Proof.
  induction ds as [|d ds IH]; intros off fuel HF Hfuel.
  - cbn [map concat]. destruct fuel; reflexivity.
  - inversion HF as [|? ? Hd HF']; subst. destruct Hd as ([Hpos Hrd] & (fx & Hfx & Hbytes) & Hres & Hcnt).
    cbn [map concat length] in *. destruct fuel as [|f]; [lia|].
    set (e := cd_bytes d) in *. set (rest := concat (map cd_bytes ds)).
    specialize (Hrd rest).
    destruct (e ++ rest) as [|x l] eqn:El; [destruct e; [cbn [length] in Hpos; lia|discriminate El]|].
    cbn [rqsc_walk_ctrls]. rewrite Hrd, <- El.
    assert (Hlen : length e = (RQ_CTRL_FIXED + length (concat (cd_res d)))%nat) by (rewrite Hbytes, app_length, Hfx; reflexivity).
    assert (E0 : Nat.ltb (length e) RQ_CTRL_FIXED = false) by (apply Nat.ltb_ge; lia).
    rewrite firstn_app_exact, Nat.eqb_refl, E0. cbn [orb negb].
    rewrite skipn_app_exact.
    assert (Hsk : skipn RQ_CTRL_FIXED e = concat (cd_res d)) by (rewrite Hbytes, <- Hfx; apply skipn_app_exact).
    rewrite Hsk.
    rewrite (walk_concat H_u8_x_u16 (cd_res d) (cd_rtys d) (RQ_CTRL_FIXED + off) (S (length e)) Hres).
    2:{ pose proof (concat_len_ge _ (self_describing_nonempty _ _ _ Hres)). lia. }
    unfold rest. rewrite (IH (length e + off)%nat f HF') by lia.
    cbn [walk2_result]. fold e. rewrite Hcnt. reflexivity.
Qed.

(* 22: the per-entry check of Spec/SelfCheck.v for an RQSC controller *)
Lemma cd_good d : cd_ok d -> cd_count d = N.of_nat (length (cd_res d)) -> entry_good H_u8_x_u16 22 sp_ty (cd_bytes d).
Proof.
  intros (Hs & (fx & Hfx & Hb) & Hres & Hcnt) Hn. pose proof (proj1 Hs) as Hpos. change RQ_CTRL_FIXED with 28%nat in Hfx.
  assert (Hty : cd_ty d = sp_ty (cd_bytes d)).
  { unfold sp_ty. rewrite nth0_field by exact Hpos. exact (self_ty_field H_u8_x_u16 1 1 2 _ _ eq_refl Hs). }
  split; [rewrite <- Hty; exact Hs|].
  assert (Hself : rqsc_controller_self (cd_bytes d) = true).
  { assert (Hlen : length (cd_bytes d) = (28 + length (concat (cd_res d)))%nat) by (rewrite Hb, app_length, Hfx; reflexivity).
    unfold rqsc_controller_self. rewrite Hcnt, Hn.
    replace (skipn 28 (cd_bytes d)) with (concat (cd_res d)) by (rewrite Hb, <- Hfx; symmetry; apply skipn_app_exact).
    rewrite (walk_concat H_u8_x_u16 _ _ 28 _ Hres).
    - rewrite walk_result_length by exact (eq_sym (Forall2_length _ _ _ Hres)). rewrite N.eqb_refl, andb_true_r. apply Nat.leb_le. lia.
    - pose proof (concat_len_ge _ (self_describing_nonempty _ _ _ Hres)). lia. }
  cbn [entry_self_ok]. rewrite Hself. destruct (sp_ty (cd_bytes d)) as [|[p|p|]]; reflexivity.
Qed.

Lemma walk_result_tiles h : forall es tys off,
  Forall2 (self_describing h) es tys -> items_tile off (walk_result off es tys) (length (concat es) + off).
Proof.
  induction es as [|e es IH]; intros tys off HF; inversion HF as [|? t ? ts [Hp _] HF']; subst.
  - reflexivity.
  - cbn [walk_result items_tile concat]. split; [reflexivity|]. split; [exact Hp|].
    rewrite app_length. replace (length e + length (concat es) + off)%nat with (length (concat es) + (length e + off))%nat by lia.
    apply IH. exact HF'.
Qed.

Lemma walk_result_shape : forall es tys off, length es = length tys ->
  map (fun it : N * nat * nat => (fst (fst it), snd it)) (walk_result off es tys) = combine tys (map (@length N) es).
Proof.
  induction es as [|e es IH]; intros [|t ts] off H; cbn [length] in H; try discriminate; [reflexivity|].
  cbn [walk_result map combine fst snd]. f_equal. apply IH. lia.
Qed.

Definition cd_shape (d : cdesc) : N * nat * list (N * nat) :=
  (cd_ty d, length (cd_bytes d), combine (cd_rtys d) (map (@length N) (cd_res d))).

Lemma walk2_result_spec : forall ds off, Forall cd_ok ds ->
  ctrls_tile off (walk2_result off ds) (length (concat (map cd_bytes ds)) + off) /\
  rq_shape (walk2_result off ds) = map cd_shape ds /\
  length (walk2_result off ds) = length ds /\
  (Forall (fun d => cd_count d = N.of_nat (length (cd_res d))) ds ->
   Forall (fun c => rc_count c = N.of_nat (length (rc_res c))) (walk2_result off ds)).
Proof.
  induction ds as [|d ds IH]; intros off HF; inversion HF as [|? ? Hd HF']; subst.
  - repeat split. constructor.
  - destruct Hd as (_ & (fx & Hfx & Hbytes) & Hres & _). pose proof (eq_sym (Forall2_length _ _ _ Hres)) as Hlr.
    destruct (IH (length (cd_bytes d) + off)%nat HF') as (IHt & IHs & IHl & IHc).
    assert (Hlen : length (cd_bytes d) = (RQ_CTRL_FIXED + length (concat (cd_res d)))%nat) by (rewrite Hbytes, app_length, Hfx; reflexivity).
    unfold rq_shape in *. cbn [walk2_result ctrls_tile map concat length rc_off rc_len rc_res rc_type rc_count].
    split; [|split; [|split]].
    + split; [reflexivity|]. split; [lia|]. split.
      * rewrite Hlen. replace (RQ_CTRL_FIXED + length (concat (cd_res d)) + off)%nat
          with (length (concat (cd_res d)) + (RQ_CTRL_FIXED + off))%nat by lia.
        exact (walk_result_tiles H_u8_x_u16 _ _ _ Hres).
      * rewrite app_length. replace (length (cd_bytes d) + length (concat (map cd_bytes ds)) + off)%nat
          with (length (concat (map cd_bytes ds)) + (length (cd_bytes d) + off))%nat by lia.
        exact IHt.
    + rewrite IHs. f_equal. unfold cd_shape. f_equal. exact (walk_result_shape _ _ _ Hlr).
    + now rewrite IHl.
    + intros HC. inversion HC as [|? ? Hc HC']; subst. constructor; [|exact (IHc HC')].
      cbn [rc_count rc_res]. rewrite walk_result_length by exact Hlr. exact Hc.
Qed.

Lemma resid_size_agrees id i : resid_of_sx id = Some i -> resid_size id = Some (length (ri_payload i)).
Proof.
  unfold resid_of_sx. intros H.
  break_sx H; cbn [resid_size].
  (* the identifiers of fixed size *)
  all: try (apply Some_inj in H; subst i; cbn [ri_payload]; unfold d4, q8; rewrite !app_length, !length_le; reflexivity).
  (* the one that carries a byte string *)
  destruct (sx_bytes _) as [bs|]; [|discriminate H]. cbn [option_bind option_map] in *.
  apply Some_inj in H; subst i; cbn [ri_payload]. now rewrite map_length.
Qed.

Lemma ser_resource_length r : length (ser_resource r) = (8 + length (ri_payload (rs_id r)))%nat.
Proof. unfold ser_resource, b1, w2. rewrite !app_length, !length_le. reflexivity. Qed.

Lemma resource_self x r : resource_of_sx x = Some r ->
  self_describing H_u8_x_u16 (ser_resource r) (rs_type r mod 256) /\
  resource_expect x = Some (rs_type r mod 256, length (ser_resource r)).
Proof.
  intros H. pose proof (resource_of_sx_ok x r H) as [Hl Hlt]. split.
  - unfold ser_resource in *. apply (spine_self H_u8_x_u16 1 1 2 _ (b1 _)); auto.
  - unfold resource_of_sx in H.
    destruct x as [|[|[rtype|] [|[rflags|] [|id [|]]]]]; try discriminate H.
    apply bind_Some in H as (i & Ei & H).
    unfold resource_new, assert in H.
    match type of H with option_bind (if ?c then _ else _) _ = _ => destruct c; [|discriminate H] end.
    cbn [option_bind] in H. apply Some_inj in H. subst r.
    cbn [resource_expect]. rewrite (resid_size_agrees id i Ei). cbn [option_map rs_type].
    rewrite ser_resource_length. reflexivity.
Qed.

Definition cdesc_of (q : qosc) : cdesc :=
  {| cd_bytes := ser_qos q; cd_ty := q_type q mod 256; cd_count := q_nres q;
     cd_res := map ser_resource (rev (q_rres q));
     cd_rtys := map (fun r => rs_type r mod 256) (rev (q_rres q)) |}.

Lemma resources_expect l rs : Forall2 (fun x r => resource_of_sx x = Some r) l rs ->
  Forall2 (self_describing H_u8_x_u16) (map ser_resource rs) (map (fun r => rs_type r mod 256) rs) /\
  opt_seq (map resource_expect l) = Some (map (fun r => (rs_type r mod 256, length (ser_resource r))) rs).
Proof.
  induction 1 as [|x r l rs Hx _ [IH1 IH2]]; [split; [constructor|reflexivity]|].
  destruct (resource_self x r Hx) as [Hs He]. split; [constructor; assumption|].
  cbn [map opt_seq]. rewrite He, IH2. reflexivity.
Qed.

Lemma combine_map2 {A B C} (f : A -> B) (g : A -> C) l : combine (map f l) (map g l) = map (fun x => (f x, g x)) l.
Proof. induction l as [|a l IH]; [reflexivity|]. cbn [map combine]. now rewrite IH. Qed.

Lemma length_concat_sum {A} (es : list (list A)) : length (concat es) = list_sum (map (@length A) es).
Proof. induction es as [|e es IH]; [reflexivity|]. cbn [concat map list_sum]. now rewrite app_length, IH. Qed.

Lemma qos_of_sx_desc o q : qos_of_sx o = Some q ->
  cd_ok (cdesc_of q) /\ cd_count (cdesc_of q) = N.of_nat (length (cd_res (cdesc_of q))) /\
  controller_expect o = Some (cd_shape (cdesc_of q)).
Proof.
  intros H. pose proof (qos_of_sx_inv o q H) as IQ. pose proof (ser_qos_length q IQ) as Hsl. destruct IQ as (_ & _ & Hlt).
  apply qos_of_sx_op in H. destruct H as [ctype g rcid mcid flags res gv rs Eg HF [Hn _]].
  destruct (resources_expect res rs HF) as [Hself Hexp].
  pose proof (ser_qos_push ctype gv rcid mcid flags rs) as Hser.
  pose proof (length_qos_pre ctype (28 + N.of_nat (length (concat (map ser_resource rs)))) g gv rcid mcid flags Eg) as Hpre.
  set (pre := qos_pre _ _ _ _ _ _) in *. set (q := qos_push _ rs) in *.
  assert (Hrev : rev (q_rres q) = rs) by (cbn; rewrite app_nil_r; apply rev_involutive).
  assert (Hlen : length (ser_qos q) = (RQ_CTRL_FIXED + length (concat (map ser_resource rs)))%nat).
  { rewrite Hser. unfold w2. rewrite !app_length, length_le, Hpre. reflexivity. }
  unfold cd_ok, cd_shape, cdesc_of. cbn [cd_bytes cd_ty cd_count cd_res cd_rtys]. rewrite Hrev, map_length.
  split; [split; [|split; [|split]]|split].
  - unfold ser_qos in *. apply (spine_self H_u8_x_u16 1 1 2 _ (b1 _)); auto.
  - exists (pre ++ w2 (q_nres q)). split; [unfold w2; rewrite app_length, length_le, Hpre; reflexivity|].
    rewrite Hser, <- app_assoc. reflexivity.
  - exact Hself.
  - rewrite Hser, (field_at_skip _ _ _ _ Hpre). unfold w2. rewrite field_at_le_app. apply N.mod_small. exact Hn.
  - cbn. now rewrite N.add_0_l.
  - cbn [controller_expect]. rewrite Hexp. cbn [option_map]. rewrite (map_map ser_resource), combine_map2, Hlen.
    rewrite length_concat_sum, !map_map. reflexivity.
Qed.

(* the same for a reference controller, which is the bytes of the controller the model builds (Proofs/RqscRefP.v) *)
Lemma rqsc_entry_good o e : controller_ref o = Some e -> entry_good H_u8_x_u16 22 sp_ty e.
Proof.
  intros H. destruct (controller_agrees o e H) as (q & Hq & <-).
  destruct (qos_of_sx_desc o q Hq) as (Hok & Hn & _). exact (cd_good (cdesc_of q) Hok Hn).
Qed.

Lemma controllers_desc os qs : Forall2 (fun o q => qos_of_sx o = Some q) os qs ->
  Forall cd_ok (map cdesc_of qs) /\
  Forall (fun d => cd_count d = N.of_nat (length (cd_res d))) (map cdesc_of qs) /\
  opt_seq (map controller_expect os) = Some (map cd_shape (map cdesc_of qs)).
Proof.
  induction 1 as [|o q os qs Ho _ (IH1 & IH2 & IH3)]; [repeat split; constructor|].
  destruct (qos_of_sx_desc o q Ho) as (H1 & H2 & H3). cbn [map opt_seq]. rewrite H3, IH3.
  repeat split; try constructor; assumption.
Qed.

Lemma shape_eqb_refl a : shape_eqb a a = true.
Proof.
  assert (Hin : forall rs : list (N * nat), forallb (fun q => match q with ((a1, a2), (b1, b2)) => (a1 =? b1) && Nat.eqb a2 b2 end) (combine rs rs) = true).
  { induction rs as [|[t n] rs IH]; [reflexivity|]. cbn [combine forallb]. now rewrite N.eqb_refl, Nat.eqb_refl, IH. }
  unfold shape_eqb. rewrite Nat.eqb_refl. cbn [andb].
  induction a as [|[[t n] rs] a IH]; [reflexivity|]. cbn [combine forallb].
  now rewrite N.eqb_refl, !Nat.eqb_refl, Hin, IH.
Qed.

(* C03 for the RQSC: every constructor argument, every accepted history, both build profiles *)
Theorem rqsc_nested_walk md c ops s0 s :
  rqsc_new c = Some s0 -> rqsc_run md s0 ops = Some s ->
  exists found exp,
    (* the two-level walk of the model image succeeds: every inner walk lands on its controller's end, the outer on the image's *)
    rqsc_walk2 (Rqsc.rqsc_image s) = Some found /\
    (* what the caller added (read off the operations alone) ... *)
    rqsc_expected ops = Some exp /\
    (* ... is exactly what the walk found: same controllers in the same order, same type codes and sizes, and inside each the
       same resources in the same order with the same type codes and sizes *)
    rq_shape found = exp /\
    (* the controllers tile [40, end of image) and each controller's resources tile [its offset + 28, its end) *)
    ctrls_tile RQ_FIRST found (length (Rqsc.rqsc_image s)) /\
    (* ControllerCount *)
    field_at (Rqsc.rqsc_image s) 36 4 = N.of_nat (length found) /\
    (* every ResourceCount *)
    Forall (fun rc => rc_count rc = N.of_nat (length (rc_res rc))) found.
Proof.
  intros Hn Hr. destruct (rqsc_history_made md c ops s0 s Hn Hr) as (h & qs & Hh & HF & -> & Hfit).
  destruct (controllers_desc _ _ HF) as (Hok & Hcnt & Hexp).
  set (ds := map cdesc_of qs) in *. set (s := rqsc_made h qs) in *.
  (* the image: 36 header bytes, the count, the controllers *)
  pose proof (rqsc_made_image h qs) as Himg. fold s in Himg. set (ck := Checksum.generate_checksum _) in Himg.
  unfold rqsc_rest in Himg. rewrite app_assoc in Himg.
  replace (map ser_qos qs) with (map cd_bytes ds) in Himg by (unfold ds; now rewrite map_map).
  assert (Hpre : length (hdr_bytes h (r_len s) ck ++ d4 (N.of_nat (length qs))) = RQ_FIRST).
  { unfold d4. rewrite app_length, length_le, (length_hdr_bytes _ _ _ Hh). reflexivity. }
  assert (Hlen : length (Rqsc.rqsc_image s) = (length (concat (map cd_bytes ds)) + RQ_FIRST)%nat).
  { rewrite Himg, app_length, Hpre. lia. }
  pose proof (rqsc_made_length h qs Hh) as Hfit'. fold s in Hfit'. rewrite <- Hfit' in Hfit.
  assert (Hnum : (length ds <= length (concat (map cd_bytes ds)))%nat).
  { rewrite <- (map_length cd_bytes ds). apply concat_len_ge. apply Forall_map.
    eapply Forall_impl; [|exact Hok]. intros d (Hs & _). exact (proj1 Hs). }
  exists (walk2_result RQ_FIRST ds), (map cd_shape ds).
  split; [|split; [|split; [|split; [|split]]]].
  - assert (Hskip : skipn RQ_FIRST (Rqsc.rqsc_image s) = concat (map cd_bytes ds)).
    { rewrite Himg. rewrite <- Hpre. apply skipn_app_exact. }
    unfold rqsc_walk2. rewrite Hskip. apply walk2_concat; [exact Hok|]. rewrite Hlen. lia.
  - exact Hexp.
  - exact (proj1 (proj2 (walk2_result_spec ds RQ_FIRST Hok))).
  - rewrite Hlen. exact (proj1 (walk2_result_spec ds RQ_FIRST Hok)).
  - rewrite (proj1 (proj2 (proj2 (walk2_result_spec ds RQ_FIRST Hok)))). unfold ds at 1. rewrite map_length.
    rewrite Himg, <- app_assoc, (field_at_skip _ _ _ _ (length_hdr_bytes h (r_len s) ck Hh)). unfold d4. rewrite field_at_le_app.
    apply N.mod_small. change (2 ^ (8 * N.of_nat 4)) with (2 ^ 32).
    rewrite Hlen in Hfit. unfold ds in Hnum. rewrite map_length in Hnum. unfold ds in Hfit. lia.
  - exact (proj2 (proj2 (proj2 (walk2_result_spec ds RQ_FIRST Hok))) Hcnt).
Qed.

(* the same as the executable judgement of Spec/RqscWalkS.v answering true on the model image *)
Corollary rqsc_nested_judge_model md c ops s0 s :
  rqsc_new c = Some s0 -> rqsc_run md s0 ops = Some s -> rqsc_nested_judge (Rqsc.rqsc_image s) ops = true.
Proof.
  intros Hn Hr. destruct (rqsc_nested_walk md c ops s0 s Hn Hr) as (found & exp & Hw & He & Hs & _ & Hc & Hrc).
  unfold rqsc_nested_judge. rewrite He, Hw, Hs, shape_eqb_refl, Hc, N.eqb_refl. cbn [andb].
  apply forallb_forall. intros rc Hin. rewrite Forall_forall in Hrc. rewrite (Hrc rc Hin). apply N.eqb_refl.
Qed.

(* non-vacuity: a concrete accepted history (three controllers, 3 + 2 + 0 resources of every id form) *)
Definition rqsc_walk_demo (md : mode) : option (list rq_ctrl * option (list (N * nat * list (N * nat))) * nat * N) :=
  match rqsc_new rqsc_demo_ctor with
  | Some s0 => match rqsc_run md s0 rqsc_demo_ops with
               | Some s => match rqsc_walk2 (Rqsc.rqsc_image s) with
                           | Some found => Some (found, rqsc_expected rqsc_demo_ops, length (Rqsc.rqsc_image s),
                                                 field_at (Rqsc.rqsc_image s) 36 4)
                           | None => None
                           end
               | None => None
               end
  | None => None
  end.

Example rqsc_nested_walk_demo :
  rqsc_walk_demo Checked =
  Some ([ {| rc_type := 0; rc_off := 40; rc_len := 97; rc_count := 3;
             rc_res := [(0, 68%nat, 20%nat); (1, 88%nat, 28%nat); (0, 116%nat, 21%nat)] |};
          {| rc_type := 1; rc_off := 137; rc_len := 68; rc_count := 2; rc_res := [(1, 165%nat, 20%nat); (0, 185%nat, 20%nat)] |};
          {| rc_type := 0; rc_off := 205; rc_len := 28; rc_count := 0; rc_res := [] |} ],
        Some [ (0, 97%nat, [(0, 20%nat); (1, 28%nat); (0, 21%nat)]); (1, 68%nat, [(1, 20%nat); (0, 20%nat)]); (0, 28%nat, []) ],
        233%nat, 3)
  /\ rqsc_walk_demo Wrapping = rqsc_walk_demo Checked.
Proof. split; vm_compute; reflexivity. Qed.

(* the walker is not a rubber stamp: a ResourceCount that disagrees, a resource Length one too large, a controller Length one too
   small, and a truncated image are all rejected by the judgement *)
Definition rqsc_demo_image : list N :=
  match rqsc_new rqsc_demo_ctor with
  | Some s0 => match rqsc_run Checked s0 rqsc_demo_ops with Some s => Rqsc.rqsc_image s | None => [] end
  | None => []
  end.
Example rqsc_nested_judge_rejects :
  rqsc_nested_judge rqsc_demo_image rqsc_demo_ops = true /\
  rqsc_nested_judge (upd rqsc_demo_image 66 4) rqsc_demo_ops = false /\        (* ResourceCount 3 -> 4 *)
  rqsc_nested_judge (upd rqsc_demo_image 70 21) rqsc_demo_ops = false /\       (* first resource Length 20 -> 21 *)
  rqsc_nested_judge (upd rqsc_demo_image 42 96) rqsc_demo_ops = false /\       (* first controller Length 97 -> 96 *)
  rqsc_nested_judge (upd rqsc_demo_image 36 2) rqsc_demo_ops = false /\        (* ControllerCount 3 -> 2 *)
  rqsc_nested_judge (firstn 232 rqsc_demo_image) rqsc_demo_ops = false.
Proof. repeat split; vm_compute; reflexivity. Qed.

Print Assumptions rqsc_nested_walk.
Print Assumptions rqsc_nested_judge_model.
