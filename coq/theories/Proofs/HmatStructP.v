(* HMAT: the structure an add_* call receives (hmat.rs `MemoryProximityDomain`, `SystemLocality`, `MemorySideCache`), as a value
   between the operation and the bytes.  The model's `hmat_addition` is "decode the operation to a structure, check the
   serialiser's assert, serialise" (`hmat_addition_cases` / `_intro`, over `hmat_op`); the Spec's `hmat_entry_ref` lays out a
   structure that it computes without running the builders (`hmat_entry_ref_cases`, over `hmat_ref_op`; that the builder fold
   arrives at the same structure is Proofs/HmatRefP.v).  The layout of a structure is stated once (`hmat_struct_lay`); its
   size, fields and self-description are read off it.  Between the two: what `SystemLocality::new` and the builder calls leave
   of the three vectors (`sysloc_built`), which `hmat_sysloc_exact` and the refusals read.  Every other HMAT file starts from
   these. *)
From Coq Require Import NArith List Lia Bool.
From ACPI Require Import Lib.Bytes Lib.Sx Lib.Machine Impl.Table Impl.Fields Impl.Hmat Spec.Layout Spec.MadtS Spec.HmatS
  Proofs.BaseP Proofs.WalkP Proofs.WalkRefCommon2P.
Import ListNotations.
Open Scope N_scope.

Inductive hmat_struct : Type :=
| HProx (ipd mpd : N)
| HSysloc (sl : sysloc)
| HMsc (pd size attrs : N) (handles : list N).

(* for the memory side cache: what `msc_bytes` returns once its assert has passed *)
Definition hmat_struct_bytes (d : hmat_struct) : list N :=
  match d with
  | HProx ipd mpd => ser_flds (mem_prox ipd mpd)
  | HSysloc sl => sysloc_bytes sl
  | HMsc pd size attrs hs =>
      w2 2 ++ w2 0 ++ d4 (msc_len hs) ++ d4 pd ++ d4 0 ++ q8 size ++ d4 attrs ++ w2 0 ++ w2 (hm_len hs) ++ hm_words hs
  end.

(* the hand-written len() *)
Definition hmat_struct_claimed (d : hmat_struct) : N :=
  match d with HProx _ _ => 40 | HSysloc sl => sysloc_len sl | HMsc _ _ _ hs => msc_len hs end.

Definition hmat_struct_size (d : hmat_struct) : nat :=
  match d with
  | HProx _ _ => 40
  | HSysloc sl => 32 + 4 * length (sl_inits sl) + 4 * length (sl_targets sl) + 2 * length (sl_entries sl)
  | HMsc _ _ _ hs => 32 + 2 * length hs
  end.

(* the asserts of the serialisers: the system locality structure fits its 32-bit length, the handle count its 16 bits *)
Definition hmat_struct_asserts (d : hmat_struct) : Prop :=
  match d with
  | HProx _ _ => True
  | HSysloc _ => N.of_nat (hmat_struct_size d) < 2 ^ 32
  | HMsc _ _ _ hs => N.of_nat (length hs) <= 65535
  end.

Definition hmat_struct_ok (d : hmat_struct) : Prop :=
  match d with
  | HSysloc sl => N.of_nat (length (sl_entries sl)) = N.of_nat (length (sl_inits sl)) * N.of_nat (length (sl_targets sl))
  | _ => True
  end.

Definition hmat_struct_addition (d : hmat_struct) : addition := hmat_add (hmat_struct_claimed d) (hmat_struct_bytes d).

(* the fixed head of a structure, as Spec/HmatS.v tabulates it *)
Definition hmat_struct_head (d : hmat_struct) : layout :=
  match d with
  | HProx ipd mpd => [L 0 2 0; L 2 2 0; L 4 4 40; L 8 2 1; L 10 2 0; L 12 4 ipd; L 16 4 mpd; L 20 8 0; L 28 8 0; L 36 4 0]
  | HSysloc sl =>
      [L 0 2 1; L 2 2 0; L 4 4 (N.of_nat (hmat_struct_size d)); L 8 1 (sl_flags sl); L 9 1 (sl_dt sl); L 10 1 (sl_mts sl); L 11 1 0;
       L 12 4 (N.of_nat (length (sl_inits sl))); L 16 4 (N.of_nat (length (sl_targets sl))); L 20 4 0; L 24 8 (sl_unit sl)]
  | HMsc pd size attrs hs =>
      [L 0 2 2; L 2 2 0; L 4 4 (N.of_nat (hmat_struct_size d)); L 8 4 pd; L 12 4 0; L 16 8 size; L 24 4 attrs; L 28 2 0;
       L 30 2 (N.of_nat (length hs))]
  end.

Definition hmat_struct_head_size (d : hmat_struct) : nat := match d with HProx _ _ => 40 | _ => 32 end.

Definition hmat_struct_tail (d : hmat_struct) : list N :=
  match d with
  | HProx _ _ => []
  | HSysloc sl => arr 4 (sl_inits sl) ++ arr 4 (sl_targets sl) ++ arr 2 (sl_entries sl)
  | HMsc _ _ _ hs => arr 2 hs
  end.

Lemma hmat_struct_claimed_size d : hmat_struct_claimed d = N.of_nat (hmat_struct_size d).
Proof. destruct d; unfold hmat_struct_claimed, hmat_struct_size, sysloc_len, msc_len, hm_len; lia. Qed.

(* the one place where the serialisers of hmat.rs and the field tables of the specification meet: with the length as a
   variable both sides compute to the same list *)
Lemma hmat_struct_lay d : lay_then (hmat_struct_head_size d) (hmat_struct_head d) (hmat_struct_tail d) = Some (hmat_struct_bytes d).
Proof.
  pose proof (hmat_struct_claimed_size d) as Hc.
  destruct d as [ipd mpd|sl|pd size attrs hs]; unfold hmat_struct_bytes, hmat_struct_head, hmat_struct_tail, hmat_struct_head_size;
    cbn [hmat_struct_claimed] in Hc.
  - reflexivity.
  - unfold sysloc_bytes. rewrite Hc. generalize (N.of_nat (hmat_struct_size (HSysloc sl))). intros len. reflexivity.
  - rewrite Hc. unfold hm_len. generalize (N.of_nat (hmat_struct_size (HMsc pd size attrs hs))) (N.of_nat (length hs)).
    intros len n. reflexivity.
Qed.

Lemma hmat_struct_length d : length (hmat_struct_bytes d) = hmat_struct_size d.
Proof.
  rewrite (proj1 (lay_then_fields _ _ _ _ (hmat_struct_lay d))).
  destruct d; cbn [hmat_struct_head_size hmat_struct_tail hmat_struct_size]; rewrite ?app_length, ?length_arr; [reflexivity|lia|reflexivity].
Qed.

Lemma hmat_struct_field d o w v : layout_get (hmat_struct_head d) o w = Some v ->
  field_at (hmat_struct_bytes d) o w = v mod 2 ^ (8 * N.of_nat w).
Proof. exact (lay_then_get o w v (hmat_struct_lay d)). Qed.

Lemma hmat_struct_field_below d o w v b : layout_get (hmat_struct_head d) o w = Some v -> b = 2 ^ (8 * N.of_nat w) -> v < b ->
  field_at (hmat_struct_bytes d) o w = v.
Proof. exact (lay_then_get_below o w v b (hmat_struct_lay d)). Qed.

Lemma hmat_struct_small d : hmat_struct_asserts d -> N.of_nat (hmat_struct_size d) < 2 ^ 32.
Proof.
  destruct d; cbn [hmat_struct_asserts]; [reflexivity|auto|].
  cbn [hmat_struct_size]. change (2 ^ 32) with 4294967296. lia.
Qed.

Lemma hmat_struct_field32 d o v : hmat_struct_asserts d -> layout_get (hmat_struct_head d) o 4 = Some (N.of_nat v) ->
  (v <= hmat_struct_size d)%nat -> field_at (hmat_struct_bytes d) o 4 = N.of_nat v.
Proof.
  intros Hfit Hg Hv. apply hmat_struct_small in Hfit.
  apply (lay_then_get_below o 4 _ (2 ^ 32) (hmat_struct_lay d) Hg eq_refl). lia.
Qed.

Lemma hmat_struct_len_field d : layout_get (hmat_struct_head d) 4 4 = Some (N.of_nat (hmat_struct_size d)).
Proof. destruct d; reflexivity. Qed.

Lemma hmat_struct_split d : exists fixed, length fixed = hmat_struct_head_size d /\ hmat_struct_bytes d = fixed ++ hmat_struct_tail d.
Proof. exact (lay_then_split _ _ _ _ (hmat_struct_lay d)). Qed.

Definition hmat_ty (e : list N) : N := field_at e 0 2.

Lemma hmat_struct_ty d : hmat_ty (hmat_struct_bytes d) = match d with HProx _ _ => 0 | HSysloc _ => 1 | HMsc _ _ _ _ => 2 end.
Proof. destruct d; reflexivity. Qed.

Lemma hmat_struct_self d : hmat_struct_asserts d -> self_describing H_u16_u16_u32 (hmat_struct_bytes d) (hmat_ty (hmat_struct_bytes d)).
Proof.
  intros Hfit.
  apply (lay_then_self H_u16_u16_u32 2 2 4 _ _ _ _ _ (2 ^ 32) eq_refl (hmat_struct_lay d) (hmat_struct_len_field d)
           (hmat_struct_length d));
    [destruct d; cbn [hmat_struct_size]; lia|reflexivity|exact (hmat_struct_small d Hfit)].
Qed.

Lemma sysloc_new_inv md lt dt mts unit ni nt s : sysloc_new md lt dt mts unit ni nt = Some s ->
  exists cnt, mul_m md U64 ni nt = Some cnt /\
    s = {| sl_flags := cast U8 lt; sl_dt := dt; sl_mts := mts; sl_unit := unit; sl_inits := repeatN 0 (N.to_nat ni);
           sl_targets := repeatN 0 (N.to_nat nt); sl_entries := repeatN 0xffff (N.to_nat cnt) |}.
Proof. unfold sysloc_new. intros H. apply bind_Some in H as (cnt & Em & H). apply Some_inj in H. now exists cnt. Qed.

Lemma sysloc_new_exact md lt dt mts unit ni nt : ni * nt < U64 ->
  sysloc_new md lt dt mts unit ni nt =
  Some {| sl_flags := cast U8 lt; sl_dt := dt; sl_mts := mts; sl_unit := unit; sl_inits := repeatN 0 (N.to_nat ni);
          sl_targets := repeatN 0 (N.to_nat nt); sl_entries := repeatN 0xffff (N.to_nat (ni * nt)) |}.
Proof. intros H. unfold sysloc_new, mul_m. now rewrite (proj2 (N.ltb_lt _ _) H). Qed.

(* the usize product of SystemLocality::new: below 2^64 both profiles return the true product *)
Lemma mul_m_exact md ni nt cnt : mul_m md U64 ni nt = Some cnt -> ni * nt < 2 ^ 64 -> cnt = ni * nt.
Proof.
  unfold mul_m. intros Hm Hlt. destruct (N.ltb_spec (ni * nt) U64) as [_|Hge]; [now apply Some_inj in Hm|].
  unfold U64 in Hge. lia.
Qed.

Definition sl_same_shape (a b : sysloc) : Prop :=
  length (sl_inits a) = length (sl_inits b) /\ length (sl_targets a) = length (sl_targets b) /\
  length (sl_entries a) = length (sl_entries b) /\ sl_dt a = sl_dt b /\ sl_mts a = sl_mts b /\ sl_unit a = sl_unit b.

(* a builder sets flags or overwrites one cell of one vector (`upd`) *)
Lemma sysloc_builder_shape sl o sl' : sysloc_builder sl o = Some sl' -> sl_same_shape sl' sl.
Proof.
  unfold sysloc_builder, sysloc_set_entry, hm_vec_set, assert, sl_same_shape. intros H. break_sx H;
    repeat match type of H with context [if ?c then _ else _] => destruct c; cbn [option_map option_bind] in H; try discriminate H end;
    apply Some_inj in H; subst sl'; cbn [sl_with_inits sl_with_targets sl_with_entries sl_inits sl_targets sl_entries];
    rewrite ?length_upd; repeat split.
Qed.

Lemma sysloc_builders_shape bs : forall sl sl', sysloc_builders sl bs = Some sl' -> sl_same_shape sl' sl.
Proof.
  induction bs as [|o bs IH]; intros sl sl' H; cbn [sysloc_builders] in H.
  - apply Some_inj in H. subst. unfold sl_same_shape. repeat split.
  - destruct (sysloc_builder sl o) as [sl1|] eqn:E; [|discriminate].
    destruct (IH _ _ H) as (A & B & C & D & M & U). destruct (sysloc_builder_shape _ _ _ E) as (A1 & B1 & C1 & D1 & M1 & U1).
    unfold sl_same_shape. repeat split; congruence.
Qed.

(* what add_system_locality serialises when it accepts: the vectors have the sizes given to `new`; for the matrix that is
   the true product, in both profiles: the accepted length bounds ni and nt by 2^30, so the usize product did not wrap *)
Lemma sysloc_built md lt dt mts unit ni nt bs sl0 sl :
  sysloc_new md lt dt mts unit ni nt = Some sl0 -> sysloc_builders sl0 bs = Some sl -> hmat_struct_asserts (HSysloc sl) ->
  N.of_nat (length (sl_inits sl)) = ni /\ N.of_nat (length (sl_targets sl)) = nt /\ N.of_nat (length (sl_entries sl)) = ni * nt.
Proof.
  intros En Eb Hfit. destruct (sysloc_new_inv _ _ _ _ _ _ _ _ En) as (cnt & Em & ->).
  destruct (sysloc_builders_shape _ _ _ Eb) as (A & B & C & _).
  cbn [sl_inits sl_targets sl_entries] in A, B, C. rewrite length_repeatN in A, B, C.
  cbn [hmat_struct_asserts hmat_struct_size] in Hfit. rewrite A, B, C in Hfit. change (2 ^ 32) with 4294967296 in Hfit.
  rewrite A, B, C, !N2Nat.id. repeat split.
  apply (mul_m_exact md _ _ _ Em).
  assert (ni * nt < 2 ^ 30 * 2 ^ 30) by (apply N.mul_lt_mono; lia).
  change (2 ^ 30 * 2 ^ 30) with 1152921504606846976 in *. change (2 ^ 64) with 18446744073709551616. lia.
Qed.

Inductive hmat_op (md : mode) : sx -> hmat_struct -> Prop :=
| HOpProx ipd mpd : hmat_op md (SL [SA 1; SA ipd; SA mpd]) (HProx ipd mpd)
| HOpSysloc lt dt mts unit ni nt bs sl0 sl :
    sysloc_new md lt dt mts unit ni nt = Some sl0 -> sysloc_builders sl0 bs = Some sl ->
    hmat_op md (SL [SA 2; SA lt; SA dt; SA mts; SA unit; SA ni; SA nt; SL bs]) (HSysloc sl)
| HOpMsc pd size total level assoc policy line hs handles : sx_nums hs = Some handles ->
    hmat_op md (SL [SA 3; SA pd; SA size; SA total; SA level; SA assoc; SA policy; SA line; SL hs])
      (HMsc pd size (msc_attributes total level assoc policy line) handles).

Lemma msc_bytes_inv pd size attrs hs b : msc_bytes pd size attrs hs = Some b ->
  N.of_nat (length hs) <= 65535 /\ b = hmat_struct_bytes (HMsc pd size attrs hs).
Proof.
  unfold msc_bytes, hm_len. destruct (N.leb_spec (N.of_nat (length hs)) 65535) as [Hle|]; [|discriminate].
  intros H. apply Some_inj in H. now split.
Qed.

Lemma hmat_addition_cases md s o e : hmat_addition md s o = Some e ->
  exists d, hmat_op md o d /\ hmat_struct_asserts d /\ e = hmat_struct_addition d.
Proof.
  intros H. unfold hmat_addition in H. break_sx H.
  - apply bind_Some in H as (handles & Eh & H). apply bind_Some in H as (b & Eb & H). apply Some_inj in H.
    apply msc_bytes_inv in Eb as [Hle ->]. eexists. split; [exact (HOpMsc md _ _ _ _ _ _ _ _ _ Eh)|]. split; [exact Hle|now subst e].
  - apply bind_Some in H as (sl0 & En & H). apply bind_Some in H as (sl & Eb & H). apply bind_Some in H as (u & Ea & H).
    apply Some_inj in H. apply assert_true, N.ltb_lt in Ea. exists (HSysloc sl). split; [exact (HOpSysloc md _ _ _ _ _ _ _ _ _ En Eb)|].
    split; [|now subst e]. cbn [hmat_struct_asserts]. rewrite <- (hmat_struct_claimed_size (HSysloc sl)). exact Ea.
  - apply Some_inj in H. eexists. split; [constructor|]. split; [exact I|now subst e].
Qed.

Lemma hmat_addition_intro md s o d : hmat_op md o d -> hmat_struct_asserts d -> hmat_addition md s o = Some (hmat_struct_addition d).
Proof.
  intros Hop Hfit. destruct Hop as [ipd mpd|lt dt mts unit ni nt bs sl0 sl En Eb|pd size total level assoc policy line hs handles Eh];
    cbn [hmat_addition].
  - reflexivity.
  - rewrite En. cbn [option_bind]. rewrite Eb. cbn [option_bind].
    cbn [hmat_struct_asserts] in Hfit. rewrite <- (hmat_struct_claimed_size (HSysloc sl)) in Hfit. apply N.ltb_lt in Hfit.
    cbn [hmat_struct_claimed] in Hfit. unfold U32. rewrite Hfit. reflexivity.
  - rewrite Eh. cbn [option_bind]. unfold msc_bytes, hm_len. apply N.leb_le in Hfit. cbn [hmat_struct_asserts] in Hfit.
    rewrite Hfit. reflexivity.
Qed.

(* the system locality structure the Spec lays out: option bits by whether the call occurs, every slot and cell by its last
   writer *)
Definition sysloc_ref (lt dt mts unit ni nt : N) (bs : list sx) : sysloc :=
  {| sl_flags := lt + (if ever (is_op 2) bs then 16 else 0) + (if ever (is_op 1) bs then 32 else 0);
     sl_dt := dt; sl_mts := mts; sl_unit := unit;
     sl_inits := map (fun i => last_slot 3 i bs 0) (seqN ni);
     sl_targets := map (fun j => last_slot 4 j bs 0) (seqN nt);
     sl_entries := flat_map (fun i => map (fun j => last_cell i j bs 0xFFFF) (seqN nt)) (seqN ni) |}.

Lemma sysloc_ref_counts lt dt mts unit ni nt bs :
  N.of_nat (length (sl_inits (sysloc_ref lt dt mts unit ni nt bs))) = ni /\
  N.of_nat (length (sl_targets (sysloc_ref lt dt mts unit ni nt bs))) = nt /\
  N.of_nat (length (sl_entries (sysloc_ref lt dt mts unit ni nt bs))) = ni * nt.
Proof.
  cbn [sysloc_ref sl_inits sl_targets sl_entries].
  rewrite (length_flat_map_const _ (N.to_nat nt)) by (intros i; rewrite map_length; apply length_seqN).
  rewrite !map_length, !length_seqN. lia.
Qed.

Lemma sysloc_ref_size lt dt mts unit ni nt bs :
  N.of_nat (hmat_struct_size (HSysloc (sysloc_ref lt dt mts unit ni nt bs))) = 32 + 4 * ni + 4 * nt + 2 * (ni * nt).
Proof.
  destruct (sysloc_ref_counts lt dt mts unit ni nt bs) as (Hi & Ht & He).
  cbn [hmat_struct_size]. lia.
Qed.

(* the structure [d] that the Spec lays out for operation [o]; of the Spec's guard, what the refinement needs *)
Inductive hmat_ref_op : sx -> hmat_struct -> Prop :=
| HRefProx ipd mpd : hmat_ref_op (SL [SA 1; SA ipd; SA mpd]) (HProx ipd mpd)
| HRefSysloc lt dt mts unit ni nt bs : lt < 4 -> forallb (sl_builder_ok ni nt) bs = true ->
    hmat_ref_op (SL [SA 2; SA lt; SA dt; SA mts; SA unit; SA ni; SA nt; SL bs]) (HSysloc (sysloc_ref lt dt mts unit ni nt bs))
| HRefMsc pd size total level assoc policy line hs handles : sx_nums hs = Some handles ->
    total < 4 -> level < 4 -> assoc < 3 -> policy < 3 -> line < 2 ^ 16 ->
    hmat_ref_op (SL [SA 3; SA pd; SA size; SA total; SA level; SA assoc; SA policy; SA line; SL hs])
      (HMsc pd size (total + 16 * level + 256 * assoc + 4096 * policy + 65536 * line) handles).

Lemma hmat_entry_ref_cases o e : hmat_entry_ref o = Some e ->
  exists d, hmat_ref_op o d /\ hmat_struct_ok d /\ hmat_struct_asserts d /\ e = hmat_struct_bytes d.
Proof.
  intros H. op_cases H o l of hmat_entry_ref.
  - (* 3: memory side cache *)
    arg_num H l pd. arg_num H l size. arg_num H l total. arg_num H l level. arg_num H l assoc. arg_num H l policy.
    arg_num H l line. arg_list H l hs. arg_end H l.
    destruct (sx_nums hs) as [handles|] eqn:Eh; [|discriminate H]. cbv zeta in H.
    (* G: the handle count; G0 .. G4: line, policy, associativity, level, total *)
    apply if_Some in H as [G H]. andbs G. apply N.ltb_lt in G, G0, G1, G2, G3, G4. change (2 ^ 16) with 65536 in G.
    set (d := HMsc pd size (total + 16 * level + 256 * assoc + 4096 * policy + 65536 * line) handles).
    exists d. split; [now constructor|]. split; [exact I|]. split; [cbn [d hmat_struct_asserts]; lia|].
    pose proof (hmat_struct_lay d) as Hl. cbn [d hmat_struct_head hmat_struct_head_size hmat_struct_tail hmat_struct_size] in Hl.
    replace (N.of_nat (32 + 2 * length handles)) with (32 + 2 * N.of_nat (length handles)) in Hl by lia.
    exact (Some_inj _ _ (eq_trans (eq_sym H) Hl)).
  - (* 2: system locality *)
    arg_num H l lt. arg_num H l dt. arg_num H l mts. arg_num H l unit. arg_num H l ni. arg_num H l nt. arg_list H l bs.
    arg_end H l.
    (* G: the locality type; G1: the length; G0: the builders *)
    cbv zeta in H. apply if_Some in H as [G H]. andbs G. apply N.ltb_lt in G, G1.
    pose proof (sysloc_ref_size lt dt mts unit ni nt bs) as Hsz.
    destruct (sysloc_ref_counts lt dt mts unit ni nt bs) as (Hi & Ht & He).
    set (d := HSysloc (sysloc_ref lt dt mts unit ni nt bs)) in *.
    exists d. split; [now constructor|]. split; [cbn [d hmat_struct_ok]; now rewrite Hi, Ht|].
    split; [cbn [d hmat_struct_asserts]; now rewrite Hsz|].
    pose proof (hmat_struct_lay d) as Hl. cbn [d hmat_struct_head hmat_struct_head_size hmat_struct_tail] in Hl.
    rewrite Hsz, Hi, Ht in Hl. exact (Some_inj _ _ (eq_trans (eq_sym H) Hl)).
  - (* 1: memory proximity domain *)
    arg_num H l ipd. arg_num H l mpd. arg_end H l.
    exists (HProx ipd mpd). split; [constructor|]. split; [exact I|]. split; [exact I|].
    exact (Some_inj _ _ (eq_trans (eq_sym H) (hmat_struct_lay (HProx ipd mpd)))).
Qed.
