(* RIMT: the Impl model refines the Spec (C04 as a theorem).  For every constructor argument and every history of
   operations in the domain of Spec/RimtS.v, in both build modes, the model of rimt.rs accepts the history and the table
   it serialises is byte for byte the reference image. *)
From Coq Require Import NArith List Lia.
From ACPI Require Import Lib.Bytes Lib.Sx Lib.Machine Impl.Table Impl.Rimt
  Spec.Layout Spec.RimtS
  Proofs.TableP Proofs.RimtP Proofs.RefCommonP Proofs.BaseP Proofs.RimtStructP.
Import ListNotations.

Open Scope N_scope.

(* interrupt wire *)
Lemma wire_is_reference w e : rimt_wire_ref w = Some e -> wire_bytes w = Some e.
Proof.
  intros H. destruct (rimt_wire_ref_cases w e H) as (num & lvl & pol & aplic & -> & Hl).
  cbn [wire_bytes]. rewrite <- Hl. unfold sp_bit, truthy. destruct (lvl =? 0), (pol =? 0); reflexivity.
Qed.

(* ID mapping: the destination IOMMU offset is the handle the model resolves *)
Lemma idmap_is_reference s n rs m e :
  sp_tracks (n, rs) (t_handles s) -> rimt_map_ref n rs m = Some e -> idmap_bytes s m = Some e.
Proof.
  intros HT H. destruct (rimt_map_ref_cases n rs m e H) as (src & dst & cnt & href & ats & pri & rciep & off & -> & El & Hl).
  cbn [idmap_bytes]. rewrite (sp_lookup_handle s n rs href off 0 HT El). cbn [option_bind]. rewrite d4_cast32.
  rewrite <- Hl. unfold sp_bit, truthy. destruct (ats =? 0), (pri =? 0), (rciep =? 0); reflexivity.
Qed.

Lemma opt_list_wires x ws : rimt_opt_list rimt_wire_ref x = Some ws -> rimt_wires x = Some ws.
Proof.
  unfold rimt_opt_list, rimt_wires. intros H.
  destruct x as [|l]; [discriminate H|]. destruct l as [|[|ws0] [|]]; try discriminate H; [exact H|].
  exact (sp_all_list_all rimt_wire_ref wire_bytes wire_is_reference _ _ H).
Qed.

Lemma opt_list_maps s n rs x ms :
  sp_tracks (n, rs) (t_handles s) -> rimt_opt_list (rimt_map_ref n rs) x = Some ms -> rimt_maps s x = Some ms.
Proof.
  intros HT. unfold rimt_opt_list, rimt_maps. intros H.
  destruct x as [|l]; [discriminate H|]. destruct l as [|[|ms0] [|]]; try discriminate H; [exact H|].
  exact (sp_all_list_all (rimt_map_ref n rs) (idmap_bytes s) (fun m e => idmap_is_reference s n rs m e HT) _ _ H).
Qed.

Lemma rimt_pci_is_reference x p : rimt_pci_ref x = Some p -> rimt_pci x = Some p.
Proof.
  unfold rimt_pci_ref, rimt_pci. intros H.
  destruct x as [|l]; [discriminate H|]. destruct l as [|d l]; [exact H|].
  destruct d as [|d]; [destruct l; discriminate H|].
  destruct d as [|[seg|] [|[bus|] [|[dev|] [|[fn|] [|]]]]]; try (destruct l; discriminate H).
  destruct l; [|discriminate H].
  destruct (sp_bdf bus dev fn) as [b|] eqn:Eb; [|discriminate H].
  destruct (sp_bdf_pci _ _ _ _ Eb) as [-> ->]. exact H.
Qed.

Lemma sp_opt_num x : sp_opt x = opt_num x.
Proof. reflexivity. Qed.

(* every structure type is the reference encoding of the caller's values: both entry functions are "decode, check the
   size, serialise" ([rimt_entry_ref_cases], [rimt_addition_intro]), and what the Spec's decoders accept the model's accept *)
Theorem rimt_entries_are_reference s n rs o e :
  sp_tracks (n, rs) (t_handles s) -> rimt_entry_ref n rs o = Some e -> exists a, rimt_addition s o = Some a /\ a_bytes a = e.
Proof.
  intros HT H. apply rimt_entry_ref_cases in H as (d & Hop & _ & Hfit & ->).
  exists (rimt_dev_addition s d). split; [|reflexivity]. apply rimt_addition_intro; [|exact Hfit].
  exact (rimt_op_mono (rimt_spec_dec n rs) (rimt_impl_dec s) o d rimt_pci_is_reference opt_list_wires (fun x l => opt_list_maps s n rs x l HT) Hop).
Qed.

Lemma rimt_refines_calls md ctor ops r :
  ts_image rimt_spec ctor ops = Some r -> N.of_nat (length r) < 2 ^ 32 ->
  exists s0 s, rimt_new ctor = Some s0 /\ run_adds rimt_addition md s0 ops = Some s /\ tbl_image s = r /\ all_calls ops.
Proof.
  intros H Hfit. apply (table3_accepts KRimt [82; 73; 77; 84] rimt_addition rimt_entries_ref eq_refl md ctor ops r H).
  intros s0 es I0 He0 Hh0 Hes ->.
  exact (sp_refines KRimt rimt_addition rimt_addition_sound rimt_entry_ref rimt_entries_are_reference (fun _ _ _ => eq_refl)
           md s0 ops es I0 He0 Hh0 Hes Hfit ltac:(discriminate)).
Qed.

Theorem rimt_refines :
  forall md ctor ops r,
    ts_image rimt_spec ctor ops = Some r ->
    N.of_nat (length r) < 2 ^ 32 ->
    exists s0 s, rimt_new ctor = Some s0 /\
                 run_adds rimt_addition md s0 ops = Some s /\
                 tbl_image s = r.
Proof. intros md ctor ops r H Hfit. exact (accepted_refines (rimt_refines_calls md ctor ops r H Hfit)). Qed.

Corollary rimt_case_refines md ctor ops r :
  ts_image rimt_spec ctor ops = Some r -> N.of_nat (length r) < 2 ^ 32 ->
  exists evs, Forall (fun e => match e with EvNum _ => True | _ => False end) evs /\ length evs = length ops /\
    rimt_case md (SL (ctor :: ops ++ [SA 1])) = evs ++ [EvBytes r].
Proof. intros H Hfit. exact (case_shape (rimt_refines_calls md ctor ops r H Hfit)). Qed.

Print Assumptions rimt_refines.
Print Assumptions rimt_case_refines.
