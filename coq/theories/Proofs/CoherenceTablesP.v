(* Coherence of the executable judgement with the refinement theorems, table components (generic part).

   The property theorems (Props/C01.v, C02.v, C04.v) speak about the Impl MODEL; the evidence is produced by the ORACLE
   functions of Judge.v applied to observation streams.  This file connects the two for the table components: on every
   well-formed case whose history lies inside the Spec's domain, the oracle ACCEPTS the model's own observation stream.
   Whenever the correspondence K holds on a case (crate = model), the oracle therefore cannot raise an alarm on it: an
   ORACLE alarm always comes with a disagreement or a genuine deviation, never from the judgement alone.

   This file is the generic part: nothing in it is about one table.  Proofs/CoherenceFixedP.v and CoherenceAddP.v say what each
   table's model supplies, Props/CoherenceTables.v and Props/CoherenceWalk.v apply the theorems below to that, and
   Proofs/CoherenceSdtP.v uses them for the generic table.  General statement:

     for a model (new, step, image) run through [run_history] (Impl/Run.v) in which every operation the model accepts emits
     exactly one EvNum [step_one], and a case c = SL (ctor :: ops) whose atoms are all the observation marker 1 [markers_ok]:
     if the model [shows] J along the case -- it accepts the whole history and, after every prefix p of the real operations,
     has an image b of which J p b holds -- then the oracle finds what J says at every observation of the stream
     run_history image step new c (the one induction is [judge_obs]):
       [shows_judged]  J = "judge b p, handles_ok b (the handles pending after p), P b": judge_history accepts the stream,
                       nothing is refused fatally, and P holds of every observed image;
       [shows_c04]     J = "b is the reference image of p where the Spec has one, and P b" (the [refines] shape of
                       Proofs/FixedRefP.v at the in-domain prefixes; a prefix outside the domain is not judged by the oracle):
                       c04_oracle ts c accepts the stream (C04 / C11) and P holds of every observed image (C01: byte sum 0;
                       C02: Length = size).

   Two ways of showing that from a refinement theorem:
     the theorem's side condition speaks of the constructor only (the fixed-layout structures, Proofs/CoherenceFixedP.v; C01 /
       C02 then come from invariants of the model that hold in every reachable state);
     [covers]: the part of the Spec's domain on which the theorem's side conditions hold is CLOSED UNDER PREFIXES (the tables
       with a variable body): every observation of a covered history is then the reference image of a covered prefix
       [covered_shows], so whatever holds of all covered reference images holds of every observed image: C04, C01, C02
       [covered_coherent], and the oracles that walk the images, C03 and C05 [walk_coherent], where the handles pending at an
       observation are those the model itself has reported ([pend], Proofs/CoherenceWalkP.v). *)
From Coq Require Import NArith List Bool Lia.
From ACPI Require Import Lib.Bytes Lib.Sx Impl.Run Spec.Layout Proofs.FixedP Proofs.CoherenceWalkP.
Import ListNotations.
Open Scope N_scope.

(* a well-formed case: every atom among the operations is the observation marker 1 *)
Definition markers_ok (ops : list sx) : bool :=
  forallb (fun o => match o with SA n => n =? 1 | SL _ => true end) ops.

Definition is_prefix (p l : list sx) : Prop := exists q, l = p ++ q.

Lemma is_prefix_refl l : is_prefix l l.
Proof. exists []. now rewrite app_nil_r. Qed.

Lemma is_prefix_nil l : is_prefix [] l.
Proof. exists l. reflexivity. Qed.

Lemma real_ops_cons_SL l r : real_ops (SL l :: r) = SL l :: real_ops r.
Proof. reflexivity. Qed.

Lemma real_ops_cons_SA n r : real_ops (SA n :: r) = real_ops r.
Proof. reflexivity. Qed.

Lemma real_ops_all_lists ops : all_lists (real_ops ops).
Proof.
  induction ops as [|[n|l] ops IH]; [constructor|exact IH|]. rewrite real_ops_cons_SL. constructor; [exact I|exact IH].
Qed.

Lemma real_ops_idem ops : real_ops (real_ops ops) = real_ops ops.
Proof.
  induction ops as [|[n|l] ops IH]; [reflexivity|exact IH|]. rewrite !real_ops_cons_SL. now rewrite IH.
Qed.

Lemma real_ops_app a b : real_ops (a ++ b) = real_ops a ++ real_ops b.
Proof. unfold real_ops. apply filter_app. Qed.

Lemma all_lists_prefix ops p : is_prefix p (real_ops ops) -> all_lists p.
Proof.
  intros [q E]. pose proof (real_ops_all_lists ops) as F. rewrite E in F. apply Forall_app in F. exact (proj1 F).
Qed.

(* a prefix of a marker-free list is marker-free *)
Lemma prefix_real p q ops : real_ops ops = p ++ q -> real_ops p = p.
Proof.
  intros H. pose proof (all_lists_prefix ops p (ex_intro _ q H)) as F.
  clear H. induction p as [|[n|l] p IH]; [reflexivity| |].
  - inversion F as [|? ? Hx _]. destruct Hx.
  - inversion F as [|? ? _ F']; subst. rewrite real_ops_cons_SL. now rewrite IH.
Qed.

Section Generic.
  Context {S : Type}.
  Variable image : S -> option (list N).
  Variable step : S -> sx -> option (S * list ev).

  (* the observation stream of Impl/Run.v without the accumulator *)
  Fixpoint obs (s : S) (ops : list sx) : list ev :=
    match ops with
    | [] => []
    | SA 1 :: r => match image s with
                   | Some b => EvBytes b :: obs s r
                   | None => [EvPanic]
                   end
    | o :: r => match step s o with
                | Some (s', evs) => evs ++ obs s' r
                | None => [EvPanic]
                end
    end.

  Lemma run_ops_acc_obs ops : forall s acc, run_ops_acc image step s ops acc = rev acc ++ obs s ops.
  Proof.
    induction ops as [|o r IH]; intros s acc.
    - cbn [run_ops_acc obs]. rewrite frev_rev, app_nil_r. reflexivity.
    - assert (Hgen : match step s o with
                     | Some (s', evs) => run_ops_acc image step s' r (rev_append evs acc)
                     | None => frev (EvPanic :: acc)
                     end = rev acc ++ match step s o with Some (s', evs) => evs ++ obs s' r | None => [EvPanic] end).
      { destruct (step s o) as [[s' evs]|].
        - rewrite IH, rev_append_rev, rev_app_distr, rev_involutive, app_assoc. reflexivity.
        - rewrite frev_rev. reflexivity. }
      destruct o as [[|[p|p|]]|l]; cbn [run_ops_acc obs]; try exact Hgen.
      destruct (image s) as [b|].
      + rewrite IH. cbn [rev]. rewrite <- app_assoc. reflexivity.
      + rewrite frev_rev. reflexivity.
  Qed.

  Lemma run_history_obs (new : sx -> option S) ctor ops s0 :
    new ctor = Some s0 -> run_history image step new (SL (ctor :: ops)) = obs s0 ops.
  Proof. intros Hn. unfold run_history, run_ops. rewrite Hn, run_ops_acc_obs. reflexivity. Qed.

  Lemma run_steps_real ops : forall s, run_steps step s (real_ops ops) = run_steps step s ops.
  Proof.
    induction ops as [|[n|l] ops IH]; intros s; [reflexivity|exact (IH s)|].
    rewrite real_ops_cons_SL. cbn [run_steps]. destruct (step s (SL l)) as [[s1 e]|]; [apply IH|reflexivity].
  Qed.

End Generic.

(* where a pending handle ([pend], CoherenceWalkP.v) comes from *)
Section PendingOrigin.
  Context {S : Type}.
  Variable step : S -> sx -> option (S * list ev).
  Hypothesis step_one : forall s o s' evs, step s o = Some (s', evs) -> exists h, evs = [EvNum h].
  Variable returns : sx -> bool.

  Lemma pend_in p : forall s n acc h k,
    all_lists p -> In (h, k) (pend step returns s n p acc) ->
    In (h, k) acc \/
    exists pre o post sk sk1, p = pre ++ o :: post /\ k = (n + length pre)%nat /\
      run_steps step s pre = Some sk /\ step sk o = Some (sk1, [EvNum h]) /\ returns o = true.
  Proof.
    induction p as [|o p IH]; intros s n acc h k Hl Hin.
    - left. exact Hin.
    - inversion Hl as [|x l0 Ho Hl']; subst. cbn [pend] in Hin.
      destruct (step s o) as [[s' evs]|] eqn:Es; [|left; exact Hin].
      destruct (step_one s o s' evs Es) as [h0 ->].
      destruct (IH s' (Datatypes.S n) _ h k Hl' Hin) as [Hacc|(pre & o' & post & sk & sk1 & -> & -> & Hr & Hst & Hret)].
      + destruct (returns o) eqn:Er; [|left; exact Hacc].
        destruct Hacc as [Heq|Hacc]; [|left; exact Hacc].
        inversion Heq; subst h0 k. right. exists [], o, p, s, s'. cbn [app length run_steps].
        repeat split; [lia|exact Es|exact Er].
      + right. exists (o :: pre), o', post, sk, sk1. cbn [app length].
        split; [reflexivity|]. split; [lia|]. split; [|split; assumption].
        destruct o as [a|l]; [destruct Ho|]. cbn [run_steps]. rewrite Es. exact Hr.
  Qed.
End PendingOrigin.

Section Judged.
  Context {S : Type}.
  Variable image : S -> option (list N).
  Variable step : S -> sx -> option (S * list ev).
  (* (a) every accepted operation reports exactly one number *)
  Hypothesis step_one : forall s o s' evs, step s o = Some (s', evs) -> exists h, evs = [EvNum h].
  Variable returns : sx -> bool.
  Variable judge : list N -> list sx -> bool.
  Variable handles_ok : list N -> list (N * nat) -> bool.

  Definition all_images (P : list N -> bool) (evs : list ev) : bool :=
    forallb (fun e => match e with EvBytes img => P img | _ => true end) evs.

  (* after every prefix p of the real operations the model shows an image that [judge] accepts for p, that [handles_ok]
     accepts with the handles pending after p ([pend], CoherenceWalkP.v), and of which P holds *)
  Lemma judge_obs (P : list N -> bool) ops : forall s sf rp pending,
    markers_ok ops = true ->
    run_steps step s ops = Some sf ->
    (forall p q s1, real_ops ops = p ++ q -> run_steps step s p = Some s1 ->
                    exists img, image s1 = Some img /\ judge img (rev rp ++ p) = true
                                /\ handles_ok img (pend step returns s (length rp) p pending) = true /\ P img = true) ->
    judge_history returns judge handles_ok rp ops (obs image step s ops) pending = true
    /\ refused_at rp ops (obs image step s ops) = None
    /\ all_images P (obs image step s ops) = true.
  Proof.
    induction ops as [|o r IH]; intros s sf rp pending Hm Hr Hp.
    - cbn [obs judge_history refused_at all_images forallb]. auto.
    - cbn [markers_ok forallb] in Hm. apply andb_true_iff in Hm. destruct Hm as [Ho Hm].
      destruct o as [n|l].
      + apply N.eqb_eq in Ho. subst n. cbn [run_steps] in Hr.
        rewrite real_ops_cons_SA in Hp.
        destruct (Hp [] (real_ops r) s eq_refl eq_refl) as (img & Hi & Hj & Hh & HP).
        rewrite app_nil_r in Hj. cbn [pend] in Hh.
        destruct (IH s sf rp pending Hm Hr Hp) as (J & R & A).
        cbn [obs]. rewrite Hi. cbn [judge_history refused_at all_images forallb].
        rewrite frev_rev, Hj, Hh, HP. cbn [andb]. auto.
      + cbn [run_steps] in Hr.
        destruct (step s (SL l)) as [[s' evs]|] eqn:Es; [|discriminate].
        destruct (step_one s (SL l) s' evs Es) as [h ->].
        destruct (IH s' sf (SL l :: rp) (if returns (SL l) then (h, length rp) :: pending else pending) Hm Hr) as (J & R & A).
        { intros p q s1 E Hs. rewrite real_ops_cons_SL in Hp.
          destruct (Hp (SL l :: p) q s1) as (img & Hi & Hj & Hh & HP).
          - rewrite E. reflexivity.
          - cbn [run_steps]. rewrite Es. exact Hs.
          - exists img. split; [exact Hi|]. split; [cbn [rev]; rewrite <- app_assoc; exact Hj|].
            cbn [pend] in Hh. rewrite Es in Hh. auto. }
        cbn [obs]. rewrite Es. cbn [app judge_history refused_at all_images forallb]. auto.
  Qed.
End Judged.

(* the judgement of every table but RSDP and FACS: byte sum 0 (C01), Length field at offset 4 = size (C02) *)
Definition sum_ok (b : list N) : bool := sum8 b =? 0.
Definition len_ok (b : list N) : bool := field_at b 4 4 =? N.of_nat (length b).

(* the judgement of C04 (and of C05) at an observation: the image is the reference image, where there is one *)
Definition c04_judge (ts : tspec) (ctor : sx) (img : list N) (prefix : list sx) : bool :=
  match ts_image ts ctor prefix with Some r => list_N_eqb img r | None => true end.

Lemma c04_judge_ref ts ctor p r : ts_image ts ctor p = Some r -> c04_judge ts ctor r p = true.
Proof. intros Ht. unfold c04_judge. rewrite Ht. now apply list_N_eqb_eq. Qed.

Lemma all_images_and P1 P2 evs : all_images (fun b => P1 b && P2 b) evs = true ->
  all_images P1 evs = true /\ all_images P2 evs = true.
Proof.
  unfold all_images. induction evs as [|[b|n|] evs IH]; cbn [forallb]; auto.
  intros H. apply andb_true_iff in H. destruct H as [H1 H2]. apply andb_true_iff in H1. destruct H1 as [Ha Hb].
  destruct (IH H2) as [I1 I2]. rewrite Ha, Hb, I1, I2. auto.
Qed.

Section Shows.
  Context {S : Type}.
  Variable image : S -> option (list N).
  Variable step : S -> sx -> option (S * list ev).
  Hypothesis step_one : forall s o s' evs, step s o = Some (s', evs) -> exists h, evs = [EvNum h].
  Variable new : sx -> option S.

  (* the model accepts the history of the case (ctor ops ...) and, after every prefix p of its real operations, shows an
     image b with [J s0 p b], where s0 is the state the constructor leaves *)
  Definition shows (J : S -> list sx -> list N -> Prop) (ctor : sx) (ops : list sx) : Prop :=
    exists s0 sf, new ctor = Some s0 /\ run_steps step s0 ops = Some sf /\
      forall p s1, is_prefix p (real_ops ops) -> run_steps step s0 p = Some s1 -> exists b, image s1 = Some b /\ J s0 p b.

  Lemma shows_impl (J J' : S -> list sx -> list N -> Prop) ctor ops :
    shows J ctor ops ->
    (forall s0 p s1 b, all_lists p -> new ctor = Some s0 -> run_steps step s0 p = Some s1 -> image s1 = Some b ->
                       J s0 p b -> J' s0 p b) ->
    shows J' ctor ops.
  Proof.
    intros (s0 & sf & Hn & Hr & Hp) H. exists s0, sf. split; [exact Hn|]. split; [exact Hr|]. intros p s1 Hpre Hs.
    destruct (Hp p s1 Hpre Hs) as (b & Hi & HJ). exists b. split; [exact Hi|].
    exact (H s0 p s1 b (all_lists_prefix ops p Hpre) Hn Hs Hi HJ).
  Qed.

  (* every judgement that holds of what is shown is accepted along the stream, and nothing is refused *)
  Theorem shows_judged returns judge handles_ok P ctor ops :
    markers_ok ops = true ->
    shows (fun s0 p b => judge b p = true /\ handles_ok b (pend step returns s0 0 p []) = true /\ P b = true) ctor ops ->
    let evs := run_history image step new (SL (ctor :: ops)) in
    judge_history returns judge handles_ok [] ops evs [] = true /\ refused_at [] ops evs = None /\ all_images P evs = true.
  Proof.
    intros Hm (s0 & sf & Hn & Hr & Hp) evs. unfold evs. rewrite (run_history_obs image step new ctor ops s0 Hn).
    apply (judge_obs image step step_one returns judge handles_ok P ops s0 sf [] [] Hm Hr).
    intros p q s1 E. exact (Hp p s1 (ex_intro _ q E)).
  Qed.

  (* C04 / C11, with C01 / C02 as P: at every prefix for which the Spec has a reference image the model shows that image *)
  Corollary shows_c04 ts P ctor ops :
    markers_ok ops = true ->
    shows (fun _ p b => (forall r, ts_image ts ctor p = Some r -> b = r) /\ P b = true) ctor ops ->
    let evs := run_history image step new (SL (ctor :: ops)) in
    c04_oracle ts (SL (ctor :: ops)) evs = true /\ all_images P evs = true.
  Proof.
    intros Hm Hs. cbv zeta.
    destruct (shows_judged (ts_returns ts) (c04_judge ts ctor) (fun _ _ => true) P ctor ops Hm) as (J & R & A).
    { apply (shows_impl _ _ ctor ops Hs). intros s0 p s1 b _ _ _ _ [Hb HP]. split; [|auto]. unfold c04_judge.
      destruct (ts_image ts ctor p) as [r|]; [|reflexivity]. rewrite (Hb r eq_refl). now apply list_N_eqb_eq. }
    split; [|exact A]. unfold c04_oracle, case_parts. apply andb_true_intro. split; [exact J|]. rewrite R. reflexivity.
  Qed.
End Shows.
Arguments shows_impl {S image step new J J'}.

(* "every accepted operation reports one number", for a structure without operations (its step function is constantly None) *)
Lemma no_step_one {S} (step : mode -> S -> sx -> option (S * list ev)) :
  (forall md s o, step md s o = None) -> forall md s o s' evs, step md s o = Some (s', evs) -> exists h, evs = [EvNum h].
Proof. intros Hnone md s o s' evs H. rewrite Hnone in H. discriminate H. Qed.

(* the last step of such a proof for a step function that has operations, once its matches on the operation and the binds of
   the option monad are taken apart ([split_matches], Proofs/BaseP.v) and the final [Some (_, [EvNum _])] is reached *)
Lemma some_pair_one {S} {a s' : S} {h} {evs : list ev} : Some (a, [EvNum h]) = Some (s', evs) -> exists h, evs = [EvNum h].
Proof. intros [= _ <-]. now exists h. Qed.

(* A model with what the coherence theorems need of it: one number per accepted operation; its refinement theorem on the
   part [cov] of the Spec's domain where the theorem's side conditions hold (builder lists well-formed, the image fits the
   u32 Length field, ...), together with what the model's theorems of C01 and C02 say of the image in the state reached (the
   two come from one run of the model); and that part closed under prefixes. *)
Record covers {S : Type} (spec : tspec) (new : sx -> option S) (step : mode -> S -> sx -> option (S * list ev))
       (image : S -> option (list N)) (cov : list sx -> list N -> Prop) : Prop := {
  cv_one : forall md s o s' evs, step md s o = Some (s', evs) -> exists h, evs = [EvNum h];
  cv_refines : forall md ctor p r, ts_image spec ctor p = Some r -> cov p r ->
    exists s0 s, new ctor = Some s0 /\ run_steps (step md) s0 p = Some s /\ image s = Some r /\
                 sum8 r = 0 /\ field_at r 4 4 = N.of_nat (length r);
  cv_closed : forall ctor p q r, ts_image spec ctor (p ++ q) = Some r -> cov (p ++ q) r ->
    exists r1, ts_image spec ctor p = Some r1 /\ cov p r1
}.
Arguments cv_one {S spec new step image cov}.
Arguments cv_refines {S spec new step image cov}.
Arguments cv_closed {S spec new step image cov}.

(* only the extent of [cov] matters *)
Lemma covers_same {S : Type} {spec} {new : sx -> option S} {step image cov} (cov' : list sx -> list N -> Prop) :
  covers spec new step image cov -> (forall p r, cov' p r <-> cov p r) -> covers spec new step image cov'.
Proof.
  intros C E. split; [exact (cv_one C)| |].
  - intros md ctor p r Ht Hc. exact (cv_refines C md ctor p r Ht (proj1 (E p r) Hc)).
  - intros ctor p q r Ht Hc. destruct (cv_closed C ctor p q r Ht (proj1 (E _ r) Hc)) as (r1 & Ht1 & Hc1).
    exists r1. split; [exact Ht1|exact (proj2 (E p r1) Hc1)].
Qed.

Section Covered.
  Context {S : Type} {spec : tspec} {new : sx -> option S} {step : mode -> S -> sx -> option (S * list ev)}
          {image : S -> option (list N)} {cov : list sx -> list N -> Prop}.
  Hypothesis C : covers spec new step image cov.

  (* the model accepts a covered history, and each state on the way shows the reference image of a covered prefix *)
  Lemma covered_shows md ctor ops r :
    ts_image spec ctor (real_ops ops) = Some r -> cov (real_ops ops) r ->
    shows image (step md) new (fun _ p b => ts_image spec ctor p = Some b /\ cov p b) ctor ops.
  Proof.
    intros Ht Hc. destruct (cv_refines C md ctor _ r Ht Hc) as (s0 & sf & Hn & Hr & _). rewrite run_steps_real in Hr.
    exists s0, sf. split; [exact Hn|]. split; [exact Hr|]. intros p s1 [q E] Hs1. rewrite E in Ht, Hc.
    destruct (cv_closed C ctor p q r Ht Hc) as (r1 & Ht1 & Hc1).
    destruct (cv_refines C md ctor p r1 Ht1 Hc1) as (s0' & s' & Hn' & Hr' & Hi' & _).
    rewrite Hn in Hn'. injection Hn' as <-. rewrite Hs1 in Hr'. injection Hr' as <-. exists r1. auto.
  Qed.

  Theorem covered_coherent md ctor ops r :
    markers_ok ops = true -> ts_image spec ctor (real_ops ops) = Some r -> cov (real_ops ops) r ->
    let c := SL (ctor :: ops) in
    let evs := run_history image (step md) new c in
    c04_oracle spec c evs = true /\ c01_oracle c evs = true /\ c02_oracle c evs = true.
  Proof.
    intros Hm Ht Hc c evs.
    destruct (shows_c04 image (step md) (cv_one C md) new spec (fun b => sum_ok b && len_ok b) ctor ops Hm) as [H4 HA].
    { apply (shows_impl ctor ops (covered_shows md ctor ops r Ht Hc)). intros s0 p s1 b _ _ _ _ [Hb Hcb].
      split; [congruence|]. destruct (cv_refines C md ctor p b Hb Hcb) as (_ & _ & _ & _ & _ & H1 & H2). unfold sum_ok, len_ok.
      rewrite H1, H2, !N.eqb_refl. reflexivity. }
    split; [exact H4|]. exact (all_images_and sum_ok len_ok _ HA).
  Qed.

  (* judgements of the covered reference images are accepted along the model's stream *)
  Variable returns : sx -> bool.
  Variable judge : sx -> list N -> list sx -> bool.
  Variable handles_ok : list N -> list (N * nat) -> bool.
  Hypothesis ref_judge : forall ctor p r, ts_image spec ctor p = Some r -> cov p r -> judge ctor r p = true.
  (* the handles the model reported along a covered history are accepted on that history's reference image *)
  Hypothesis ref_handles : forall md ctor p r s0 s1,
    ts_image spec ctor p = Some r -> cov p r -> all_lists p ->
    new ctor = Some s0 -> run_steps (step md) s0 p = Some s1 -> image s1 = Some r ->
    handles_ok r (pend (step md) returns s0 0 p []) = true.

  Theorem walk_coherent md ctor ops r :
    markers_ok ops = true -> ts_image spec ctor (real_ops ops) = Some r -> cov (real_ops ops) r ->
    judge_history returns (judge ctor) handles_ok [] ops (run_history image (step md) new (SL (ctor :: ops))) [] = true.
  Proof.
    intros Hm Ht Hc.
    apply (shows_judged image (step md) (cv_one C md) new returns (judge ctor) handles_ok (fun _ => true) ctor ops Hm).
    apply (shows_impl ctor ops (covered_shows md ctor ops r Ht Hc)). intros s0 p s1 b Hl Hn Hs Hi [Hb Hcb].
    split; [exact (ref_judge ctor p b Hb Hcb)|]. split; [exact (ref_handles md ctor p b s0 s1 Hb Hcb Hl Hn Hs Hi)|reflexivity].
  Qed.
End Covered.

(* streams compared by the correspondence check K (evs_eqb, through the projections of Judge.v) *)
Lemma ev_eqb_eq x y : ev_eqb x y = true -> x = y.
Proof.
  destruct x, y; cbn [ev_eqb]; intros H; try discriminate H; try reflexivity.
  - apply list_N_eqb_eq in H. now subst.
  - apply N.eqb_eq in H. now subst.
Qed.

Lemma evs_eqb_eq a : forall b, evs_eqb a b = true -> a = b.
Proof.
  induction a as [|x a IH]; intros [|y b] H; cbn [evs_eqb] in H; try discriminate H; [reflexivity|].
  apply andb_true_iff in H. destruct H as [H1 H2]. apply ev_eqb_eq in H1. apply IH in H2. now subst.
Qed.

(* a per-event judgement that factors through a per-event projection gives the same verdict on streams with the same projection *)
Lemma forallb_proj (f : ev -> bool) (pe : ev -> ev) (g : ev -> bool) :
  (forall e, f e = g (pe e)) -> forall a b, map pe a = map pe b -> forallb f a = forallb f b.
Proof.
  intros Hf. assert (E : forall a, forallb f a = forallb g (map pe a)).
  { induction a as [|e a IH]; [reflexivity|]. cbn [forallb map]. now rewrite Hf, IH. }
  intros a b H. now rewrite (E a), (E b), H.
Qed.

(* the judgements of C01 and C02 on an event as [project_ev 1] / [project_ev 2] (Judge.v) leave it: [sums] and [Length; size] *)
Definition g_sum2 (e : ev) : bool := match e with EvBytes [s; t] => (s =? 0) && (t =? 0) | _ => true end.
Definition g_len (e : ev) : bool := match e with EvBytes [x; y] => x =? y | _ => true end.
