(* HEST refinement (property C04 as a theorem): for every constructor argument and every finite component-21 history inside the
   domain of Spec/HestS.v, in both build modes, the Impl model of hest.rs accepts the history and what it shows (the table, or
   the stand-alone GenericErrorStatus built by the last operation) is exactly the reference image.
   The five error-source structures are proved to be the reference encoding for ALL builder sequences (setters in any order,
   repeated, nested GAS / notification arguments): the model applies the setters one after the other, the Spec reads the last
   call of each; `SlotsP.setters_run` relates the two, from what one call does (`aer_step`, `notif_step`, `ghes_step`).
   Two classes of histories are excluded by explicit hypotheses, each with a machine-checked witness at the end of the file:
   (a) the image shown is a stand-alone GenericErrorData (KNOWN deviation hest-generic-error-data-section-type: 2-byte section
       type where the specification has a 16-byte GUID, 58 bytes written where the reference has 72);
   (b) a stand-alone operation that is NOT the last one of the history is malformed (Spec/HestS.v validates a stand-alone
       operation only when it is the last one; the model, like the crate's driver, has to build it). *)
From Coq Require Import NArith List Lia Bool.
From ACPI Require Import Lib.Bytes Lib.Sx Lib.Machine Impl.Table Impl.Fields Impl.Madt Impl.Gas Impl.Hest
  Spec.Layout Spec.GasS Spec.HestS Proofs.TableP Proofs.HestP Proofs.RefCommonP Proofs.BaseP Proofs.WalkP Proofs.C11CommonP Proofs.SlotsP.
Import ListNotations.
Open Scope N_scope.

(* the number a setter was last given: first argument of its last call (Spec/GasS.v [last_call]), 0 if it was never called *)
Definition valof (o : option (list sx)) : N := match o with Some (SA v :: _) => v | _ => 0 end.

Lemma num_arg_valof k st : num_arg k st = valof (last_call k st None).
Proof. reflexivity. Qed.

(* the numbers held by the slots [c]; a struct whose setters each store one number is [shape (nums c)] *)
Definition nums (c : N -> option (list sx)) : N -> N := fun q => valof (c q).

(* the three PCIe AER structures (types 6, 7, 8: root port, device, bridge) holding [v k] where setter k writes *)
Definition aer_shape (ty flags bus dev fn : N) (v : N -> N) : flds :=
  [F 2 ty; F 2 0; F 2 0; F 1 flags; F 1 0; F 4 (v 1); F 4 (v 2); F 4 bus; F 2 dev; F 2 fn; F 2 (v 3); F 2 0;
   F 4 (v 4); F 4 (v 5); F 4 (v 6); F 4 (v 7)]
  ++ match ty with 6 => [F 4 (v 8)] | 8 => [F 4 (v 8); F 4 (v 9); F 4 (v 10)] | _ => [] end.

(* the test Spec/HestS.v [aer_ref] applies to one setter call *)
Definition aer_ok (ty : N) := fun (k : N) (args : list sx) => one_num args && (1 <=? k) && (k <=? aer_max_setter ty).

Lemma one_num_inv args : one_num args = true -> exists x, args = [SA x].
Proof. destruct args as [|[x|] [|]]; try discriminate. intros _. now exists x. Qed.

Lemma aer_step ty flags bus dev fn : ty = 6 \/ ty = 7 \/ ty = 8 -> forall c k args, aer_ok ty k args = true ->
  aer_setter ty (aer_shape ty flags bus dev fn (nums c)) (SL (SA k :: args))
  = Some (aer_shape ty flags bus dev fn (nums (enter Some c k args))).
Proof.
  intros Hty c k args H. unfold aer_ok in H. apply andb_true_iff in H. destruct H as [H H2]. apply andb_true_iff in H. destruct H as [Hn H1].
  destruct (one_num_inv args Hn) as [x ->]. apply N.leb_le in H1. apply N.leb_le in H2.
  destruct Hty as [->|[->| ->]]; cbn [aer_max_setter] in H2.
  - assert (k = 1 \/ k = 2 \/ k = 3 \/ k = 4 \/ k = 5 \/ k = 6 \/ k = 7 \/ k = 8) as Hk by lia.
    repeat (destruct Hk as [->|Hk]); try subst k; reflexivity.
  - assert (k = 1 \/ k = 2 \/ k = 3 \/ k = 4 \/ k = 5 \/ k = 6 \/ k = 7) as Hk by lia.
    repeat (destruct Hk as [->|Hk]); try subst k; reflexivity.
  - assert (k = 1 \/ k = 2 \/ k = 3 \/ k = 4 \/ k = 5 \/ k = 6 \/ k = 7 \/ k = 8 \/ k = 9 \/ k = 10) as Hk by lia.
    repeat (destruct Hk as [->|Hk]); try subst k; reflexivity.
Qed.

Lemma aer_run ty flags bus dev fn st : ty = 6 \/ ty = 7 \/ ty = 8 -> setters_ok (aer_ok ty) st = true ->
  apply_setters (aer_setter ty) (aer_shape ty flags bus dev fn (fun _ => 0)) st
  = Some (aer_shape ty flags bus dev fn (fun q => num_arg q st)).
Proof.
  intros Hty Hok. rewrite apply_setters_fold.
  exact (setters_run (aer_setter ty) (aer_ok ty) (fun c => aer_shape ty flags bus dev fn (nums c))
           (aer_step ty flags bus dev fn Hty) st Hok (fun _ => None)).
Qed.

Lemma aer_agrees ty c st r : ty = 6 \/ ty = 7 \/ ty = 8 -> aer_ref ty c st = Some r ->
  exists f, (do f0 <- aer_new ty c; apply_setters (aer_setter ty) f0 st) = Some f /\ ser_flds f = r.
Proof.
  intros Hty H. unfold aer_ref in H. cbv beta zeta in H.
  destruct c as [|[|[n|] l]]; try discriminate H.
  destruct n as [|[p|p|]]; try discriminate H.
  - destruct l; [|discriminate H].
    destruct (setters_ok _ st) eqn:Eok; [|discriminate H]. apply lay_some in H. subst r.
    exists (aer_shape ty 2 0 0 0 (fun q => num_arg q st)). split; [|destruct Hty as [->|[->| ->]]; reflexivity].
    cbn [aer_new option_bind]. rewrite <- (aer_run ty 2 0 0 0 st Hty Eok). reflexivity.
  - destruct l as [|[ff|] [|[bus|] [|[dev|] [|[fn|] [|]]]]]; try discriminate H.
    destruct (N.ltb_spec ff 2); [|discriminate H]. destruct (N.ltb_spec bus 256); [|discriminate H].
    destruct (N.ltb_spec dev 32); [|discriminate H]. destruct (N.ltb_spec fn 8); [|discriminate H]. cbn [andb] in H.
    destruct (setters_ok _ st) eqn:Eok; [|discriminate H]. apply lay_some in H. subst r.
    exists (aer_shape ty ff bus dev fn (fun q => num_arg q st)). split; [|destruct Hty as [->|[->| ->]]; reflexivity].
    cbn [aer_new]. unfold cast, U8. rewrite !N.mod_small by (change (2 ^ 8) with 256; lia).
    unfold pci_ok, assert. destruct (N.ltb_spec dev 32); [|lia]. destruct (N.ltb_spec fn 8); [|lia]. cbn [option_bind].
    rewrite <- (aer_run ty ff bus dev fn st Hty Eok). reflexivity.
Qed.

(* the notification structure, likewise *)
Definition notif_shape (ty : N) (v : N -> N) : flds :=
  [F 1 ty; F 1 28; F 2 (v 1); F 4 (v 2); F 4 (v 3); F 4 (v 4); F 4 (v 5); F 4 (v 6); F 4 (v 7)].
Definition notif_ok := fun (k : N) (args : list sx) => one_num args && (1 <=? k) && (k <=? 7).

Lemma notif_step ty c k args : notif_ok k args = true ->
  notif_setter (notif_shape ty (nums c)) (SL (SA k :: args)) = Some (notif_shape ty (nums (enter Some c k args))).
Proof.
  intros H. unfold notif_ok in H. apply andb_true_iff in H. destruct H as [H H2]. apply andb_true_iff in H. destruct H as [Hn H1].
  destruct (one_num_inv args Hn) as [x ->]. apply N.leb_le in H1. apply N.leb_le in H2.
  assert (k = 1 \/ k = 2 \/ k = 3 \/ k = 4 \/ k = 5 \/ k = 6 \/ k = 7) as Hk by lia.
  repeat (destruct Hk as [->|Hk]); try subst k; reflexivity.
Qed.

Lemma notif_agrees nty nst nb : notif_ref nty nst = Some nb ->
  exists v, apply_setters notif_setter (notif_new nty) nst = Some (notif_shape nty v) /\ ser_flds (notif_shape nty v) = nb.
Proof.
  unfold notif_ref. intros H. destruct (nty <=? 15); [|discriminate H]. cbn [andb] in H.
  destruct (setters_ok _ nst) eqn:Eok; [|discriminate H]. apply lay_some in H. subst nb.
  pose proof (setters_run notif_setter notif_ok (fun c => notif_shape nty (nums c)) (notif_step nty) nst Eok (fun _ => None)) as Hrun.
  rewrite <- apply_setters_fold in Hrun. eexists. split; [exact Hrun|]. reflexivity.
Qed.

(* value number i of a list of field values, 0 beyond its end *)
Definition fld_of (i : nat) (l : list N) : N := nth i l 0.

(* The generic hardware error source (type 9; type 10, version 2, adds the read-ack block): the numbers [v k], and the field
   values of the embedded structures: error-status GAS [ga], notification structure [na], read-ack GAS [gb]. *)
Definition ghes_shape (ty id en : N) (v : N -> N) (ga na gb : list N) : flds :=
  [F 2 ty; F 2 id; F 2 0xffff; F 1 0; F 1 en; F 4 (v 1); F 4 (v 2); F 4 (v 3);
   F 1 (fld_of 0 ga); F 1 (fld_of 1 ga); F 1 (fld_of 2 ga); F 1 (fld_of 3 ga); F 8 (fld_of 4 ga);
   F 1 (fld_of 0 na); F 1 (fld_of 1 na); F 2 (fld_of 2 na); F 4 (fld_of 3 na); F 4 (fld_of 4 na); F 4 (fld_of 5 na); F 4 (fld_of 6 na); F 4 (fld_of 7 na); F 4 (fld_of 8 na);
   F 4 (v 6)]
  ++ match ty with
     | 10 => [F 1 (fld_of 0 gb); F 1 (fld_of 1 gb); F 1 (fld_of 2 gb); F 1 (fld_of 3 gb); F 8 (fld_of 4 gb); F 8 (v 8); F 8 (v 9)]
     | _ => []
     end.

(* what the Spec lays out for the GAS / notification argument of a setter's last call [a] (its default when never called) *)
Definition gasS (a : option (list sx)) : option (list N) :=
  match a with Some [x] => gas_ref x | Some _ => None | None => gas_ref (SL [SA 2]) end.
Definition notS (a : option (list sx)) : option (list N) :=
  match a with Some [SA nty; SL nst] => notif_ref nty nst | Some _ => None | None => notif_ref 0 [] end.

Lemma ghes_ok_cases ty k args : ghes_setter_ok ty k args = true ->
  k = 1 \/ k = 2 \/ k = 3 \/ k = 4 \/ k = 5 \/ k = 6 \/ k = 7 \/ k = 8 \/ k = 9.
Proof.
  intros H. destruct k as [|p]; [discriminate H|].
  do 4 (try (destruct p as [p|p|]; try discriminate H)); auto 10.
Qed.

(* the field values the model stores for the GAS / notification argument of a setter's last call [a] (the defaults of
   [ghes_new] when it was never called) *)
Definition gaM (a : option (list sx)) : list N :=
  match a with
  | Some [x] => match gas_of_sx x with Some g => fvals g | None => fvals gas_default end
  | _ => fvals gas_default
  end.
Definition naM (a : option (list sx)) : list N :=
  match a with
  | Some [SA nty; SL nst] => match apply_setters notif_setter (notif_new nty) nst with Some f => fvals f | None => fvals (notif_new 0) end
  | _ => fvals (notif_new 0)
  end.

Lemma gaM_call g x0 x1 x2 x3 x4 : gas_of_sx g = Some (gas_mk x0 x1 x2 x3 x4) -> gaM (Some [g]) = [x0; x1; x2; x3; x4].
Proof. intros H. cbn [gaM]. rewrite H. reflexivity. Qed.

Lemma naM_call nty nst nv : apply_setters notif_setter (notif_new nty) nst = Some (notif_shape nty nv) ->
  naM (Some [SA nty; SL nst]) = fvals (notif_shape nty nv).
Proof. intros H. cbn [naM]. rewrite H. reflexivity. Qed.

(* they serialise to what the Spec lays out for [a] *)
Lemma gaM_ref a gb : gasS a = Some gb ->
  exists x0 x1 x2 x3 x4, gaM a = [x0; x1; x2; x3; x4] /\ gb = ser_flds (gas_mk x0 x1 x2 x3 x4).
Proof.
  intros H. destruct a as [[|x [|]]|]; try discriminate H.
  - cbn [gasS] in H. destruct (gas_agrees _ _ H) as (x0 & x1 & x2 & x3 & x4 & Hg & <-).
    exists x0, x1, x2, x3, x4. split; [exact (gaM_call _ _ _ _ _ _ Hg)|reflexivity].
  - injection H as <-. exists 0, 0, 0, 0, 0. split; reflexivity.
Qed.

Lemma naM_ref a nb : notS a = Some nb -> exists nty nv, naM a = fvals (notif_shape nty nv) /\ nb = ser_flds (notif_shape nty nv).
Proof.
  intros H. destruct a as [[|[nty|] [|[|nst] [|]]]|]; try discriminate H.
  - cbn [notS] in H. destruct (notif_agrees _ _ _ H) as (nv & Hn & <-).
    exists nty, nv. split; [exact (naM_call _ _ _ Hn)|reflexivity].
  - injection H as <-. exists 0, (fun _ => 0). split; reflexivity.
Qed.

(* the error source that holds the slots [c] *)
Definition ghes_of (ty id en : N) (c : N -> option (list sx)) : flds :=
  ghes_shape ty id en (nums c) (gaM (c 4)) (naM (c 5)) (gaM (c 7)).

Lemma ghes_step ty id en c k args : ghes_setter_ok ty k args = true ->
  ghes_setter ty (ghes_of ty id en c) (SL (SA k :: args)) = Some (ghes_of ty id en (enter Some c k args)).
Proof.
  intros Hs. unfold ghes_of.
  destruct (ghes_ok_cases ty k args Hs) as [->|[->|[->|[->|[->|[->|[->|[->| ->]]]]]]]]; cbn [ghes_setter_ok] in Hs.
  (* the numeric setters: 1, 2, 3, 6, and for version 2 also 8, 9 *)
  1-3, 6: (destruct (one_num_inv _ Hs) as [v ->]; reflexivity).
  4-5: (apply andb_true_iff in Hs; destruct Hs as [Ht Hs]; apply N.eqb_eq in Ht; subst ty; destruct (one_num_inv _ Hs) as [v ->];
        reflexivity).
  - (* error status address *)
    destruct args as [|g [|]]; try discriminate Hs. destruct (gas_ref g) as [gbytes|] eqn:Eg; [|discriminate Hs].
    destruct (gas_agrees _ _ Eg) as (x0 & x1 & x2 & x3 & x4 & Hg & _).
    rewrite enter_same, (gaM_call _ _ _ _ _ _ Hg).
    cbn [ghes_setter]. rewrite Hg. reflexivity.
  - (* notification structure *)
    destruct args as [|[nty|] [|[|nst] [|]]]; try discriminate Hs. destruct (notif_ref nty nst) as [nb|] eqn:En; [|discriminate Hs].
    destruct (notif_agrees _ _ _ En) as (nv & Hn & _).
    rewrite enter_same, (naM_call _ _ _ Hn).
    cbn [ghes_setter]. rewrite Hn. reflexivity.
  - (* read ack register, version 2 *)
    apply andb_true_iff in Hs. destruct Hs as [Ht Hs]. apply N.eqb_eq in Ht. subst ty.
    destruct args as [|g [|]]; try discriminate Hs. destruct (gas_ref g) as [gbytes|] eqn:Eg; [|discriminate Hs].
    destruct (gas_agrees _ _ Eg) as (x0 & x1 & x2 & x3 & x4 & Hg & _).
    rewrite enter_same, (gaM_call _ _ _ _ _ _ Hg).
    cbn [ghes_setter]. rewrite Hg. reflexivity.
Qed.

Lemma ghes_agrees ty id en st r : ty = 9 \/ ty = 10 -> ghes_ref ty id en st = Some r ->
  exists f, apply_setters (ghes_setter ty) (ghes_new ty id en) st = Some f /\ ser_flds f = r.
Proof.
  intros Hty H. unfold ghes_ref in H.
  destruct (id <? 65536); [|discriminate H]. destruct (en <? 2); [|discriminate H]. cbn [andb] in H.
  destruct (setters_ok (ghes_setter_ok ty) st) eqn:Eok; [|discriminate H].
  pose proof (setters_run (ghes_setter ty) (ghes_setter_ok ty) (ghes_of ty id en) (ghes_step ty id en) st Eok (fun _ => None)) as Hrun.
  rewrite <- apply_setters_fold in Hrun.
  change (gas_arg 4 st) with (gasS (last_call 4 st None)) in H. change (gas_arg 7 st) with (gasS (last_call 7 st None)) in H.
  fold (notS (last_call 5 st None)) in H.
  destruct (gasS (last_call 4 st None)) as [esa|] eqn:E4; [|discriminate H].
  destruct (notS (last_call 5 st None)) as [nt|] eqn:E5; [|discriminate H].
  destruct (gasS (last_call 7 st None)) as [rar|] eqn:E7; [|discriminate H].
  destruct (gaM_ref _ _ E4) as (x0 & x1 & x2 & x3 & x4 & G4 & ->). destruct (naM_ref _ _ E5) as (nty & nv & G5 & ->).
  destruct (gaM_ref _ _ E7) as (y0 & y1 & y2 & y3 & y4 & G7 & ->).
  apply lay_some in H. subst r.
  eexists. split; [rewrite <- Hrun; reflexivity|].
  unfold ghes_of. rewrite G4, G5, G7.
  rewrite !assemble_app, !assemble_bytes by apply bytes_ok_ser_flds.
  unfold ghes_shape. destruct Hty as [-> | ->].
  - change (9 =? 10) with false. cbv iota. reflexivity.
  - change (10 =? 10) with true. cbv iota. rewrite ?assemble_app, ?assemble_bytes by apply bytes_ok_ser_flds. reflexivity.
Qed.

(* what the specification lays out for a source *)
Definition hest_src_ref (d : hest_src) : option (list N) :=
  match d with SrcAer ty c st => aer_ref ty c st | SrcGhes ty id en st => ghes_ref ty id en st end.

Lemma hest_entry_ref_cases o r : hest_entry_ref o = Some r -> exists d, hest_op o d /\ hest_src_ref d = Some r.
Proof. unfold hest_entry_ref. intros H. break_sx H; eexists; (split; [constructor|exact H]). Qed.

Lemma hest_src_agrees d r : hest_src_ok d -> hest_src_ref d = Some r -> exists f, hest_src_flds d = Some f /\ ser_flds f = r.
Proof. destruct d as [ty c st|ty id en st]; [exact (aer_agrees ty c st r)|exact (ghes_agrees ty id en st r)]. Qed.

Theorem hest_entries_are_reference o r :
  hest_entry_ref o = Some r -> exists f, hest_entry o = Some f /\ ser_flds f = r.
Proof.
  intros H. destruct (hest_entry_ref_cases o r H) as (d & Hop & Hd). rewrite (hest_op_entry o d Hop).
  exact (hest_src_agrees d r (hest_op_ok o d Hop) Hd).
Qed.

Lemma hest_addition_agrees s o r : hest_entry_ref o = Some r -> exists e, hest_addition s o = Some e /\ a_bytes e = r.
Proof.
  intros H. destruct (hest_entries_are_reference o r H) as (f & Hf & Hs). unfold hest_addition. rewrite Hf. cbn [option_bind].
  eexists. split; [reflexivity|]. exact Hs.
Qed.

(* generic error status block: judged by the Spec for counts 0 / 1 only *)
Lemma ges_agrees cc uc sev r : ges_ref cc uc sev = Some r -> ges_bytes cc uc sev = r.
Proof.
  unfold ges_ref. intros H. destruct (N.ltb_spec cc 2); [|discriminate H]. destruct (N.ltb_spec uc 2); [|discriminate H].
  destruct (sev <=? 3); [|discriminate H]. cbn [andb] in H. apply lay_some in H. subst r.
  assert (cc = 0 \/ cc = 1) as [-> | ->] by lia; assert (uc = 0 \/ uc = 1) as [-> | ->] by lia; reflexivity.
Qed.

(* a stand-alone GenericErrorData operation: the one whose image the crate writes differently from the reference *)
Definition is_ged (o : sx) : bool := match o with SL (SA 21 :: _) => true | _ => false end.

Lemma ged_is_alone o : is_ged o = true -> is_alone_op o = true.
Proof. intros H. unfold is_ged in H. break_sx H. reflexivity. Qed.

Lemma alone_ges_agrees o r : is_alone_op o = true -> is_ged o = false -> alone_ref o = Some r -> hest_alone o = Some r.
Proof.
  intros Ha Hg H. unfold alone_ref in H.
  break_sx H; try discriminate Hg.
  cbn [hest_alone]. f_equal. now apply ges_agrees.
Qed.

(* the assignments the Spec accepts are accepted by the model (whatever the structure they are applied to) *)
Lemma ged_assign_accepts st : setters_ok ged_assign_ok st = true -> forall f, exists f', apply_setters ged_assign f st = Some f'.
Proof.
  induction st as [|s st IH]; intros Hok f; [exists f; reflexivity|].
  cbn [setters_ok forallb] in Hok. apply andb_true_iff in Hok. destruct Hok as [Hs Hr].
  destruct s as [|[|[k|] args]]; try discriminate Hs.
  assert (Hstep : exists f1, ged_assign f (SL (SA k :: args)) = Some f1).
  { unfold ged_assign_ok in Hs.
    destruct k as [|p]; [discriminate Hs|]. do 4 (try (destruct p as [p|p|]; try discriminate Hs)).
    all: try (destruct (one_num_inv _ Hs) as [x ->]; eexists; reflexivity).
    all: destruct args as [|b [|]]; try discriminate Hs.
    all: try (destruct b; discriminate Hs).
    all: try (destruct b as [v|]; [|discriminate Hs]; eexists; reflexivity).
    all: cbn [ged_assign]; unfold sx_arr; destruct (sx_bytes b) as [bl|]; [|discriminate Hs]; rewrite Hs; cbn [option_bind];
         eexists; reflexivity. }
  destruct Hstep as [f1 Hstep]. destruct (IH Hr f1) as [f' Hf']. exists f'. cbn [apply_setters]. now rewrite Hstep.
Qed.

(* well-formedness of a stand-alone operation (weaker than `alone_ref o <> None`: any counts / severity) *)
Definition alone_wf (o : sx) : bool :=
  match o with
  | SL [SA 20; SL [SA _; SA _]; SA _] => true
  | SL [SA 21; SA _; SL st] => setters_ok ged_assign_ok st
  | _ => false
  end.

Definition alone_dom (o : sx) : Prop := is_alone_op o = true -> alone_wf o = true.

Lemma alone_ref_wf o : alone_ref o <> None -> alone_wf o = true.
Proof.
  intros H. unfold alone_ref in H.
  repeat match type of H with context [match ?x with _ => _ end] => is_var x; destruct x; try (exfalso; apply H; reflexivity) end.
  - cbn [alone_wf]. unfold ged_ref in H.
    match type of H with context [setters_ok ged_assign_ok ?l] => destruct (setters_ok ged_assign_ok l); [reflexivity|] end.
    rewrite andb_false_r in H. exfalso; apply H; reflexivity.
  - reflexivity.
Qed.

Lemma alone_wf_accepts o : alone_wf o = true -> exists b, hest_alone o = Some b.
Proof.
  intros H. unfold alone_wf in H.
  break_sx H.
  - cbn [hest_alone].
    match goal with |- context [apply_setters ged_assign ?f ?l] => destruct (ged_assign_accepts l H f) as [f' Hf']; rewrite Hf' end.
    cbn [option_bind]. eexists; reflexivity.
  - cbn [hest_alone]. eexists; reflexivity.
Qed.

Lemma hest_run_app md a : forall s b,
  hest_run md s (a ++ b) = match hest_run md s a with Some s1 => hest_run md s1 b | None => None end.
Proof.
  induction a as [|o a IH]; intros s b; [reflexivity|]. cbn [app hest_run]. destruct o as [n|l]; [apply IH|].
  destruct (hest_step md s (SL l)) as [[s1 evs]|]; [apply IH|reflexivity].
Qed.

(* the component-21 runner follows the generic addition runner on the history without the stand-alone operations,
   provided every stand-alone operation is one the specification defines *)
Lemma hest_run_sim md : forall ops s t',
  Forall alone_dom ops -> run_adds hest_addition md (hs_tbl s) (hest_adds ops) = Some t' ->
  exists s', hest_run md s ops = Some s' /\ hs_tbl s' = t'.
Proof.
  induction ops as [|o ops IH]; intros s t' Hd H; cbn [hest_adds filter] in H.
  - cbn [run_adds] in H. injection H as <-. exists s. split; reflexivity.
  - inversion Hd as [|? ? Ho Hd']; subst. fold (hest_adds ops) in H.
    destruct (is_alone_op o) eqn:Ea; cbn [negb] in H.
    + destruct (alone_wf_accepts o (Ho Ea)) as [b Hb].
      destruct (IH {| hs_tbl := hs_tbl s; hs_alone := Some b |} t' Hd' H) as (s' & Hrun & Ht).
      exists s'. split; [|exact Ht]. cbn [hest_run]. destruct o as [n|l]; [discriminate Ea|].
      unfold hest_step. change (is_alone (SL l)) with (is_alone_op (SL l)). rewrite Ea, Hb. cbn [option_bind]. exact Hrun.
    + cbn [run_adds] in H. destruct o as [n|l].
      * destruct (IH s t' Hd' H) as (s' & Hrun & Ht). exists s'. split; [exact Hrun|exact Ht].
      * destruct (add_step hest_addition md (hs_tbl s) (SL l)) as [[t1 evs]|] eqn:Es; [|discriminate H].
        destruct (IH {| hs_tbl := t1; hs_alone := None |} t' Hd' H) as (s' & Hrun & Ht).
        exists s'. split; [|exact Ht]. cbn [hest_run]. unfold hest_step.
        change (is_alone (SL l)) with (is_alone_op (SL l)). rewrite Ea, Es. cbn [option_bind fst snd]. exact Hrun.
Qed.

Lemma list_last_case {A} (l : list A) : l = [] \/ exists l' x, l = l' ++ [x].
Proof. destruct (rev l) as [|x r] eqn:E.
  - left. apply (f_equal (@rev A)) in E. now rewrite rev_involutive in E.
  - right. exists (rev r), x. apply (f_equal (@rev A)) in E. now rewrite rev_involutive in E.
Qed.

Lemma last_op_snoc ops o : last_op (ops ++ [o]) = Some o.
Proof. unfold last_op. rewrite frev_rev, rev_app_distr. reflexivity. Qed.

Theorem hest_refines :
  forall md ctor ops r es,
    ts_image hest_spec ctor ops = Some r ->                              (* the history is inside the specification's domain *)
    hest_entries_ref ops = Some es -> N.of_nat (40 + length (concat es)) < 2 ^ 32 ->   (* the table it builds is below 4 GiB *)
    Forall alone_dom ops ->                     (* every stand-alone operation of the history is well formed *)
    (forall o, last_op ops = Some o -> is_ged o = false) ->   (* KNOWN deviation excluded: the image shown is not a GenericErrorData *)
    exists t0 s, hest_new ctor = Some t0 /\ hest_run md {| hs_tbl := t0; hs_alone := None |} ops = Some s /\
                 Hest.hest_image s = Some r.
Proof.
  intros md ctor ops r es H Hes Hfit Hdom Hged. cbn [ts_image hest_spec] in H. unfold HestS.hest_image in H.
  destruct ctor as [|[|o [|t [|r0 [|]]]]]; try discriminate H.
  destruct (sx_hdr_args o t r0) as [[oem tb orev]|] eqn:Ea; [|discriminate H]. rewrite Hes in H.
  set (h := mk_hdr [72; 69; 83; 84] 1 (Build_hdr_args oem tb orev)).
  assert (Hnew : hest_new (SL [o; t; r0]) = Some (tbl_new KHest h []))
    by (cbn [hest_new]; rewrite (sx_hdr_of_args Ea); reflexivity).
  unfold hest_entries_ref in Hes. apply opt_seq_Forall2 in Hes.
  destruct (plain_image KHest hest_addition hest_addition_sound hest_entry_ref (fun _ => eq_refl) hest_addition_agrees
              md _ (hest_adds ops) es (hest_new_inv _ _ Hnew) eq_refl Hes) as (t' & Hrun & Href & _); [|discriminate|].
  { cbv zeta. cbn [tbl_new t_hdr t_pre].
    rewrite (length_ref_table h _ (sx_hdr_args_ok [72; 69; 83; 84] 1 eq_refl Ea)), app_length. exact Hfit. }
  destruct (hest_run_sim md ops {| hs_tbl := tbl_new KHest h []; hs_alone := None |} t' Hdom Hrun) as (s & Hs & Hts).
  exists (tbl_new KHest h []), s. split; [exact Hnew|]. split; [exact Hs|].
  change (tbl_image t' = ref_table [72; 69; 83; 84] 1 (Build_hdr_args oem tb orev) (le 4 (N.of_nat (length es)) ++ concat es)) in Href.
  destruct (list_last_case ops) as [-> | (ops' & ol & ->)].
  - cbn [hest_run] in Hs. apply Some_inj in Hs. subst s. cbn [hs_tbl] in Hts. subst t'.
    change (shows_alone []) with false in H. cbv iota in H.
    destruct (N.of_nat (length es) <? 2 ^ 32); [|discriminate H]. apply Some_inj in H. subst r.
    unfold Hest.hest_image. cbn [hs_alone hs_tbl]. now rewrite Href.
  - unfold shows_alone in H. rewrite last_op_snoc in H. specialize (Hged ol (last_op_snoc ops' ol)).
    rewrite hest_run_app in Hs. destruct (hest_run md _ ops') as [s1|]; [|discriminate Hs].
    destruct (is_alone_op ol) eqn:Eal.
    + pose proof (alone_ges_agrees ol r Eal Hged H) as Hal.
      destruct ol as [n|l]; [discriminate Eal|]. cbn [hest_run] in Hs. unfold hest_step in Hs.
      change (is_alone (SL l)) with (is_alone_op (SL l)) in Hs. rewrite Eal, Hal in Hs. cbn [option_bind] in Hs.
      apply Some_inj in Hs. subst s. reflexivity.
    + destruct (N.of_nat (length es) <? 2 ^ 32); [|discriminate H]. apply Some_inj in H. subst r.
      unfold hest_adds in Hes. rewrite filter_app in Hes. cbn [filter] in Hes. rewrite Eal in Hes. cbn [negb] in Hes.
      apply Forall2_app_inv_l in Hes. destruct Hes as (e1 & e2 & _ & He2 & _).
      assert (exists re, hest_entry_ref ol = Some re) as [re Hre] by (inversion He2; eauto).
      destruct ol as [n|l]; [discriminate Hre|]. cbn [hest_run] in Hs. unfold hest_step in Hs.
      change (is_alone (SL l)) with (is_alone_op (SL l)) in Hs. rewrite Eal in Hs.
      destruct (add_step hest_addition md (hs_tbl s1) (SL l)) as [[t1 evs]|]; [|discriminate Hs]. cbn [option_bind fst snd] in Hs.
      apply Some_inj in Hs. subst s. cbn [hs_tbl] in Hts. subst t1.
      unfold Hest.hest_image. cbn [hs_alone hs_tbl]. now rewrite Href.
Qed.

(* the same, with the stand-alone hypothesis phrased with the Spec's own judgement of stand-alone structures *)
Corollary hest_refines_spec_dom :
  forall md ctor ops r es,
    ts_image hest_spec ctor ops = Some r ->
    hest_entries_ref ops = Some es -> N.of_nat (40 + length (concat es)) < 2 ^ 32 ->
    Forall (fun o => is_alone_op o = true -> alone_ref o <> None) ops ->
    (forall o, last_op ops = Some o -> is_ged o = false) ->
    exists t0 s, hest_new ctor = Some t0 /\ hest_run md {| hs_tbl := t0; hs_alone := None |} ops = Some s /\
                 Hest.hest_image s = Some r.
Proof.
  intros md ctor ops r es H1 H2 H3 H4 H5. apply (hest_refines md ctor ops r es H1 H2 H3); [|exact H5].
  eapply Forall_impl; [|exact H4]. intros o Ho Ha. apply alone_ref_wf. exact (Ho Ha).
Qed.

(* histories without stand-alone operations: the plain statement *)
Corollary hest_table_refines :
  forall md ctor ops r,
    ts_image hest_spec ctor ops = Some r ->
    forallb (fun o => negb (is_alone_op o)) ops = true ->
    N.of_nat (length r) < 2 ^ 32 ->
    exists t0 s, hest_new ctor = Some t0 /\ hest_run md {| hs_tbl := t0; hs_alone := None |} ops = Some s /\
                 Hest.hest_image s = Some r.
Proof.
  intros md ctor ops r H Hna Hfit.
  assert (Hall : forall o, In o ops -> is_alone_op o = false).
  { intros o Hin. rewrite forallb_forall in Hna. specialize (Hna o Hin). now destruct (is_alone_op o). }
  pose proof H as H0. cbn [ts_image hest_spec] in H0. unfold HestS.hest_image in H0.
  destruct ctor as [|[|o [|t [|r0 [|]]]]]; try discriminate H0.
  destruct (sx_hdr_args o t r0) as [ha|] eqn:Ea; [|discriminate H0].
  destruct (hest_entries_ref ops) as [es|] eqn:Ees; [|discriminate H0].
  assert (Hsa : shows_alone ops = false).
  { unfold shows_alone. destruct (list_last_case ops) as [-> | (l' & x & ->)]; [reflexivity|].
    rewrite last_op_snoc. apply Hall. apply in_or_app. right. left. reflexivity. }
  rewrite Hsa in H0. destruct (N.of_nat (length es) <? 2 ^ 32); [|discriminate H0]. apply Some_inj in H0. subst r.
  rewrite (length_ref_table_args _ _ _ _ (sx_hdr_args_ok [72; 69; 83; 84] 1 eq_refl Ea)), app_length, length_le in Hfit.
  apply (hest_refines md (SL [o; t; r0]) ops _ es H Ees).
  - lia.
  - apply Forall_forall. intros x Hx Hax. rewrite (Hall x Hx) in Hax. discriminate Hax.
  - (* the last operation is not stand-alone, [Hsa] *)
    intros x Hx. unfold shows_alone in Hsa. rewrite Hx in Hsa.
    destruct (is_ged x) eqn:Eg; [|reflexivity]. rewrite (ged_is_alone x Eg) in Hsa. discriminate Hsa.
Qed.

Definition hest_both (md : mode) (ctor : sx) (ops : list sx) : option (list N) * option (list N) :=
  (ts_image hest_spec ctor ops,
   match hest_new ctor with
   | Some t0 => match hest_run md {| hs_tbl := t0; hs_alone := None |} ops with Some s => Hest.hest_image s | None => None end
   | None => None
   end).
Definition hest_demo_ctor : sx := SL [SL (map SA [1; 2; 3; 4; 5; 6]); SL (map SA [1; 2; 3; 4; 5; 6; 7; 8]); SA 77].
Definition hest_demo_ops : list sx :=
  [SL [SA 20; SL [SA 5; SA 5]; SA 9];
   SL [SA 4; SA 3; SA 1; SL [SL [SA 5; SA 3; SL [SL [SA 2; SA 1000]]]; SL [SA 4; SL [SA 1; SA 32; SA 3; SA 2; SA 1; SA 0x10]];
                             SL [SA 1; SA 9]; SL [SA 1; SA 10]]];
   SL [SA 5; SA 65535; SA 0; SL [SL [SA 7; SL [SA 0; SA 1; SA 8; SA 0; SA 1; SA 0x4000]]; SL [SA 9; SA 0xFFFFFFFFFFFFFFFF]]];
   SL [SA 1; SL [SA 1; SA 1; SA 3; SA 4; SA 5]; SL [SL [SA 8; SA 0xAABBCCDD]]];
   SL [SA 3; SL [SA 0]; SL [SL [SA 10; SA 7]; SL [SA 3; SA 0xFFFF]]]].
Definition opt_eqb (a b : option (list N)) : bool :=
  match a, b with Some x, Some y => list_N_eqb x y | _, _ => false end.

Example hest_refines_demo :
  (let (a, b) := hest_both Checked hest_demo_ctor hest_demo_ops in opt_eqb a b)
  && (let (a, b) := hest_both Wrapping hest_demo_ctor (hest_demo_ops ++ [SL [SA 20; SL [SA 1; SA 0]; SA 2]]) in opt_eqb a b)
  && (let (a, b) := hest_both Wrapping hest_demo_ctor [] in opt_eqb a b) = true.
Proof. vm_compute. reflexivity. Qed.

(* (a) KNOWN deviation: a history that ends with a stand-alone GenericErrorData is in the Spec's domain (reference: 72 bytes, ACPI 6.5
   Table 18.13 with a 16-byte section type GUID); the model, like the crate, writes 58 bytes (2-byte section type).
   Hence the hypothesis `is_ged (last op) = false` of hest_refines cannot be dropped. *)
Example hest_refines_refuted_ged :
  exists r b, hest_both Checked hest_demo_ctor [SL [SA 21; SA 0; SL []]] = (Some r, Some b) /\
              length r = 72%nat /\ length b = 58%nat /\ r <> b.
Proof.
  eexists. eexists. split; [vm_compute; reflexivity|]. split; [reflexivity|]. split; [reflexivity|].
  intros E. apply (f_equal (@length N)) in E. discriminate E.
Qed.

(* (b) a malformed stand-alone operation in the middle of a history (fru_id given 3 bytes instead of 16): Spec/HestS.v ignores
   stand-alone operations that are not the last one, so the history is in its domain; the model (and any driver of the crate,
   which has to build the [u8; 16]) refuses.  Hence the hypothesis `Forall alone_dom ops` cannot be dropped.
   This is a looseness of the Spec's domain, not a defect of the crate: the generators never emit such a case. *)
Example hest_refines_refuted_midalone :
  exists r, hest_both Checked hest_demo_ctor
              [SL [SA 21; SA 0; SL [SL [SA 7; SL [SA 1; SA 2; SA 3]]]]; SL [SA 2; SL [SA 0]; SL []]] = (Some r, None).
Proof. eexists. vm_compute. reflexivity. Qed.

Print Assumptions hest_refines.
Print Assumptions hest_table_refines.
