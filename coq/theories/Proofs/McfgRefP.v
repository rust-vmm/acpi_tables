(* MCFG: the Impl model refines the Spec (property C04 as a theorem): for every constructor argument and every finite history
   in the specification's domain, in both build modes, the model accepts the history and its image is the reference image. *)
From Coq Require Import NArith List.
From ACPI Require Import Lib.Sx Impl.Table Impl.Mcfg
  Spec.Layout Spec.McfgS Proofs.TableP Proofs.McfgP Proofs.RefCommonP Proofs.BaseP.
Import ListNotations.
Open Scope N_scope.

(* the packed EcamEntry is the reference allocation structure, for all argument values *)
Theorem mcfg_entries_are_reference s o b : mcfg_entry_ref o = Some b ->
  exists e, mcfg_addition s o = Some e /\ a_bytes e = b /\ a_flag e = t_flag s /\ a_returns e = false.
Proof.
  intros H. unfold mcfg_entry_ref in H. break_sx H.
  eexists. split; [reflexivity|]. cbn [a_bytes a_flag a_returns]. split; [|split; reflexivity].
  apply Some_inj. rewrite <- H. reflexivity.
Qed.

Lemma mcfg_agrees s o b : mcfg_entry_ref o = Some b -> exists e, mcfg_addition s o = Some e /\ a_bytes e = b.
Proof. intros H. destruct (mcfg_entries_are_reference s o b H) as (e & He & Hb & _). now exists e. Qed.

Lemma mcfg_refines_calls md ctor ops r :
  ts_image mcfg_spec ctor ops = Some r -> N.of_nat (length r) < 2 ^ 32 ->
  exists s0 s, mcfg_new ctor = Some s0 /\ run_adds mcfg_addition md s0 ops = Some s /\ tbl_image s = r /\ all_calls ops.
Proof.
  exact (plain3_accepts KMcfg [77; 67; 70; 71] mcfg_addition mcfg_entry_ref ltac:(discriminate) mcfg_addition_sound eq_refl
           (fun _ => eq_refl) mcfg_agrees md ctor ops r).
Qed.

Theorem mcfg_refines : forall md ctor ops r,
  ts_image mcfg_spec ctor ops = Some r ->
  N.of_nat (length r) < 2 ^ 32 ->
  exists s0 s, mcfg_new ctor = Some s0 /\ run_adds mcfg_addition md s0 ops = Some s /\ tbl_image s = r.
Proof. intros md ctor ops r H Hfit. exact (accepted_refines (mcfg_refines_calls md ctor ops r H Hfit)). Qed.

Lemma mcfg_no_handle s o e : mcfg_addition s o = Some e -> a_returns e = false.
Proof.
  unfold mcfg_addition. intros H. break_sx H. injection H as <-. reflexivity.
Qed.

Theorem mcfg_case_refines : forall md ctor ops r,
  ts_image mcfg_spec ctor ops = Some r -> N.of_nat (length r) < 2 ^ 32 ->
  mcfg_case md (SL (ctor :: ops ++ [SA 1])) = map (fun _ => EvNum 0) ops ++ [EvBytes r].
Proof.
  intros md ctor ops r Himg Hfit.
  exact (case_zeros (mcfg_refines_calls md ctor ops r Himg Hfit) mcfg_no_handle).
Qed.

Print Assumptions mcfg_entries_are_reference.
Print Assumptions mcfg_refines.
Print Assumptions mcfg_case_refines.
