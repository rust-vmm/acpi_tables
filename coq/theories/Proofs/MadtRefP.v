(* MADT: the Impl model refines the Spec (property C04 as a theorem).
   For every constructor argument and every finite history inside the specification's domain whose GICC / GIC MSI builder
   lists are well-formed builder calls, in both build modes, the model accepts the history and its image is byte for byte
   the reference image `ts_image madt_spec ctor ops`.
   The well-formedness hypothesis is necessary: see `madt_refines_refuted` (the Spec silently ignores an unknown builder
   call, the model -- like the harness -- refuses it). *)
From Coq Require Import NArith List Lia Bool Arith.
From ACPI Require Import Lib.Bytes Lib.Sx Lib.Machine Impl.Table Impl.Fields Impl.Madt
  Spec.Layout Spec.MadtS Proofs.TableP Proofs.MadtP Proofs.RefCommonP Proofs.BaseP Proofs.C11CommonP Proofs.SlotsP.
Import ListNotations.
Open Scope N_scope.

Definition spi_flag (acc : option (list N)) : N := match acc with Some _ => 1 | None => 0 end.

Lemma called_spi_flag k st : (if called k st then 1 else 0) = spi_flag (last_arg k st None).
Proof. unfold called, spi_flag. destruct (last_arg k st None); reflexivity. Qed.

(* a well-formed builder call of Gicc: (k v) for the twelve plain setters, (13|14 gsi trigger) for the two interrupts *)
Definition gicc_wf (o : sx) : bool :=
  match o with
  | SL [SA k; SA _] => (1 <=? k) && (k <=? 12)
  | SL [SA k; SA _; SA _] => (k =? 13) || (k =? 14)
  | _ => false
  end.

(* the Gicc struct with its settable fields as parameters (named after the setter that writes them) *)
Definition G (a1 a2 fl a3 a13 a4 a5 a6 a7 a14 a8 a9 a10 a11 a12 : N) : flds :=
  [F 1 0xB; F 1 82; F 2 0; F 4 a1; F 4 a2; F 4 fl; F 4 a3; F 4 a13; F 8 a4; F 8 a5; F 8 a6; F 8 a7;
   F 4 a14; F 8 a8; F 8 a9; F 1 a10; F 1 0; F 2 a11; F 2 a12].

Definition gicc_flags0 (status : N) : N := match status with 1 => 1 | 2 => 8 | _ => 0 end.

Lemma gicc_new_G status : gicc_new status = G 0 0 (gicc_flags0 status) 0 0 0 0 0 0 0 0 0 0 0 0.
Proof. reflexivity. Qed.

Lemma gicc_wf_cases o : gicc_wf o = true ->
  (exists k v, o = SL [SA k; SA v] /\
     (k = 1 \/ k = 2 \/ k = 3 \/ k = 4 \/ k = 5 \/ k = 6 \/ k = 7 \/ k = 8 \/ k = 9 \/ k = 10 \/ k = 11 \/ k = 12)) \/
  (exists k g e, o = SL [SA k; SA g; SA e] /\ (k = 13 \/ k = 14)).
Proof.
  unfold gicc_wf. intros H.
  destruct o as [n|[|[k|?] [|[v|?] [|[w|?] [|? ?]]]]]; try discriminate H.
  - left. exists k, v. split; [reflexivity|]. apply andb_true_iff in H. destruct H as [H1 H2].
    apply N.leb_le in H1. apply N.leb_le in H2. lia.
  - right. exists k, v, w. split; [reflexivity|]. apply orb_true_iff in H. destruct H as [H|H]; apply N.eqb_eq in H; auto.
Qed.

Lemma match_ne1 {A} (e : N) (x y : A) : e <> 1 -> match e with 1 => x | _ => y end = y.
Proof. intros H. destruct e as [|[p|p|]]; try reflexivity. congruence. Qed.

(* the Spec's flags word *)
Definition gicc_flags_word (s1 e13 e14 s2 : bool) : N :=
  (if s1 then 1 else 0) + (if e13 then 2 else 0) + (if e14 then 4 else 0) + (if s2 then 8 else 0).

Lemma gicc_flags_lor2 s1 e13 e14 s2 : N.lor (gicc_flags_word s1 e13 e14 s2) 2 = gicc_flags_word s1 true e14 s2.
Proof. destruct s1, e13, e14, s2; reflexivity. Qed.
Lemma gicc_flags_lor4 s1 e13 e14 s2 : N.lor (gicc_flags_word s1 e13 e14 s2) 4 = gicc_flags_word s1 e13 true s2.
Proof. destruct s1, e13, e14, s2; reflexivity. Qed.

Lemma gicc_flags0_word status : gicc_flags0 status = gicc_flags_word (status =? 1) false false (status =? 2).
Proof. destruct status as [|[[p|p|]|[p|p|]|]]; reflexivity. Qed.

(* an interrupt call (k gsi 1): edge-triggered *)
Definition is_edge (k : N) (s : sx) : bool := match s with SL [SA k'; _; SA 1] => k' =? k | _ => false end.

Lemma not_edge k k' g t : t <> 1 -> is_edge k (SL [SA k'; SA g; SA t]) = false.
Proof. intros H. exact (match_ne1 t _ _ H). Qed.

(* the Gicc struct that holds the slots [c]; [e 13] / [e 14]: the performance / maintenance interrupt was given edge-triggered *)
Definition gicc_of_slots (s1 s2 : bool) (c : N -> option (list N)) (e : N -> bool) : flds :=
  G (val (c 1)) (val (c 2)) (gicc_flags_word s1 (e 13) (e 14) s2) (val (c 3)) (val (c 13)) (val (c 4)) (val (c 5)) (val (c 6))
    (val (c 7)) (val (c 14)) (val (c 8)) (val (c 9)) (val (c 10)) (val (c 11)) (val (c 12)).

Lemma gicc_step s1 s2 c e o : gicc_wf o = true ->
  exists k args, o = SL (SA k :: args) /\
    gicc_setter (gicc_of_slots s1 s2 c e) o = Some (gicc_of_slots s1 s2 (enter sx_nums c k args) (mark is_edge e o)).
Proof.
  intros H. destruct (gicc_wf_cases o H) as [(k & v & -> & Hk)|(k & g & t & -> & Hk)]; eexists _, _; (split; [reflexivity|]).
  - destruct Hk as [->|[->|[->|[->|[->|[->|[->|[->|[->|[->|[->| ->]]]]]]]]]]]; reflexivity.
  - (* an interrupt: the model ors bit 1 / bit 2 into the flags word iff the trigger is 1 *)
    unfold gicc_of_slots, mark. destruct Hk as [->| ->]; destruct (N.eqb_spec t 1) as [->|Hne].
    + cbn [is_edge orb N.eqb Pos.eqb]. rewrite <- (gicc_flags_lor2 s1 (e 13)). reflexivity.
    + rewrite !(not_edge _ _ g t Hne). cbn [gicc_setter]. rewrite (proj2 (N.eqb_neq t 1) Hne). reflexivity.
    + cbn [is_edge orb N.eqb Pos.eqb]. rewrite <- (gicc_flags_lor4 s1 (e 13) (e 14)). reflexivity.
    + rewrite !(not_edge _ _ g t Hne). cbn [gicc_setter]. rewrite (proj2 (N.eqb_neq t 1) Hne). reflexivity.
Qed.

(* GICC: for every status value and every well-formed builder chain the model's bytes are the reference layout *)
Lemma madt_gicc_is_reference status st : forallb gicc_wf st = true ->
  exists f, apply_setters gicc_setter (gicc_new status) st = Some f /\
            madt_entry_ref (SL [SA 3; SA status; SL st]) = Some (ser_flds f).
Proof.
  intros Hwf.
  pose proof (slots_run sx_nums gicc_setter gicc_wf (gicc_of_slots (status =? 1) (status =? 2)) (mark is_edge)
                (gicc_step _ _) st Hwf (fun _ => None) (fun _ => false)) as Hrun.
  rewrite <- apply_setters_fold in Hrun.
  eexists. split; [rewrite gicc_new_G, gicc_flags0_word; exact Hrun|].
  unfold gicc_of_slots. rewrite !marks_of, !orb_false_r. reflexivity.
Qed.

Definition msi_wf (o : sx) : bool :=
  match o with
  | SL [SA k; SA _] => (k =? 1) || (k =? 2)
  | SL [SA k; SA _; SA _] => k =? 3
  | _ => false
  end.

Definition msi_flds (a1 a2 fl cnt base : N) : flds := [F 1 0xD; F 1 24; F 2 0; F 4 a1; F 8 a2; F 4 fl; F 2 cnt; F 2 base].

Lemma msi_wf_cases o : msi_wf o = true ->
  (exists v, o = SL [SA 1; SA v]) \/ (exists v, o = SL [SA 2; SA v]) \/ (exists c b, o = SL [SA 3; SA c; SA b]).
Proof.
  unfold msi_wf. intros H.
  destruct o as [n|[|[k|?] [|[v|?] [|[w|?] [|? ?]]]]]; try discriminate H.
  - apply orb_true_iff in H. destruct H as [H|H]; apply N.eqb_eq in H; subst; eauto.
  - apply N.eqb_eq in H; subst. right; right; eauto.
Qed.

Definition msi_of_slots (c : N -> option (list N)) : flds := msi_flds (val (c 1)) (val (c 2)) (spi_flag (c 3)) (val (c 3)) (val1 (c 3)).

Lemma msi_step c o : msi_wf o = true ->
  exists k args, o = SL (SA k :: args) /\ gicmsi_setter (msi_of_slots c) o = Some (msi_of_slots (enter sx_nums c k args)).
Proof. intros H. destruct (msi_wf_cases o H) as [(v & ->)|[(v & ->)|(n & b & ->)]]; eexists _, _; split; reflexivity. Qed.

Lemma madt_gicmsi_is_reference st : forallb msi_wf st = true ->
  exists f, apply_setters gicmsi_setter gicmsi_new st = Some f /\
            madt_entry_ref (SL [SA 5; SL st]) = Some (ser_flds f).
Proof.
  intros Hwf. pose proof (slots_only sx_nums gicmsi_setter msi_wf msi_of_slots msi_step st Hwf (fun _ => None)) as Hrun.
  rewrite <- apply_setters_fold in Hrun. eexists. split; [exact Hrun|].
  cbn [madt_entry_ref]. rewrite called_spi_flag. reflexivity.
Qed.

(* an operation of the case vocabulary whose builder lists are well-formed builder calls *)
Definition madt_op_wf (o : sx) : bool :=
  match o with
  | SL [SA 3; _; SL st] => forallb gicc_wf st
  | SL [SA 5; SL st] => forallb msi_wf st
  | _ => true
  end.

(* a kind whose fields are all numbers: the model's struct is computed, and serialises to the Spec's layout *)
Ltac fin H := eexists; split; [reflexivity|]; apply Some_inj; rewrite <- H; reflexivity.

(* APLIC, PLIC: the same once the 8 hardware-id bytes are named *)
Lemma madt_hw_id hw hwb : sx_bytes hw = Some hwb -> length hwb = 8%nat ->
  sx_arr 8 hw = Some hwb /\ exists h0 h1 h2 h3 h4 h5 h6 h7, hwb = [h0; h1; h2; h3; h4; h5; h6; h7].
Proof.
  intros Ehw Hl. split; [exact (sx_arr_of_bytes _ _ _ Ehw Hl)|].
  do 8 (destruct hwb as [|? hwb]; [discriminate Hl|]). destruct hwb; [|discriminate Hl]. now do 8 eexists.
Qed.

(* C04 per entry, for every operation kind and all argument values:
   whatever the Spec lays out for an operation, the model accepts the operation and serialises to exactly those bytes *)
Theorem madt_entries_are_reference o b :
  madt_op_wf o = true -> madt_entry_ref o = Some b ->
  exists f, madt_entry o = Some f /\ ser_flds f = b.
Proof.
  intros Hwf H. destruct (madt_ref_shape o b H); cbn [madt_op_wf] in Hwf.
  - (* local APIC *) fin H.
  - (* I/O APIC *) fin H.
  - (* GICC *)
    destruct (madt_gicc_is_reference status st Hwf) as (f & Hf & Hr).
    exists f. split; [exact Hf|]. rewrite Hr in H. now injection H.
  - (* GICD *) fin H.
  - (* GIC MSI frame *)
    destruct (madt_gicmsi_is_reference st Hwf) as (f & Hf & Hr).
    exists f. split; [exact Hf|]. rewrite Hr in H. now injection H.
  - (* GICR *) fin H.
  - (* GIC ITS *) fin H.
  - (* RINTC *) fin H.
  - (* IMSIC *) fin H.
  - (* IMSIC through add_imsic *) fin H.
  - (* APLIC *)
    cbn [madt_entry_ref] in H. destruct (sx_bytes hw) as [hwb|] eqn:Ehw; [|discriminate H].
    destruct (Nat.eqb_spec (length hwb) 8) as [Hl|]; [|discriminate H].
    destruct (madt_hw_id hw hwb Ehw Hl) as (Ha & h0 & h1 & h2 & h3 & h4 & h5 & h6 & h7 & ->).
    cbn [madt_entry]. rewrite Ha. cbn [option_bind]. fin H.
  - (* PLIC *)
    cbn [madt_entry_ref] in H. destruct (sx_bytes hw) as [hwb|] eqn:Ehw; [|discriminate H].
    destruct (Nat.eqb_spec (length hwb) 8) as [Hl|]; [|discriminate H].
    destruct (madt_hw_id hw hwb Ehw Hl) as (Ha & h0 & h1 & h2 & h3 & h4 & h5 & h6 & h7 & ->).
    cbn [madt_entry]. rewrite Ha. cbn [option_bind]. fin H.
Qed.

Definition madt_ops_wf (ops : list sx) : Prop := Forall (fun o => madt_op_wf o = true) ops.

(* the specification's side keeps "an IMSIC was added" (the Spec counts the add_imsic operations of the whole history, the
   model refuses the second one when it comes) *)
Definition madt_ref_step (g : bool) (o : sx) : option (list N * bool) :=
  if is_imsic_add o && g then None
  else option_map (fun e => (e, g || is_imsic_add o)) (wf_only madt_op_wf madt_entry_ref o).

Lemma madt_ref_run ops es : Forall2 (fun o e => wf_only madt_op_wf madt_entry_ref o = Some e) ops es ->
  forall g : bool, (length (filter is_imsic_add ops) <= (if g then 0 else 1))%nat -> ref_run madt_ref_step g ops es.
Proof.
  induction 1 as [|o e ops es H _ IH]; intros g Hc; [constructor|].
  cbn [filter] in Hc. apply ref_cons with (g' := g || is_imsic_add o).
  - unfold madt_ref_step. rewrite H. destruct (is_imsic_add o), g; cbn [length] in Hc; try reflexivity; lia.
  - apply IH. destruct (is_imsic_add o), g; cbn [length orb] in *; lia.
Qed.

Lemma madt_step_agrees g s o e g' :
  t_flag s = g -> madt_ref_step g o = Some (e, g') ->
  exists a, madt_addition s o = Some a /\ a_bytes a = e /\ a_flag a = g'.
Proof.
  intros <- H. unfold madt_ref_step in H. destruct (is_imsic_add o && t_flag s) eqn:Ei; [discriminate|].
  unfold wf_only in H. destruct (madt_op_wf o) eqn:Hwf; [|discriminate].
  destruct (madt_entry_ref o) as [b|] eqn:Eb; [|discriminate]. injection H as <- <-.
  destruct (madt_entries_are_reference o b Hwf Eb) as (f & Hf & Hb).
  unfold madt_addition. change (match o with SL (SA 10 :: _) => true | _ => false end) with (is_imsic_add o).
  rewrite Ei, Hf. cbn [negb assert option_bind]. eexists. repeat split. exact Hb.
Qed.

Lemma madt_refines_calls md ctor ops r :
  ts_image madt_spec ctor ops = Some r -> madt_ops_wf ops -> N.of_nat (length r) < 2 ^ 32 ->
  exists s0 s, madt_new ctor = Some s0 /\ run_adds madt_addition md s0 ops = Some s /\ tbl_image s = r /\ all_calls ops.
Proof.
  intros Himg Hwf Hfit. cbn [ts_image madt_spec] in Himg. unfold madt_image, madt_entries_ref in Himg.
  destruct ctor as [n|[|o [|t [|rv [|lic [|x l]]]]]]; try discriminate Himg.
  destruct (sx_hdr_args o t rv) as [[oem tb orev]|] eqn:Eha; [|discriminate Himg].
  destruct (match lic with SL [] => Some 0 | SL [SA a] => Some a | _ => None end) as [addr|] eqn:Elic; [|discriminate Himg].
  destruct (Nat.ltb_spec 1 (length (filter is_imsic_add ops))) as [|Hcnt]; [discriminate Himg|].
  rewrite <- (wf_only_map madt_op_wf _ ops Hwf) in Himg.
  destruct (opt_concat _) as [es|] eqn:Ees; [|discriminate Himg].
  injection Himg as <-.
  assert (Hnew : madt_new (SL [o; t; rv; lic]) =
                 Some (tbl_new KMadt (mk_hdr [65; 80; 73; 67] 1 (Build_hdr_args oem tb orev)) (d4 addr ++ d4 0)))
    by (unfold madt_new; rewrite (sx_hdr_of_args Eha); cbn [option_bind]; rewrite Elic; reflexivity).
  destruct (sim_image KMadt madt_addition madt_addition_sound madt_ref_step (fun _ _ => eq_refl)
              (fun g _ _ fl => fl = g) madt_step_agrees md _ false ops es (madt_new_inv _ _ Hnew) eq_refl eq_refl
              (madt_ref_run ops es (opt_concat_Forall2 _ _ _ Ees) false Hcnt) Hfit) as (s & Hr & Hi & Hc); [discriminate|].
  eexists _, s. repeat split; eassumption.
Qed.

Theorem madt_refines : forall md ctor ops r,
  ts_image madt_spec ctor ops = Some r ->
  madt_ops_wf ops ->
  N.of_nat (length r) < 2 ^ 32 ->
  exists s0 s, madt_new ctor = Some s0 /\ run_adds madt_addition md s0 ops = Some s /\ tbl_image s = r.
Proof. intros md ctor ops r Himg Hwf Hfit. exact (accepted_refines (madt_refines_calls md ctor ops r Himg Hwf Hfit)). Qed.

Lemma madt_no_handle s o e : madt_addition s o = Some e -> a_returns e = false.
Proof.
  unfold madt_addition. destruct (assert _); [|discriminate]. cbn [option_bind].
  destruct (madt_entry o); [|discriminate]. cbn [option_bind]. intros [= <-]. reflexivity.
Qed.

Theorem madt_case_refines : forall md ctor ops r,
  ts_image madt_spec ctor ops = Some r -> madt_ops_wf ops -> N.of_nat (length r) < 2 ^ 32 ->
  madt_case md (SL (ctor :: ops ++ [SA 1])) = map (fun _ => EvNum 0) ops ++ [EvBytes r].
Proof.
  intros md ctor ops r Himg Hwf Hfit.
  exact (case_zeros (madt_refines_calls md ctor ops r Himg Hwf Hfit) madt_no_handle).
Qed.

(* The Spec's GICC / GIC MSI layouts read "the last value given to setter k" and ignore list elements that are not a known
   builder call, so `ts_image` is defined on a history whose builder list contains an unknown call; the model (like the
   harness, which panics with "bad msi setter") refuses it.  Smallest witness: one GIC MSI frame with the builder list ((0)). *)
Definition madt_witness_ctor : sx :=
  SL [SL [SA 0; SA 0; SA 0; SA 0; SA 0; SA 0]; SL [SA 0; SA 0; SA 0; SA 0; SA 0; SA 0; SA 0; SA 0]; SA 0; SL []].
Definition madt_witness_ops : list sx := [SL [SA 5; SL [SL [SA 0]]]].

Example madt_refines_refuted :
  exists r, ts_image madt_spec madt_witness_ctor madt_witness_ops = Some r /\ N.of_nat (length r) < 2 ^ 32 /\
    forall md, exists s0, madt_new madt_witness_ctor = Some s0 /\ run_adds madt_addition md s0 madt_witness_ops = None.
Proof.
  eexists. split; [vm_compute; reflexivity|]. split; [vm_compute; reflexivity|].
  intros md. eexists. split; [reflexivity|]. destruct md; vm_compute; reflexivity.
Qed.

Print Assumptions madt_entries_are_reference.
Print Assumptions madt_refines.
Print Assumptions madt_case_refines.
Print Assumptions madt_refines_refuted.
