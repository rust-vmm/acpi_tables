(* Builder chains.  A structure is built by a list of builder calls ((k args ...) ...).  The model folds a partial step over the
   list; every specification reads the list through summaries: the arguments of the LAST call of builder k (`MadtS.last_arg`,
   `FixedS.last_call`, `GasS.last_call`: one function, `last_of`, up to conversion, since its [dec] stands outside the [fix]) and whether a call of some kind occurs (`MadtS.ever`,
   `FixedS.was_called`).  `slots_run`: if ONE call on the structure that holds the slots [c] (and whatever else, [x]) gives the
   structure that holds the slots with that call entered, then the fold over a well-formed list gives the structure that holds the
   specification's summaries.  What remains to show per structure is the one-call fact. *)
From Coq Require Import NArith List Bool.
From ACPI Require Import Lib.Sx Spec.MadtS Spec.GasS Spec.FixedS Proofs.C11CommonP.
Import ListNotations.
Open Scope N_scope.

Section Last.
  Context {A : Type}.
  Variable dec : list sx -> option A.       (* what is kept of a call's arguments *)

  Fixpoint last_of (k : N) (st : list sx) (acc : option A) : option A :=
    match st with
    | [] => acc
    | SL (SA k' :: args) :: r => last_of k r (if k' =? k then dec args else acc)
    | _ :: r => last_of k r acc
    end.

  Definition enter (c : N -> option A) (k : N) (args : list sx) : N -> option A := fun q => if k =? q then dec args else c q.

  Lemma enter_same c k args : enter c k args k = dec args.
  Proof. unfold enter. now rewrite N.eqb_refl. Qed.
End Last.

Section SlotsRun.
  Context {A X S : Type}.
  Variable dec : list sx -> option A.
  Variable step : S -> sx -> option S.              (* one builder call of the model *)
  Variable wf : sx -> bool.
  Variable abs : (N -> option A) -> X -> S.         (* the structure that holds the slots [c] and the rest [x] *)
  Variable xstep : X -> sx -> X.                    (* what a call does to the rest *)
  Hypothesis step_abs : forall c x o, wf o = true ->
    exists k args, o = SL (SA k :: args) /\ step (abs c x) o = Some (abs (enter dec c k args) (xstep x o)).

  (* no extensionality of [abs] is needed: once [o] is a call of [k], the slots read from [o :: st] starting at [c] and those
     read from [st] starting at [enter dec c k args] are the same term up to conversion *)
  Theorem slots_run st : forallb wf st = true -> forall c x,
    fold_opt step (abs c x) st = Some (abs (fun k => last_of dec k st (c k)) (fold_left xstep st x)).
  Proof.
    induction st as [|o st IH]; intros Hwf c x; [reflexivity|].
    cbn [forallb] in Hwf. apply andb_true_iff in Hwf. destruct Hwf as [Ho Hst].
    destruct (step_abs c x o Ho) as (k & args & -> & E). cbn [fold_opt]. rewrite E.
    exact (IH Hst (enter dec c k args) (xstep x (SL (SA k :: args)))).
  Qed.
End SlotsRun.

Corollary slots_only {A S} (dec : list sx -> option A) (step : S -> sx -> option S) wf (abs : (N -> option A) -> S) :
  (forall c o, wf o = true -> exists k args, o = SL (SA k :: args) /\ step (abs c) o = Some (abs (enter dec c k args))) ->
  forall st, forallb wf st = true -> forall c, fold_opt step (abs c) st = Some (abs (fun k => last_of dec k st (c k))).
Proof.
  intros H st Hwf c.
  exact (slots_run dec step wf (fun c (_ : unit) => abs c) (fun x _ => x) (fun c _ => H c) st Hwf c tt).
Qed.

Corollary setters_run {S} (step : S -> sx -> option S) ok (abs : (N -> option (list sx)) -> S) :
  (forall c k args, ok k args = true -> step (abs c) (SL (SA k :: args)) = Some (abs (enter Some c k args))) ->
  forall st, setters_ok ok st = true -> forall c, fold_opt step (abs c) st = Some (abs (fun k => GasS.last_call k st (c k))).
Proof.
  intros H. apply slots_only. intros c o Ho.
  destruct o as [|[|[k|] args]]; try discriminate Ho.
  exists k, args. split; [reflexivity|exact (H c k args Ho)].
Qed.

(* The summaries that are not slots: "a call that satisfies [p k] occurs".  As the rest [x] of a structure: [x k] tells whether
   one has occurred so far. *)
Definition mark (p : N -> sx -> bool) (x : N -> bool) (o : sx) : N -> bool := fun k => p k o || x k.

Lemma marks_of p st k : forall x, fold_left (mark p) st x k = existsb (p k) st || x k.
Proof.
  induction st as [|o st IH]; intros x; cbn [fold_left existsb]; [reflexivity|].
  rewrite IH. unfold mark. rewrite orb_assoc, (orb_comm (p k o)). reflexivity.
Qed.
