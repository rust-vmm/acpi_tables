(* The generic table refines a plain byte vector with a self-maintaining header (C13), primitive by primitive: what append,
   append_slice, the sink and write_bytes of Impl/Sdt.v compute, in closed form ([sappend], [write_refines]) and in the words of
   Spec/SdtS.v.  Proofs/SdtHistP.v puts them together, operation by operation.
   The file opens with the lemmas about [upd] and [write_at] (Lib/Bytes.v) that only these proofs use. *)
From Coq Require Import NArith List Lia Bool Arith.
From ACPI Require Import Lib.Bytes Lib.Sx Lib.Machine Impl.Checksum Impl.Sdt Spec.Layout Spec.SdtS Proofs.ChecksumP Proofs.BaseP.
Import ListNotations.
Open Scope N_scope.

Lemma nth_upd {A} (l : list A) i j v d : (i < length l)%nat -> nth j (upd l i v) d = if Nat.eqb j i then v else nth j l d.
Proof.
  intros H. destruct (Nat.eqb_spec j i) as [->|Hne]; [now apply nth_upd_same|]. apply nth_upd_other. congruence.
Qed.

Lemma nth_firstn' {A} (l : list A) k i d : (i < k)%nat -> nth i (firstn k l) d = nth i l d.
Proof.
  revert l i; induction k as [|k IH]; intros l i H; [lia|]. destruct l; cbn [firstn]; [reflexivity|].
  destruct i; cbn [nth]; [reflexivity|]. apply IH. lia.
Qed.

Lemma upd_upd {A} (l : list A) i a b : upd (upd l i a) i b = upd l i b.
Proof. revert i; induction l as [|x l IH]; intros [|i]; cbn [upd]; [reflexivity..|]. now rewrite IH. Qed.

Lemma upd_split {A} (l : list A) i v : (i < length l)%nat -> upd l i v = firstn i l ++ [v] ++ skipn (S i) l.
Proof.
  revert i; induction l as [|x l IH]; intros [|i] H; cbn [length] in H; try lia; cbn [upd firstn skipn app]; [reflexivity|].
  rewrite IH by lia. reflexivity.
Qed.

Lemma length_d4 n : length (d4 n) = 4%nat.
Proof. apply length_le. Qed.

Lemma length_update_checksum d : length (sdt_update_checksum d) = length d.
Proof. unfold sdt_update_checksum. now rewrite !length_upd. Qed.

(* side conditions about the lengths of the lists built here: rewrite them out, then [lia] *)
Global Hint Rewrite @app_length @firstn_length @skipn_length @length_upd @length_le length_d4 @length_repeatN
  length_update_checksum : len.
Global Hint Rewrite @length_write_at using (autorewrite with len; lia) : len.
Ltac lens := autorewrite with len; cbn [length]; lia.

Lemma nth_write_at {A} (l : list A) off bs j d : (off + length bs <= length l)%nat ->
  nth j (write_at l off bs) d = if (Nat.leb off j && Nat.ltb j (off + length bs))%bool then nth (j - off) bs d else nth j l d.
Proof.
  intros H. rewrite write_at_spec by exact H.
  destruct (Nat.leb_spec off j) as [Hle|Hgt]; cbn [andb].
  - rewrite app_nth2; autorewrite with len; rewrite ?Nat.min_l by lia; [|lia].
    destruct (Nat.ltb_spec j (off + length bs)) as [Hlt|Hge]; [now rewrite app_nth1 by lia|].
    rewrite app_nth2, nth_skipn' by lia. f_equal. lia.
  - rewrite app_nth1 by lens. apply nth_firstn'. lia.
Qed.

Lemma write_at_nil {A} (v : list A) : write_at v 0 [] = v.
Proof. destruct v; reflexivity. Qed.

Lemma write_at_app {A} (v c : list A) off bs : (off + length bs <= length v)%nat ->
  write_at (v ++ c) off bs = write_at v off bs ++ c.
Proof.
  intros H. rewrite !write_at_spec by lens.
  rewrite firstn_app, skipn_app. replace (off - length v)%nat with 0%nat by lia.
  replace (off + length bs - length v)%nat with 0%nat by lia. cbn [firstn skipn]. rewrite app_nil_r, <- !app_assoc. reflexivity.
Qed.

Lemma write_at_end {A} (a z y : list A) : length z = length y -> write_at (a ++ z) (length a) y = a ++ y.
Proof.
  intros H. rewrite write_at_spec by lens. rewrite firstn_app_exact, skipn_all2 by lens. now rewrite app_nil_r.
Qed.

Lemma write_at_twice {A} (v : list A) off a b : length a = length b -> (off + length a <= length v)%nat ->
  write_at (write_at v off a) off b = write_at v off b.
Proof.
  intros Hab H. rewrite (write_at_spec (write_at v off a)), !write_at_spec by lens.
  rewrite firstn_app, firstn_length, Nat.min_l, Nat.sub_diag by lia. cbn [firstn]. rewrite app_nil_r, firstn_firstn, Nat.min_id.
  f_equal. f_equal. rewrite app_assoc, <- Hab.
  replace (off + length a)%nat with (length (firstn off v ++ a)) at 1 by lens. apply skipn_app_exact.
Qed.

Lemma update_checksum_spec d : (10 <= length d)%nat -> sdt_update_checksum d = with_checksum d.
Proof.
  intros H. unfold sdt_update_checksum, with_checksum. rewrite upd_upd, !(upd_split d 9) by lia.
  now rewrite gen_cks_value.
Qed.

Lemma sumN_upd l i v : (i < length l)%nat -> sumN (upd l i v) + nth i l 0 = sumN l + v.
Proof.
  revert i; induction l as [|x l IH]; intros [|i] H; cbn [length upd sumN nth] in *; try lia.
  specialize (IH i ltac:(lia)). lia.
Qed.

(* sdt.rs ends every mutation with update_checksum: hence every image it leaves sums to 0 *)
Lemma update_checksum_sums d : (10 <= length d)%nat -> sum8 (sdt_update_checksum d) = 0.
Proof.
  intros H. unfold sdt_update_checksum, sum8. set (z := upd d 9 0).
  assert (Hz : nth 9 z 0 = 0) by (apply nth_upd_same; lia).
  pose proof (sumN_upd z 9 (generate_checksum z) ltac:(unfold z; rewrite length_upd; lia)) as E. rewrite Hz in E.
  destruct (generate_checksum_spec z) as [G _]. rewrite <- G. f_equal. lia.
Qed.

Lemma with_checksum_props v : (10 <= length v)%nat -> sum8 (with_checksum v) = 0 /\ length (with_checksum v) = length v.
Proof.
  intros H. rewrite <- update_checksum_spec by exact H. split; [now apply update_checksum_sums|apply length_update_checksum].
Qed.

(* two vectors that agree everywhere except possibly at byte 9 get the same checksummed image; so a checksum update is
   absorbed by a later one, whatever byte-wise edits lie in between *)
Definition agree9 (a b : list N) : Prop := length a = length b /\ forall i, i <> 9%nat -> nth i a 0 = nth i b 0.

Lemma update_checksum_ext a b : (10 <= length a)%nat -> agree9 a b -> sdt_update_checksum a = sdt_update_checksum b.
Proof.
  intros Hl [Hlen Hn]. unfold sdt_update_checksum. enough (E : upd a 9 0 = upd b 9 0) by now rewrite E.
  apply (nth_ext _ _ 0 0); [lens|]. intros i Hi. rewrite !nth_upd by lia.
  destruct (Nat.eqb_spec i 9); [reflexivity|now apply Hn].
Qed.

Lemma agree9_update_checksum a : (10 <= length a)%nat -> agree9 (sdt_update_checksum a) a.
Proof.
  intros H. split; [apply length_update_checksum|]. intros i Hi. unfold sdt_update_checksum.
  rewrite upd_upd, nth_upd by lia. now destruct (Nat.eqb_spec i 9).
Qed.

Lemma agree9_write_at a b off bs : (off + length bs <= length a)%nat -> agree9 a b -> agree9 (write_at a off bs) (write_at b off bs).
Proof.
  intros H [Hlen Hn]. split; [lens|].
  intros i Hi. rewrite !nth_write_at by lia. destruct (Nat.leb off i && Nat.ltb i (off + length bs))%bool; [reflexivity|now apply Hn].
Qed.

Lemma agree9_app a b c : agree9 a b -> agree9 (a ++ c) (b ++ c).
Proof.
  intros [Hlen Hn]. split; [lens|]. intros i Hi.
  destruct (Nat.lt_ge_cases i (length a)).
  - rewrite !app_nth1 by lia. now apply Hn.
  - rewrite !app_nth2 by lia. now rewrite Hlen.
Qed.

Lemma update_checksum_write_at a off bs : (10 <= length a)%nat -> (off + length bs <= length a)%nat ->
  sdt_update_checksum (write_at (sdt_update_checksum a) off bs) = sdt_update_checksum (write_at a off bs).
Proof. intros Ha H. apply update_checksum_ext; [lens|]. apply agree9_write_at; [lens|]. now apply agree9_update_checksum. Qed.

Lemma update_checksum_app a c : (10 <= length a)%nat ->
  sdt_update_checksum (sdt_update_checksum a ++ c) = sdt_update_checksum (a ++ c).
Proof. intros Ha. apply update_checksum_ext; [lens|]. apply agree9_app. now apply agree9_update_checksum. Qed.

Lemma update_checksum_write_at_app a off bs c : (10 <= length a)%nat -> (off + length bs <= length a)%nat ->
  sdt_update_checksum (write_at (sdt_update_checksum a) off bs ++ c) = sdt_update_checksum (write_at a off bs ++ c).
Proof.
  intros Ha H. apply update_checksum_ext; [lens|]. apply agree9_app, agree9_write_at; [lens|]. now apply agree9_update_checksum.
Qed.

Lemma length_field_ext a b : length a = length b -> (forall i, (4 <= i < 8)%nat -> nth i a 0 = nth i b 0) ->
  field_at a 4 4 = field_at b 4 4.
Proof.
  intros Hl Hn. unfold field_at. f_equal. apply (nth_ext _ _ 0 0); [now rewrite !firstn_length, !skipn_length, Hl|].
  intros i Hi. rewrite firstn_length in Hi. rewrite !nth_firstn', !nth_skipn' by lia. apply Hn. lia.
Qed.

Lemma length_field_update_checksum v : (10 <= length v)%nat -> field_at (sdt_update_checksum v) 4 4 = field_at v 4 4.
Proof. intros H. destruct (agree9_update_checksum v H) as [Hl Hn]. apply length_field_ext; [exact Hl|]. intros i Hi. apply Hn. lia. Qed.

Lemma field_at_write_at v off bs : (off + length bs <= length v)%nat -> field_at (write_at v off bs) off (length bs) = unle bs.
Proof.
  intros H. unfold field_at. rewrite write_at_spec by lens. replace off with (length (firstn off v)) at 1 by lens.
  now rewrite skipn_app_exact, firstn_app_exact.
Qed.

Lemma write_bytes_refuse md data off bs :
  off < 2 ^ 64 -> N.of_nat (length bs) < 2 ^ 64 ->          (* usize arguments, slices below isize::MAX *)
  N.of_nat (length data) < off + N.of_nat (length bs) -> sdt_write_bytes md data off bs = None.
Proof.
  intros Ho Hb H. unfold sdt_write_bytes, add_m, U64.
  destruct (N.ltb_spec (off + N.of_nat (length bs)) (2 ^ 64)) as [Hs|Hs]; cbn [option_bind].
  - destruct (N.leb_spec (off + N.of_nat (length bs)) (N.of_nat (length data))); [lia|reflexivity].
  - destruct md; [reflexivity|]. cbn [option_bind].
    (* release profile: the wrapped end lies before the offset *)
    destruct (N.leb_spec off ((off + N.of_nat (length bs)) mod 2 ^ 64)) as [Hc|Hc];
      [exfalso; lia|now destruct (_ <=? N.of_nat (length data))].
Qed.

Lemma write_bytes_accept md data off bs :
  off + N.of_nat (length bs) <= N.of_nat (length data) -> N.of_nat (length data) < 2 ^ 64 ->
  sdt_write_bytes md data off bs = Some (sdt_update_checksum (write_at data (N.to_nat off) bs)).
Proof.
  intros H Hd. unfold sdt_write_bytes, add_m, U64.
  destruct (N.ltb_spec (off + N.of_nat (length bs)) (2 ^ 64)); [|lia]. cbn [option_bind].
  destruct (N.leb_spec (off + N.of_nat (length bs)) (N.of_nat (length data))); [|lia]. cbn [assert option_bind].
  destruct (N.leb_spec off (off + N.of_nat (length bs))); [|lia]. reflexivity.
Qed.

(* The table after [bs] has been appended to [v], as the code computes it.  Every appending operation of the model equals it
   ([append_refines], [append_slice_refines], [sink_vec_refines]), it is the Spec's [with_checksum (with_length (v ++ bs))]
   ([sappend_spec]), and the later files reason about appends through it only. *)
Definition sappend (v bs : list N) : list N :=
  sdt_update_checksum (write_at (v ++ bs) 4 (d4 (N.of_nat (length v + length bs)))).

Lemma length_sappend v bs : (8 <= length v)%nat -> length (sappend v bs) = (length v + length bs)%nat.
Proof. intros H. unfold sappend. lens. Qed.

Lemma with_length_write_at x : (8 <= length x)%nat -> with_length x = write_at x 4 (d4 (N.of_nat (length x))).
Proof. intros H. unfold with_length. rewrite write_at_spec by lens. now rewrite length_d4. Qed.

Lemma sappend_spec v bs : (36 <= length v)%nat -> sappend v bs = with_checksum (with_length (v ++ bs)).
Proof.
  intros H. unfold sappend. rewrite with_length_write_at, app_length by lens. apply update_checksum_spec. lens.
Qed.

Lemma nth_sappend v bs i : (36 <= length v)%nat -> i <> 9%nat -> ~ (4 <= i < 8)%nat ->
  nth i (sappend v bs) 0 = nth i (v ++ bs) 0.
Proof.
  intros Hv H9 H48. unfold sappend.
  destruct (agree9_update_checksum (write_at (v ++ bs) 4 (d4 (N.of_nat (length v + length bs))))) as [_ Hn]; [lens|].
  rewrite Hn, nth_write_at, length_d4 by (assumption || lens).
  destruct (Nat.leb_spec 4 i); cbn [andb]; [|reflexivity]. destruct (Nat.ltb_spec i (4 + 4)); [lia|reflexivity].
Qed.

Lemma length_field_sappend v bs : (36 <= length v)%nat ->
  field_at (sappend v bs) 4 4 = N.of_nat (length v + length bs) mod 2 ^ 32.
Proof.
  intros Hv. unfold sappend. rewrite length_field_update_checksum by lens.
  etransitivity; [apply (field_at_write_at _ 4 (d4 _)); lens|apply unle_le].
Qed.

(* ... which is the size as long as the size is a u32 *)
Lemma length_field_sappend_size v bs : (36 <= length v)%nat -> N.of_nat (length v + length bs) < 2 ^ 32 ->
  field_at (sappend v bs) 4 4 = N.of_nat (length (sappend v bs)).
Proof. intros Hv Hsz. rewrite length_sappend, length_field_sappend by lia. now apply N.mod_small. Qed.

Lemma sum8_sappend v bs : (36 <= length v)%nat -> sum8 (sappend v bs) = 0.
Proof. intros Hv. apply update_checksum_sums. lens. Qed.

Lemma append_slice_refines md v bs :
  (36 <= length v)%nat -> N.of_nat (length v) < 2 ^ 64 -> sdt_append_slice md v bs = Some (sappend v bs).
Proof.
  intros H Hd. unfold sdt_append_slice, sappend.
  rewrite write_bytes_accept by lens. cbn [option_bind]. change (N.to_nat 4) with 4%nat.
  rewrite update_checksum_app, write_at_app by lens. reflexivity.
Qed.

(* resize, write Length, write the value: the second checksum update absorbs the first *)
Lemma append_refines md v w x :
  (36 <= length v)%nat -> N.of_nat (length v + w) < 2 ^ 64 -> sdt_append md v w x = Some (sappend v (le w x)).
Proof.
  intros H Hd. unfold sdt_append, sappend. rewrite length_le. set (L := d4 (N.of_nat (length v + w))).
  assert (HL : length L = 4%nat) by apply length_d4.
  assert (HW : length (write_at v 4 L) = length v) by (apply length_write_at; lia).
  assert (E : forall c, write_at (v ++ c) 4 L = write_at v 4 L ++ c) by (intros c; apply write_at_app; lia).
  rewrite write_bytes_accept by (rewrite ?app_length, ?length_repeatN, ?HL; lia). cbn [option_bind].
  change (N.to_nat 4) with 4%nat. rewrite !E.
  rewrite write_bytes_accept by (rewrite length_update_checksum, app_length, HW, length_repeatN, ?length_le; lia).
  rewrite Nat2N.id, update_checksum_write_at by (rewrite app_length, HW, length_repeatN, ?length_le; lia).
  rewrite <- HW at 1. now rewrite write_at_end by (rewrite length_repeatN, length_le; reflexivity).
Qed.

Lemma sappend_sappend v a b : (36 <= length v)%nat -> sappend (sappend v a) b = sappend v (a ++ b).
Proof.
  intros H. unfold sappend at 1. rewrite length_sappend by lia. unfold sappend.
  rewrite app_length, Nat.add_assoc, app_assoc. set (L := d4 (N.of_nat (length v + length a + length b))).
  set (W := write_at (v ++ a) 4 _). assert (HW : length W = (length v + length a)%nat) by (subst W; lens).
  rewrite !(write_at_app _ b), update_checksum_write_at_app by (subst L; rewrite ?length_update_checksum, ?HW, ?app_length, ?length_d4; lia).
  subst W L. rewrite write_at_twice by lens. reflexivity.
Qed.

Lemma sink_vec_refines md bs : forall v,
  bytes_ok bs = true ->
  (36 <= length v)%nat -> N.of_nat (length v + length bs) < 2 ^ 64 -> bs <> [] -> sdt_sink_vec md v bs = Some (sappend v bs).
Proof.
  induction bs as [|b r IH]; intros v Hb H Hd Hne; [congruence|]. cbn [sdt_sink_vec].
  cbn [length] in Hd. cbn [bytes_ok forallb] in Hb. apply andb_true_iff in Hb. destruct Hb as [Hb0 Hbr].
  apply N.ltb_lt in Hb0.
  rewrite append_refines by lia. cbn [option_bind le]. rewrite (N.mod_small b 256) by exact Hb0.
  destruct r as [|b2 r]; [reflexivity|].
  rewrite IH, sappend_sappend; [reflexivity|lia|exact Hbr|..|discriminate]; rewrite length_sappend by lia; cbn [length] in *; lia.
Qed.

(* the table states of the per-operation theorems: at least the 36-byte header, below 2^62 bytes *)
Definition sdt_wf (v : list N) : Prop := (36 <= length v)%nat /\ N.of_nat (length v) < 2 ^ 62.

Lemma spec_width_inv w k : spec_width w = Some k -> w = N.of_nat k /\ (0 < k <= 8)%nat.
Proof.
  unfold spec_width. destruct w as [|p]; [discriminate|].
  repeat (destruct p as [p|p|]; try discriminate); intros [= <-]; split; (reflexivity || lia).
Qed.

Lemma width_le8 w k : spec_width w = Some k -> (0 < k <= 8)%nat.
Proof. apply spec_width_inv. Qed.

(* one width check under three names: [width_ok] (Impl/Sdt.v) and [spec_width] (Spec/SdtS.v) are the same function,
   [width_okb] (SdtHistP.v) its boolean *)
Lemma width_same w : width_ok w = spec_width w.
Proof. reflexivity. Qed.

Lemma vec_write_fits v off bs : (off + length bs <= length v)%nat -> vec_write v off bs = Some (write_at v off bs).
Proof. intros H. unfold vec_write. rewrite (proj2 (Nat.leb_le _ _) H), write_at_spec by exact H. reflexivity. Qed.

Lemma write_refines md v off bs : sdt_wf v -> off < 2 ^ 64 -> N.of_nat (length bs) < 2 ^ 62 ->
  sdt_write_bytes md v off bs =
  (if off + N.of_nat (length bs) <=? N.of_nat (length v) then option_map with_checksum (vec_write v (N.to_nat off) bs) else None).
Proof.
  intros [H Hd] Ho Hl. destruct (N.leb_spec (off + N.of_nat (length bs)) (N.of_nat (length v))) as [Hin|Hout].
  - rewrite write_bytes_accept, vec_write_fits by lia. cbn [option_map]. f_equal. apply update_checksum_spec. lens.
  - apply write_bytes_refuse; lia.
Qed.
