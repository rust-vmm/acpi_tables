(* Resource descriptors and templates (C10). *)
From Coq Require Import NArith List Lia Arith.
From ACPI Require Import Lib.Bytes Lib.Machine Impl.AmlCore Impl.AmlTerm Spec.AmlCoreS Spec.AmlTermS
  Proofs.PkgLenP Proofs.FrameSitesP Proofs.FieldListP.
Import ListNotations.
Open Scope N_scope.

Definition desc_tag (d : desc) : N :=
  match d with
  | DMem32 _ _ _ => 0x86
  | DAddr w _ _ _ _ _ _ => if w =? 16 then 0x88 else if w =? 32 then 0x87 else 0x8A
  | DIO _ _ _ _ => 0x47
  | DIrq _ _ _ _ _ => 0x89
  | DReg _ _ _ _ _ => 0x82
  end.

Definition desc_payload_len (d : desc) : nat :=
  match d with
  | DMem32 _ _ _ => 9
  | DAddr w _ _ _ _ _ _ => if w =? 16 then 13 else if w =? 32 then 23 else 43
  | DIO _ _ _ _ => 7
  | DIrq _ _ _ _ _ => 6
  | DReg _ _ _ _ _ => 12
  end.

Definition desc_payload (d : desc) : list N :=
  match d with
  | DMem32 rw base len => [rw] ++ d4 base ++ d4 len
  | DAddr w ty ca rw min max tr =>
      let k := if w =? 16 then 2%nat else if w =? 32 then 4%nat else 8%nat in
      [ty; 0x0C; match ty with 0 => N.lor (cast U8 (N.shiftl ca 1)) rw | 1 => 3 | _ => 0 end] ++
      le k 0 ++ le k min ++ le k max ++
      le k (match (match ty with 2 => None | _ => tr end) with Some t => t | None => 0 end) ++ le k (max - min + 1)
  | DIO min max align len => [1] ++ w2 min ++ w2 max ++ [align; len]
  | DIrq c e a s n => [N.lor (N.lor (N.lor (N.shiftl s 3) (N.shiftl a 2)) (N.shiftl e 1)) c; 1] ++ d4 n
  | DReg sp w o ac ad => [sp; w; o; ac] ++ q8 ad
  end.

(* a small item is its tag and payload; a large item carries the payload length in between *)
Definition desc_item (tag : N) (payload : list N) : list N :=
  if tag <? 0x80 then tag :: payload else tag :: le 2 (N.of_nat (length payload)) ++ payload.

Lemma rd_walk_item tag payload f r :
  (if tag <? 0x80 then N.to_nat (tag mod 8) = length payload else N.of_nat (length payload) < 65536) ->
  rd_walk (S f) (desc_item tag payload ++ r) = option_map (cons (tag, payload)) (rd_walk f r).
Proof.
  unfold desc_item. intros Hl.
  assert (E : Nat.ltb (length (payload ++ r)) (length payload) = false) by (apply Nat.ltb_ge; rewrite app_length; lia).
  destruct (tag <? 128) eqn:Ht; cbn [rd_walk app le]; rewrite Ht.
  - rewrite Hl, E, firstn_app_exact, skipn_app_exact. destruct (rd_walk f r); reflexivity.
  - set (n := N.of_nat (length payload)) in *.
    replace (N.to_nat (n mod 256 + 256 * ((n / 256) mod 256))) with (length payload).
    2:{ rewrite <- (Nat2N.id (length payload)) at 1. fold n. f_equal.
        rewrite (N.mod_small (n / 256)) by (apply N.div_lt_upper_bound; lia).
        rewrite (N.div_mod n 256) at 1 by lia. lia. }
    rewrite E, firstn_app_exact, skipn_app_exact. destruct (rd_walk f r); reflexivity.
Qed.

Lemma rd_walk_mono f l items : rd_walk f l = Some items -> forall f', (f <= f')%nat -> rd_walk f' l = Some items.
Proof.
  revert l items; induction f as [|f IH]; intros l items H f' Hf.
  - destruct l as [|tag r]; [|discriminate]. destruct f'; exact H.
  - destruct f' as [|f']; [lia|]. assert (Hf' : (f <= f')%nat) by lia.
    destruct l as [|tag r]; [exact H|]. cbn [rd_walk] in H |- *.
    destruct (tag <? 128).
    + destruct (Nat.ltb (length r) (N.to_nat (tag mod 8))); [discriminate|].
      destruct (rd_walk f (skipn (N.to_nat (tag mod 8)) r)) as [rest|] eqn:Er; [|discriminate].
      rewrite (IH _ _ Er f' Hf'). exact H.
    + destruct r as [|a [|b0 r2]]; try discriminate.
      destruct (Nat.ltb (length r2) (N.to_nat (a + 256 * b0))); [discriminate|].
      destruct (rd_walk f (skipn (N.to_nat (a + 256 * b0)) r2)) as [rest|] eqn:Er; [|discriminate].
      rewrite (IH _ _ Er f' Hf'). exact H.
Qed.

Lemma length_desc_payload d : length (desc_payload d) = desc_payload_len d.
Proof.
  destruct d as [| w ? ? ? ? ? ? | | |]; try reflexivity. cbn [desc_payload desc_payload_len].
  destruct (w =? 16); [reflexivity|]. destruct (w =? 32); reflexivity.
Qed.

Lemma enc_desc_some d b :
  enc_desc d = Some b ->
  b = desc_item (desc_tag d) (desc_payload d) /\
  match d with
  | DAddr w _ _ _ min max _ => (w = 16 \/ w = 32 \/ w = 64) /\ min <= max /\ max - min + 1 < 2 ^ w
  | _ => True
  end.
Proof.
  destruct d as [rw base len|w ty ca rw min max tr|min max al len|c e a s n|sp wd off ac ad];
    cbn [enc_desc desc_tag desc_payload].
  1, 3, 4, 5: intros H; injection H as <-; repeat split.
  unfold sub_c, add_c.
  destruct (N.eqb_spec w 16) as [->|?]; [|destruct (N.eqb_spec w 32) as [->|?]; [|destruct (N.eqb_spec w 64) as [->|?]]];
    cbn [option_bind]; try discriminate;
    (destruct (N.leb_spec min max) as [Hle|]; [|discriminate]); cbn [option_bind];
    match goal with |- context [?a + 1 <? ?m] => destruct (N.ltb_spec (a + 1) m) as [Hlt|]; [|discriminate] end;
    intros H; injection H as <-; repeat split; auto.
Qed.

Lemma desc_item_fits d :
  if desc_tag d <? 0x80 then N.to_nat (desc_tag d mod 8) = desc_payload_len d else N.of_nat (desc_payload_len d) < 65536.
Proof. destruct d as [| w ? ? ? ? ? ? | | |]; try reflexivity. cbn [desc_tag desc_payload_len]. destruct (w =? 16), (w =? 32); reflexivity. Qed.

Lemma desc_walk d b :
  enc_desc d = Some b ->
  forall f r, rd_walk (S f) (b ++ r) = option_map (cons (desc_tag d, desc_payload d)) (rd_walk f r).
Proof.
  intros H f r. destruct (enc_desc_some d b H) as (-> & _). apply rd_walk_item. rewrite length_desc_payload. apply desc_item_fits.
Qed.

Lemma addr_space_refuse w ty ca rw min max tr k m :
  (w = 16 /\ k = 2%nat /\ m = U16) \/ (w = 32 /\ k = 4%nat /\ m = U32) \/ (w = 64 /\ k = 8%nat /\ m = U64) ->
  max < min \/ m <= max - min + 1 -> enc_desc (DAddr w ty ca rw min max tr) = None.
Proof.
  intros Hw Hbad. cbn [enc_desc].
  destruct Hw as [(-> & -> & ->)|[(-> & -> & ->)|(-> & -> & ->)]];
    change (16 =? 16) with true; change (32 =? 16) with false; change (32 =? 32) with true;
    change (64 =? 16) with false; change (64 =? 32) with false; change (64 =? 64) with true; cbn [option_bind];
    unfold sub_c, add_c; destruct (N.leb_spec min max) as [Hle|Hgt]; cbn [option_bind]; try reflexivity;
    match goal with |- context [?a + 1 <? ?mm] => destruct (N.ltb_spec (a + 1) mm) as [Hlt|Hge] end; try reflexivity; lia.
Qed.

Definition is_desc (t : term) : Prop := match t with TDesc _ => True | _ => False end.

(* the same notion as [FieldListP.desc_child] (which the well-formedness of a ResourceTemplate uses), decided by a match *)
Lemma is_desc_child t : is_desc t <-> desc_child t.
Proof. destruct t; split; try contradiction; try (intros [? H]; discriminate H); [intros _; eexists; reflexivity|intros _; exact I]. Qed.

Fixpoint descs_of (ks : list term) : list desc :=
  match ks with TDesc d :: r => d :: descs_of r | _ :: r => descs_of r | [] => [] end.

Lemma descs_of_map ds : descs_of (map TDesc ds) = ds.
Proof. induction ds as [|d ds IH]; cbn [map descs_of]; [reflexivity|]. now rewrite IH. Qed.

Lemma is_desc_map ds : Forall is_desc (map TDesc ds).
Proof. induction ds as [|d ds IH]; cbn [map]; constructor; [exact I|exact IH]. Qed.

Lemma encs_descs md ks eks :
  Forall is_desc ks ->
  opt_concat_map (enc md) ks = Some eks ->
  exists bs, map enc_desc (descs_of ks) = map Some bs /\ eks = concat bs.
Proof.
  revert eks; induction ks as [|t ks IH]; intros eks Hd H.
  - inversion H; subst. exists []. repeat split.
  - inversion Hd as [|? ? Ht Hr]; subst. destruct t; try contradiction.
    cbn [opt_concat_map enc] in H. destruct (enc_desc d) as [bd|] eqn:Ed; [|discriminate]. cbn [option_bind] in H.
    destruct (opt_concat_map (enc md) ks) as [er|] eqn:Er; [|discriminate].
    cbn [option_bind] in H. inversion H; subst.
    destruct (IH er Hr eq_refl) as (bs & Hm & ->).
    exists (bd :: bs). cbn [descs_of map concat]. rewrite Ed, Hm. split; reflexivity.
Qed.

(* the descriptors' bytes followed by the end tag: one item per descriptor, then the end tag; every item is at least its tag byte *)
Lemma rd_walk_descs ds bs :
  map enc_desc ds = map Some bs ->
  rd_walk (S (S (length ds))) (concat bs ++ [0x79; 0]) = Some (map (fun d => (desc_tag d, desc_payload d)) ds ++ [(0x79, [0])]) /\
  (length ds <= length (concat bs))%nat.
Proof.
  revert bs; induction ds as [|d ds IH]; intros [|b bs] H; try discriminate H; [split; [reflexivity|apply Nat.le_0_l]|].
  injection H as Hd Hr. destruct (IH bs Hr) as [Hw Hl]. cbn [concat length map app]. rewrite <- app_assoc, (desc_walk d b Hd), Hw.
  split; [reflexivity|]. destruct (enc_desc_some d b Hd) as (-> & _). rewrite app_length. unfold desc_item.
  destruct (desc_tag d <? 128); cbn [length]; lia.
Qed.

Lemma descs_encs md ds bs : map enc_desc ds = map Some bs -> opt_concat_map (enc md) (map TDesc ds) = Some (concat bs).
Proof.
  revert bs; induction ds as [|d ds IH]; intros [|b bs] H; try discriminate H; [reflexivity|].
  injection H as Hd Hr. cbn [map opt_concat_map enc]. rewrite Hd, (IH bs Hr). reflexivity.
Qed.

Lemma res_template_correct md ks b r :
  Forall is_desc ks -> enc md (TResTemplate ks) = Some b -> N.of_nat (length b) < 2 ^ 63 ->
  exists bs payload items,
    map enc_desc (descs_of ks) = map Some bs /\
    payload = concat bs ++ [0x79; 0x00] /\
    buffer_decode (b ++ r) = Some (N.of_nat (length payload), payload, r) /\
    rd_walk (S (S (length (descs_of ks)))) payload = Some (items ++ [(0x79, [0])]) /\
    map fst items = map desc_tag (descs_of ks) /\
    map (fun i => length (snd i)) items = map desc_payload_len (descs_of ks).
Proof.
  intros Hd H Hsz. rewrite restemplate_framed in H.
  destruct (opt_concat_map (enc md) ks) as [eks|] eqn:Ek; [|discriminate]. cbn [option_bind] in H.
  destruct (encs_descs md ks eks Hd Ek) as (bs & Hm & ->).
  exists bs, (concat bs ++ [0x79; 0]), (map (fun d => (desc_tag d, desc_payload d)) (descs_of ks)).
  split; [exact Hm|]. split; [reflexivity|]. split; [exact (buffer_data_decode md _ b r H Hsz)|].
  split; [exact (proj1 (rd_walk_descs _ bs Hm))|]. rewrite !map_map. split; [reflexivity|].
  apply map_ext. intros d. apply length_desc_payload.
Qed.
