(* Shared by the walk instances (C03) and by the count / length sites inside their entries (C18):
   serialiser spines under the entry-header formats of Spec/Layout.v, the entry's own length field as the Spec decoder
   reads it, and a refusal read off a size. *)
From Coq Require Import NArith List Lia.
From ACPI Require Import Lib.Bytes Lib.Sx Lib.Machine Impl.Table Impl.Fields Spec.Layout Proofs.TableP Proofs.WalkP Proofs.BaseP.
Import ListNotations.
Open Scope N_scope.

(* A "spine" below is what a serialiser emits for an entry under a format with a length (`hdr_fmt`, Proofs/WalkP.v):
   `le tw t ++ pad ++ le lw n ++ tail`.  One whose length field holds the spine's true size describes itself: *)
Lemma spine_self h tw p lw t pad n tail : hdr_fmt h = Some (tw, p, lw) -> length pad = p ->
  n < 2 ^ (8 * N.of_nat lw) -> n = N.of_nat (length (le tw t ++ pad ++ le lw n ++ tail)) ->
  self_describing h (le tw t ++ pad ++ le lw n ++ tail) (t mod 2 ^ (8 * N.of_nat tw)).
Proof.
  intros Hf <- Hn Hl. rewrite <- (field_at_le_app tw t (pad ++ le lw n ++ tail)).
  apply (self_describing_of_len h tw (length pad) lw _ n Hf); [|exact Hl| |exact Hn].
  - rewrite app_assoc. apply field_at_mid. now rewrite app_length, length_le.
  - rewrite !app_length, !length_le. lia.
Qed.

(* the u16 at offset 2 of a (u8, _, u16) spine *)
Lemma u8_x_u16_len_field t x n tail :
  field_at (b1 t ++ b1 x ++ w2 n ++ tail) 2 2 = n mod 2 ^ 16.
Proof. exact (unle_le 2 n). Qed.

Lemma add_step_entry entry md s o r : add_step entry md s o = Some r -> exists e, entry s o = Some e.
Proof.
  unfold add_step. destruct (entry s o) as [e|]; [|discriminate]. intros _. now exists e.
Qed.

(* a refusal read off an exactness statement: a call whose result, if accepted, has the size [n], which an accepted
   result cannot have, is refused *)
Lemma refused_by_size (r : option addition) (n bound : N) :
  (forall e, r = Some e -> N.of_nat (length (a_bytes e)) = n) ->
  (forall e, r = Some e -> N.of_nat (length (a_bytes e)) < bound) -> bound <= n -> r = None.
Proof. intros Hl Hlt Hb. apply no_Some_None. intros e He. specialize (Hl e He). specialize (Hlt e He). lia. Qed.