(* XSDT: the table-specific obligations of the generic history invariant. *)
From Coq Require Import ZArith List.
From ACPI Require Import Lib.Bytes Impl.Table Impl.Xsdt Proofs.TableP Proofs.Tables Proofs.BaseP.
Import ListNotations.
Open Scope N_scope.

Lemma xsdt_new_inv c s0 : xsdt_new c = Some s0 -> Inv2 KXsdt s0.
Proof. intros H. exact (plain_new_inv KXsdt _ _ c s0 H eq_refl). Qed.

(* the claimed 8 bytes (size_of::<u64>()) are what sink.qword writes, for every entry value *)
Lemma xsdt_addition_sound s o e : t_kind s = KXsdt -> xsdt_addition s o = Some e ->
  a_claimed e = N.of_nat (length (a_bytes e)) /\
  (needs_pos (t_kind s) = true -> (1 <= length (a_bytes e))%nat /\ a_claimed e < 2 ^ 16).
Proof.
  intros Hk H. unfold xsdt_addition in H. break_sx H. apply Some_inj in H. subst e. cbn [a_claimed a_bytes].
  split; [unfold q8; rewrite length_le; reflexivity|]. rewrite Hk. discriminate.
Qed.

Definition xsdt_table : addtable :=
  {| at_name := [88; 83; 68; 84]; at_kind := KXsdt; at_new := xsdt_new; at_entry := xsdt_addition;
     at_new_inv := xsdt_new_inv; at_sound := xsdt_addition_sound |}.

(* C01, C02 for the XSDT *)
Theorem xsdt_sum_len md c ops s0 s :
  xsdt_new c = Some s0 -> run_adds xsdt_addition md s0 ops = Some s -> N.of_nat (length (tbl_image s)) < 2 ^ 32 ->
  sum8 (tbl_image s) = 0 /\ Spec.Layout.field_at (tbl_image s) 4 4 = N.of_nat (length (tbl_image s)).
Proof. exact (addtable_sum_len xsdt_table md c ops s0 s). Qed.
