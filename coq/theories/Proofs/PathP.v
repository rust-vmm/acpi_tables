(* Name paths: NameString round trip, prefix form, Path::new parsing and refusal. *)
From Coq Require Import NArith List Lia Bool Arith.
From ACPI Require Import Lib.Bytes Lib.Machine Impl.AmlCore Spec.AmlCoreS.
Import ListNotations.
Open Scope N_scope.

Definition wf_parts (parts : list (list N)) : Prop := Forall (fun s => is_nameseg s = true) parts.

(* the textual form of a path: optional '\', segments joined by '.' *)
Fixpoint join_dot (l : list (list N)) : list N :=
  match l with
  | [] => []
  | [x] => x
  | x :: r => x ++ 0x2E :: join_dot r
  end.

Definition render (p : path) : list N := (if p_root p then [0x5C] else []) ++ join_dot (p_parts p).

Lemma nameseg_shape s : is_nameseg s = true ->
  exists a b c d, s = [a; b; c; d] /\ is_lead_name_char a = true /\ is_name_char b = true /\
                  is_name_char c = true /\ is_name_char d = true.
Proof.
  destruct s as [|a [|b [|c [|d [|e s]]]]]; cbn [is_nameseg]; try discriminate.
  intros H. apply andb_true_iff in H. destruct H as [H Hd]. apply andb_true_iff in H. destruct H as [H Hc].
  apply andb_true_iff in H. destruct H as [Ha Hb]. exists a, b, c, d. auto.
Qed.

Lemma take_segs_concat parts r :
  wf_parts parts -> take_segs (length parts) (concat parts ++ r) = Some (parts, r).
Proof.
  induction parts as [|s parts IH]; intros H; [reflexivity|].
  inversion H as [|? ? Hs Hrest]; subst.
  destruct (nameseg_shape s Hs) as (a & b & c & d & -> & _).
  cbn [length concat app take_segs]. rewrite Hs. rewrite IH by exact Hrest. reflexivity.
Qed.

Lemma lead_not_prefix a : is_lead_name_char a = true -> a <> 0x5C /\ a <> 0x2E /\ a <> 0x2F.
Proof.
  unfold is_lead_name_char. intros H. apply orb_true_iff in H. destruct H as [H|H].
  - apply andb_true_iff in H. destruct H as [H1 H2]. apply N.leb_le in H1, H2. lia.
  - apply N.eqb_eq in H. lia.
Qed.

Lemma name_char_not_dot a : is_name_char a = true -> a <> 0x2E.
Proof.
  unfold is_name_char, is_lead_name_char. intros H.
  repeat (apply orb_true_iff in H; destruct H as [H|H]);
    try (apply andb_true_iff in H; destruct H as [H1 H2]; apply N.leb_le in H1, H2; lia).
  apply N.eqb_eq in H. lia.
Qed.

(* [path_enc] accepts 1..255 segments and nothing else, and emits the NameString the Spec prescribes for them *)
Lemma path_enc_accept p : (1 <= length (p_parts p) <= 255)%nat ->
  path_enc p = Some (spec_path_form (p_root p) (p_parts p)).
Proof.
  intros H. unfold path_enc, spec_path_form.
  destruct (p_parts p) as [|s1 [|s2 [|s3 rest]]]; cbn [length] in *; [lia|reflexivity|reflexivity|]. cbv zeta.
  assert (Hle : N.of_nat (S (S (S (length rest)))) <=? 255 = true) by (apply N.leb_le; lia).
  rewrite Hle. cbn [assert option_bind]. unfold cast, U8. rewrite N.mod_small by lia. reflexivity.
Qed.

Lemma path_enc_refuse p : (length (p_parts p) = 0 \/ 255 < length (p_parts p))%nat -> path_enc p = None.
Proof.
  intros H. unfold path_enc. destruct (length (p_parts p)) as [|[|[|k]]] eqn:El; try lia; [reflexivity|].
  assert (Hle : N.of_nat (S (S (S k))) <=? 255 = false) by (apply N.leb_gt; lia).
  rewrite Hle. reflexivity.
Qed.

Lemma path_enc_inv p e : path_enc p = Some e ->
  (1 <= length (p_parts p) <= 255)%nat /\ e = spec_path_form (p_root p) (p_parts p).
Proof.
  intros H. assert (Hl : (1 <= length (p_parts p) <= 255)%nat).
  { destruct (Nat.eq_dec (length (p_parts p)) 0); [rewrite path_enc_refuse in H by (now left); discriminate|].
    destruct (Nat.lt_ge_cases 255 (length (p_parts p))); [rewrite path_enc_refuse in H by (now right); discriminate|]. lia. }
  rewrite (path_enc_accept p Hl) in H. injection H as <-. auto.
Qed.

Lemma name_decode_form root parts r : wf_parts parts -> (1 <= length parts <= 255)%nat ->
  name_decode (spec_path_form root parts ++ r) = Some (root, parts, r).
Proof.
  intros Hwf Hlen. unfold spec_path_form, name_decode. destruct parts as [|s1 [|s2 [|s3 rest]]]; [cbn in Hlen; lia| | |].
  - (* one segment: its lead character is none of the prefixes *)
    inversion Hwf as [|? ? Hs _]; subst. destruct (nameseg_shape s1 Hs) as (a & b & c & d & -> & Ha & _).
    destruct (lead_not_prefix a Ha) as (N1 & N2 & N3). apply N.eqb_neq in N1, N2, N3.
    destruct root; cbn [app concat]; rewrite ?N.eqb_refl, ?N1, N2, N3; cbn [take_segs]; rewrite Hs; reflexivity.
  - pose proof (take_segs_concat [s1; s2] r Hwf) as HT. cbn [length] in HT.
    destruct root; cbn [app]; rewrite ?N.eqb_refl; change (46 =? 92) with false; cbn iota;
      rewrite ?N.eqb_refl; rewrite HT; reflexivity.
  - cbv iota. set (parts := s1 :: s2 :: s3 :: rest) in *.
    assert (Hnz : N.of_nat (length parts) =? 0 = false) by (apply N.eqb_neq; cbn [parts length]; lia).
    pose proof (take_segs_concat parts r Hwf) as HT.
    destruct root; cbn [app]; rewrite ?N.eqb_refl; change (47 =? 92) with false; cbn iota;
      change (47 =? 46) with false; cbn iota; rewrite ?N.eqb_refl; rewrite Hnz, Nat2N.id, HT; reflexivity.
Qed.

Lemma path_enc_decode p r :
  wf_parts (p_parts p) -> (1 <= length (p_parts p) <= 255)%nat ->
  exists e, path_enc p = Some e /\
            name_decode (e ++ r) = Some (p_root p, p_parts p, r) /\
            name_prefix_ok (length (p_parts p)) (skipn (if p_root p then 1 else 0) e) = true /\
            e = (if p_root p then [0x5C] else []) ++
                (match length (p_parts p) with 1%nat => [] | 2%nat => [0x2E]
                 | k => [0x2F; N.of_nat k] end) ++ concat (p_parts p).
Proof.
  intros Hwf Hlen. exists (spec_path_form (p_root p) (p_parts p)).
  split; [exact (path_enc_accept p Hlen)|]. split; [exact (name_decode_form _ _ r Hwf Hlen)|].
  destruct p as [root parts]. cbn [p_root p_parts] in *. unfold spec_path_form.
  destruct parts as [|s1 [|s2 [|s3 rest]]]; [cbn in Hlen; lia| | |]; (split; [|reflexivity]).
  - inversion Hwf as [|? ? Hs _]; subst. destruct (nameseg_shape s1 Hs) as (a & b & c & d & -> & Ha & _).
    destruct root; exact Ha.
  - destruct root; reflexivity.
  - destruct root; cbn [skipn app name_prefix_ok length Nat.eqb]; rewrite !N.eqb_refl; reflexivity.
Qed.

Lemma split_dot_nonempty cur s : split_dot cur s <> [].
Proof. revert cur; induction s as [|c r IH]; intros cur; cbn [split_dot]; [discriminate|]. destruct (c =? 0x2E); [discriminate|apply IH]. Qed.

Lemma join_split cur s : join_dot (split_dot cur s) = rev cur ++ s.
Proof.
  revert cur; induction s as [|c r IH]; intros cur; cbn [split_dot].
  - cbn [join_dot]. now rewrite app_nil_r.
  - destruct (N.eqb_spec c 0x2E) as [->|Hc].
    + specialize (IH []). cbn [rev app] in IH.
      destruct (split_dot [] r) as [|x xs] eqn:E; [now apply split_dot_nonempty in E|].
      change (join_dot (rev cur :: x :: xs)) with (rev cur ++ 0x2E :: join_dot (x :: xs)).
      rewrite IH. reflexivity.
    + rewrite IH. cbn [rev]. rewrite <- app_assoc. reflexivity.
Qed.

Lemma path_new_sound s p :
  path_new s = Some p -> render p = s /\ Forall (fun part => length part = 4%nat) (p_parts p).
Proof.
  unfold path_new. intros H.
  destruct (forallb _ _) eqn:Hall; [|discriminate]. inversion H; subst; clear H.
  split.
  - unfold render. cbn [p_root p_parts]. rewrite join_split. cbn [rev app].
    destruct s as [|c r]; [reflexivity|]. destruct (N.eqb_spec c 0x5C) as [->|Hc]; reflexivity.
  - cbn [p_parts]. apply Forall_forall. intros part Hin.
    rewrite forallb_forall in Hall. specialize (Hall part Hin). now apply Nat.eqb_eq in Hall.
Qed.

Lemma path_new_refuse s :
  let body := match s with c :: r => if c =? 0x5C then r else s | [] => s end in
  (exists part, In part (split_dot [] body) /\ length part <> 4%nat) -> path_new s = None.
Proof.
  cbn zeta. intros (part & Hin & Hlen). unfold path_new.
  match goal with |- (if forallb ?f ?l then _ else _) = None => destruct (forallb f l) eqn:Hall end; [|reflexivity].
  exfalso. rewrite forallb_forall in Hall.
  assert (Hin' : In part (split_dot [] (if match s with c :: _ => c =? 92 | [] => false end then tl s else s))).
  { destruct s as [|c r]; [exact Hin|]. cbn [tl]. destruct (c =? 92); exact Hin. }
  specialize (Hall part Hin'). apply Nat.eqb_eq in Hall. contradiction.
Qed.

Lemma split_dot_no_dot cur s : ~ In 0x2E s -> split_dot cur s = [rev cur ++ s].
Proof.
  revert cur; induction s as [|c r IH]; intros cur H; cbn [split_dot]; [now rewrite app_nil_r|].
  destruct (N.eqb_spec c 0x2E) as [->|Hc]; [exfalso; apply H; now left|].
  rewrite IH by (intros Hin; apply H; now right). cbn [rev]. now rewrite <- app_assoc.
Qed.

Lemma split_join parts :
  parts <> [] -> Forall (fun s => ~ In 0x2E s) parts -> split_dot [] (join_dot parts) = parts.
Proof.
  induction parts as [|x xs IH]; intros Hne Hall; [congruence|].
  inversion Hall as [|? ? Hx Hxs]; subst.
  destruct xs as [|y ys].
  - cbn [join_dot]. now rewrite split_dot_no_dot.
  - change (join_dot (x :: y :: ys)) with (x ++ 0x2E :: join_dot (y :: ys)).
    assert (Hgen : forall cur, split_dot cur (x ++ 0x2E :: join_dot (y :: ys)) = (rev cur ++ x) :: split_dot [] (join_dot (y :: ys))).
    { clear IH Hne Hall. induction x as [|c x IHx]; intros cur.
      - cbn [app split_dot]. rewrite N.eqb_refl. now rewrite app_nil_r.
      - cbn [app split_dot]. destruct (N.eqb_spec c 0x2E) as [->|Hc]; [exfalso; apply Hx; now left|].
        rewrite IHx by (intros Hin; apply Hx; now right). cbn [rev]. now rewrite <- app_assoc. }
    rewrite Hgen. cbn [rev app]. rewrite IH; [reflexivity|discriminate|exact Hxs].
Qed.

Lemma nameseg_no_dot s : is_nameseg s = true -> ~ In 0x2E s.
Proof.
  intros H. destruct (nameseg_shape s H) as (a & b & c & d & -> & Ha & Hb & Hc & Hd).
  destruct (lead_not_prefix a Ha) as (_ & Na & _).
  pose proof (name_char_not_dot b Hb). pose proof (name_char_not_dot c Hc). pose proof (name_char_not_dot d Hd).
  cbn [In]. intros [E|[E|[E|[E|[]]]]]; congruence.
Qed.

Lemma wf_parts_len4 parts : wf_parts parts -> forallb (fun part => Nat.eqb (length part) 4) parts = true.
Proof.
  intros Hwf. apply forallb_forall. intros s Hin. destruct (nameseg_shape s (proj1 (Forall_forall _ _) Hwf s Hin)) as (a & b & c & d & -> & _).
  reflexivity.
Qed.

Lemma path_new_render p :
  wf_parts (p_parts p) -> p_parts p <> [] -> path_new (render p) = Some p.
Proof.
  destruct p as [root parts]. cbn [p_parts]. intros Hwf Hne. unfold wf_parts in Hwf.
  assert (Hnd : Forall (fun s => ~ In 0x2E s) parts).
  { apply Forall_forall. intros s Hin. rewrite Forall_forall in Hwf. apply nameseg_no_dot. now apply Hwf. }
  pose proof (wf_parts_len4 parts Hwf) as H4.
  unfold path_new, render. cbn [p_root p_parts].
  destruct root.
  - cbn [app tl]. rewrite N.eqb_refl. rewrite split_join by assumption. rewrite H4. reflexivity.
  - cbn [app].
    destruct parts as [|s1 ps]; [congruence|].
    inversion Hwf as [|? ? Hs _]; subst.
    destruct (nameseg_shape s1 Hs) as (a & b & c & d & -> & Ha & _).
    destruct (lead_not_prefix a Ha) as (Na & _).
    assert (Hhead : match join_dot ([a; b; c; d] :: ps) with c0 :: _ => c0 =? 92 | [] => false end = false).
    { destruct ps; cbn [join_dot app]; now apply N.eqb_neq. }
    rewrite Hhead. rewrite split_join by assumption. rewrite H4. reflexivity.
Qed.

(* The Spec splits a path text by a right fold ([spec_split]), the model by a loop with an accumulator ([split_dot]);
   the coherence proofs need the two to agree. *)
Lemma spec_split_cons c r :
  spec_split (c :: r) =
  if c =? 0x2E then [] :: spec_split r else match spec_split r with x :: r' => (c :: x) :: r' | [] => [[c]] end.
Proof. reflexivity. Qed.

Lemma split_dot_spec_split s : forall cur,
  exists x xs, spec_split s = x :: xs /\ split_dot cur s = (rev cur ++ x) :: xs.
Proof.
  induction s as [|c r IH]; intros cur.
  - exists [], []. split; [reflexivity|]. cbn [split_dot]. now rewrite app_nil_r.
  - rewrite spec_split_cons. cbn [split_dot]. destruct (c =? 0x2E).
    + destruct (IH []) as (x & xs & E1 & E2). exists [], (x :: xs). split; [now rewrite E1|].
      rewrite E2. cbn [rev app]. now rewrite app_nil_r.
    + destruct (IH (c :: cur)) as (x & xs & E1 & E2). exists (c :: x), xs. split; [now rewrite E1|].
      rewrite E2. cbn [rev]. now rewrite <- app_assoc.
Qed.

Lemma spec_split_is_split_dot s : spec_split s = split_dot [] s.
Proof. destruct (split_dot_spec_split s []) as (x & xs & E1 & E2). rewrite E1, E2. reflexivity. Qed.
