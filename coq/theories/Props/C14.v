(* C14 -- output is deterministic and independent of the receiving sink.
   PARTIAL by nature: that an object talks to its sink only through the five trait methods and has no interior mutability is
   a fact about Rust's type system and the crate's source, not about the model; what the model carries is proved here, the
   rest is checked by the correspondence harness (every generated object into six sinks, twice). *)
From Coq Require Import NArith List Lia.
From ACPI Require Import Lib.Bytes Lib.Sx Impl.Checksum Impl.Fields Impl.Sink Impl.Sdt Impl.Sink2
  Spec.Layout Proofs.SinkP Proofs.SdtP Proofs.Sink2P.
Import ListNotations.
Open Scope N_scope.

(* a sink implementing only the mandatory single-byte method observes exactly the flattened byte stream, however the
   serialiser chunked it across byte / word / dword / qword / slice calls (every trace, every sink state type) *)
Theorem c14_byte_only_sink :
  forall (S : Type) (bytef : S -> N -> S) (t : list scall) (s : S),
    run_default bytef s t = fold_left bytef (flatten t) s.
Proof. intros. apply run_default_flat. Qed.

(* hence two serialisations with the same concatenation cannot be told apart by such a sink *)
Theorem c14_chunking_invisible :
  forall (S : Type) (bytef : S -> N -> S) t1 t2 s, flatten t1 = flatten t2 -> run_default bytef s t1 = run_default bytef s t2.
Proof. intros S bytef t1 t2 s H. now rewrite !c14_byte_only_sink, H. Qed.

(* the built-in vector sink appends the flattened stream; the checksum sink adds it *)
Theorem c14_vec_sink : forall t s, run_vec s t = s ++ flatten t.
Proof. intros. apply run_vec_flat. Qed.

Theorem c14_checksum_sink : forall t s, run_cksum s t = ck_append s (flatten t).
Proof. intros. apply run_cksum_flat. Qed.

(* the byte-sum helper equals the arithmetic sum of the serialised bytes *)
Theorem c14_u8sum : forall t, run_cksum 0 t = sum8 (flatten t).
Proof. exact u8sum_is_sum8. Qed.

Print Assumptions c14_byte_only_sink.
Print Assumptions c14_chunking_invisible.
Print Assumptions c14_vec_sink.
Print Assumptions c14_checksum_sink.
Print Assumptions c14_u8sum.

(* impl AmlSink for Sdt (byte = append::<u8>, everything else by the trait defaults): the table after any trace of sink
   calls is the table after one append::<u8> per byte of the flattened stream, in order (None = a refused append, after
   which nothing more happens); so two traces with the same concatenation leave the same table *)
Theorem c14_sdt_sink :
  forall md (t : list scall) (s : sdt_state),
    run_sdt md s t = fold_left (sdt_append_byte md) (flatten t) (Some s) /\
    (forall t2, flatten t = flatten t2 -> run_sdt md s t = run_sdt md s t2).
Proof. intros md t s. split; [apply run_sdt_flat|intros t2 H; now apply run_sdt_chunking]. Qed.

(* pushing a serialiser through the Sdt sink byte by byte gives the SAME table as ONE append_slice of its flattened bytes,
   for every table of at least 36 bytes and every (non-empty, well-typed) trace that keeps it below 2^32 bytes; and that
   table is: the old bytes followed by the stream (outside Length and Checksum), Length = its size, bytes summing to 0 *)
Theorem c14_sdt_sink_is_append_slice :
  forall md (v : sdt_state) (t : list scall),
    (36 <= length v)%nat -> trace_ok t = true -> flatten t <> [] ->
    N.of_nat (length v + length (flatten t)) < 2 ^ 32 ->
    run_sdt md v t = sdt_append_slice md v (flatten t) /\
    exists img, run_sdt md v t = Some img /\ appended_image v (flatten t) img.
Proof.
  intros md v t Hv Hok Hne Hsz. apply trace_ok_flat in Hok. split; [apply run_sdt_is_append_slice; auto|].
  exists (sappend v (flatten t)). split; [|now apply sappend_appended_image].
  apply run_sdt_sappend; try assumption. lia.
Qed.

(* the empty delivery too, when the table's header is up to date (e.g. any table that results from an append) *)
Theorem c14_sdt_sink_is_append_slice_any_trace :
  forall md (v : sdt_state) (t : list scall),
    (36 <= length v)%nat -> sdt_canon v -> trace_ok t = true -> N.of_nat (length v + length (flatten t)) < 2 ^ 32 ->
    run_sdt md v t = sdt_append_slice md v (flatten t).
Proof. intros md v t Hv Hc Hok Hsz. apply trace_ok_flat in Hok. apply run_sdt_is_append_slice; auto. Qed.

Theorem c14_sdt_canon_after_append : forall v a, (36 <= length v)%nat -> sdt_canon (sappend v a).
Proof. intros v a H. unfold sdt_canon. rewrite sappend_sappend by exact H. now rewrite app_nil_r. Qed.

(* impl AmlSink for PackageBuilder: data after the trace = data before ++ flattened stream, element counter untouched;
   add_element = that, plus one on the counter *)
Theorem c14_package_builder_sink :
  forall (t : list scall) (s : pkgb_state),
    pb_data (run_pkgb s t) = pb_data s ++ flatten t /\
    pb_elements (run_pkgb s t) = pb_elements s /\
    pkgb_add_element s t = mk_pkgb (pb_data s ++ flatten t) (pb_elements s + 1).
Proof. intros t s. rewrite run_pkgb_flat. repeat split. apply pkgb_add_element_spec. Qed.

(* GAS is the one structure with both a derive (as_bytes: the packed fields in declaration order) and a hand-written
   serialiser (byte, byte, byte, byte, qword): the two byte strings are equal for every field value
   (register_bit_width and register_bit_offset are u8 fields; the two enum fields are cast `as u8` by the serialiser,
   the address is any value), and u8sum of the structure is the arithmetic sum of either *)
Theorem c14_gas_raw_is_serialised :
  forall space width offset access addr, width < 256 -> offset < 256 ->
    flatten (gas_ser space width offset access addr) = gas_raw space width offset access addr /\
    u8sum_of (gas_ser space width offset access addr) = sum8 (gas_raw space width offset access addr).
Proof. intros sp w o a addr Hw Ho. unfold u8sum_of, ck_raw. rewrite u8sum_is_sum8, gas_raw_is_serialised by assumption. now split. Qed.

(* aml_as_bytes!(T): the serialiser is one slice call carrying the raw form, so serialised = raw and u8sum = sum of raw,
   for every packed field list *)
Theorem c14_as_bytes_raw_is_serialised :
  forall f : flds, flatten (flds_ser f) = ser_flds f /\ u8sum_of (flds_ser f) = sum8 (ser_flds f).
Proof. intros f. unfold flds_ser, u8sum_of, ck_raw. rewrite u8sum_is_sum8, as_bytes_ser_flat. now split. Qed.

(* hence a GAS handed to the Sdt sink through its serialiser = its raw form appended as one slice *)
Theorem c14_gas_into_sdt :
  forall md v space width offset access addr, width < 256 -> offset < 256 ->
    (36 <= length v)%nat -> N.of_nat (length v + 12) < 2 ^ 32 ->
    run_sdt md v (gas_ser space width offset access addr) = sdt_append_slice md v (gas_raw space width offset access addr).
Proof. intros. now apply gas_into_sdt. Qed.

(* chunking is invisible for GAS too: its four header bytes packed into ONE dword (shifts 8 / 16 / 24) then the qword
   deliver the raw form, for every field value (a wrong shift does not: ex_gas below) *)
Theorem c14_gas_packed_header :
  forall space width offset access addr, space < 256 -> width < 256 -> offset < 256 -> access < 256 ->
    flatten (gas_ser_packed 24 space width offset access addr) = gas_raw space width offset access addr.
Proof. exact gas_packed_is_raw. Qed.

(* the Sdt sink of this file is the function the correspondence harness compares with the crate (component 31, ops 5 / 6) *)
Theorem c14_sdt_sink_is_the_judged_model :
  forall md v,
    (forall b bytes, sx_bytes b = Some bytes -> sdt_op md v (SL [SA 6; b]) = Some (run_sdt md v [SVec bytes])) /\
    (forall x, sdt_op md v (SL [SA 5; SA 1; SA x]) = Some (run_sdt md v [SByte (x mod 256)]) /\
               sdt_op md v (SL [SA 5; SA 2; SA x]) = Some (run_sdt md v [SWord x]) /\
               sdt_op md v (SL [SA 5; SA 4; SA x]) = Some (run_sdt md v [SDword x]) /\
               sdt_op md v (SL [SA 5; SA 8; SA x]) = Some (run_sdt md v [SQword x])).
Proof.
  intros md v. split; [intros b bytes H; cbn [sdt_op]; rewrite H|intros x; repeat split]; cbn [sdt_op width_ok option_bind];
    now rewrite run_sdt_single.
Qed.

Print Assumptions c14_sdt_sink.
Print Assumptions c14_sdt_sink_is_append_slice.
Print Assumptions c14_sdt_sink_is_append_slice_any_trace.
Print Assumptions c14_sdt_canon_after_append.
Print Assumptions c14_package_builder_sink.
Print Assumptions c14_gas_raw_is_serialised.
Print Assumptions c14_as_bytes_raw_is_serialised.
Print Assumptions c14_gas_into_sdt.
Print Assumptions c14_gas_packed_header.
Print Assumptions c14_sdt_sink_is_the_judged_model.

(* a 36-byte table, and a 300-byte trace mixing all five entry points: the table grows 36 -> 336, across 256 *)
Definition ex_ctor : sx :=
  SL [SL [SA 84; SA 69; SA 83; SA 84]; SA 36; SA 1; SL [SA 67; SA 76; SA 79; SA 85; SA 68; SA 72];
      SL [SA 84; SA 69; SA 83; SA 84; SA 84; SA 69; SA 83; SA 84]; SA 1].
Definition ex_v36 : list N := match sdt_new ex_ctor with Some v => v | None => [] end.
Definition ex_t300 : list scall :=
  [SByte 0xAA; SWord 0xBBCC; SDword 0xDEADBEEF; SQword 0x0102030405060708; SVec (repeatN 0x5A 200); SWord 0x1234;
   SVec (repeatN 0xFF 83)].
(* the same 300 bytes, chunked differently *)
Definition ex_t300_bytes : list scall := map SByte (flatten ex_t300).
Definition ex_t300_one : list scall := [SVec (flatten ex_t300)].

Example ex_hypotheses :
  length ex_v36 = 36%nat /\ length (flatten ex_t300) = 300%nat /\ trace_ok ex_t300 = true /\ sdt_canon ex_v36.
Proof. vm_compute. repeat split. Qed.

Example ex_sdt_sink_crossing_256 :
  run_sdt Checked ex_v36 ex_t300 = sdt_append_slice Checked ex_v36 (flatten ex_t300) /\
  run_sdt Wrapping ex_v36 ex_t300 = run_sdt Checked ex_v36 ex_t300 /\
  run_sdt Checked ex_v36 ex_t300_bytes = run_sdt Checked ex_v36 ex_t300 /\
  run_sdt Checked ex_v36 ex_t300_one = run_sdt Checked ex_v36 ex_t300 /\
  match run_sdt Checked ex_v36 ex_t300 with
  | Some img => length img = 336%nat /\ field_at img 4 4 = 336 /\ nth 5 img 0 = 1 /\ sum8 img = 0 /\
                skipn 36 img = flatten ex_t300 /\ firstn 4 img = firstn 4 ex_v36 /\
                firstn 26 (skipn 10 img) = firstn 26 (skipn 10 ex_v36)
  | None => False
  end.
Proof.
  destruct ex_hypotheses as (Hv & Hl & Hok & _). apply trace_ok_flat in Hok.
  assert (Hne : flatten ex_t300 <> []) by (intros E; rewrite E in Hl; discriminate Hl).
  (* in both profiles the run is the append of the 300 bytes; only that one image is evaluated *)
  assert (R : forall md, run_sdt md ex_v36 ex_t300 = Some (sappend ex_v36 (flatten ex_t300))).
  { intros md. apply run_sdt_sappend; [rewrite Hv; constructor|exact Hok|rewrite Hv, Hl; reflexivity|exact Hne]. }
  split; [rewrite R; symmetry; apply append_slice_refines; rewrite Hv; [constructor|reflexivity]|].
  split; [now rewrite !R|].
  split; [apply run_sdt_chunking, flatten_bytes|].
  split; [apply run_sdt_chunking, as_bytes_ser_flat|].
  rewrite R. vm_compute. repeat split.
Qed.

(* what the theorem excludes: a (hypothetical) Sdt sink that, instead of calling append, pushes the byte and adjusts
   Length and Checksum incrementally on their low bytes only -- it agrees with append_slice as long as the table stays
   below 256 bytes and differs as soon as Length carries into its second byte *)
Definition incr_byte (d : list N) (b : N) : list N :=
  let d1 := d ++ [b] in
  let d2 := upd d1 4 ((nth 4 d1 0 + 1) mod 256) in
  upd d2 9 (wsub8 (wsub8 (nth 9 d2 0) b) 1).

Example ex_incremental_sink_below_256 :
  Some (run_default incr_byte ex_v36 [SQword 0x0102030405060708; SVec (repeatN 0x5A 200)])
  = sdt_append_slice Checked ex_v36 (flatten [SQword 0x0102030405060708; SVec (repeatN 0x5A 200)]).
Proof. vm_compute. reflexivity. Qed.

Example ex_incremental_sink_refuted :
  Some (run_default incr_byte ex_v36 ex_t300) <> sdt_append_slice Checked ex_v36 (flatten ex_t300) /\
  field_at (run_default incr_byte ex_v36 ex_t300) 4 4 = 80.
Proof. split; [vm_compute; discriminate|vm_compute; reflexivity]. Qed.

(* PackageBuilder: the same three chunkings, and add_element *)
Example ex_package_builder :
  run_pkgb (mk_pkgb [1; 2; 3] 7) ex_t300 = mk_pkgb ([1; 2; 3] ++ flatten ex_t300) 7 /\
  run_pkgb (mk_pkgb [1; 2; 3] 7) ex_t300_bytes = run_pkgb (mk_pkgb [1; 2; 3] 7) ex_t300 /\
  run_pkgb (mk_pkgb [1; 2; 3] 7) ex_t300_one = run_pkgb (mk_pkgb [1; 2; 3] 7) ex_t300 /\
  pkgb_add_element pkgb_new [SByte 0x0A; SByte 5] = mk_pkgb [0x0A; 5] 1.
Proof.
  split; [apply run_pkgb_flat|]. split; [apply run_pkgb_chunking, flatten_bytes|].
  split; [apply run_pkgb_chunking, as_bytes_ser_flat|reflexivity].
Qed.

(* GAS: concrete values; the header packed into one dword with the right shifts is indistinguishable, with a wrong shift
   (access_size << 16 instead of << 24) the obligation breaks *)
Example ex_gas :
  flatten (gas_ser 0x7F 0x40 0x03 0x04 0x1122334455667788) = [0x7F; 0x40; 0x03; 0x04; 0x88; 0x77; 0x66; 0x55; 0x44; 0x33; 0x22; 0x11] /\
  gas_raw 0x7F 0x40 0x03 0x04 0x1122334455667788 = [0x7F; 0x40; 0x03; 0x04; 0x88; 0x77; 0x66; 0x55; 0x44; 0x33; 0x22; 0x11] /\
  u8sum_of (gas_ser 0x7F 0x40 0x03 0x04 0x1122334455667788) = (0x7F + 0x40 + 0x03 + 0x04 + 0x88 + 0x77 + 0x66 + 0x55 + 0x44 + 0x33 + 0x22 + 0x11) mod 256 /\
  flatten (gas_ser_packed 24 0x7F 0x40 0x03 0x04 0x1122334455667788) = gas_raw 0x7F 0x40 0x03 0x04 0x1122334455667788 /\
  flatten (gas_ser_packed 16 0x7F 0x40 0x03 0x04 0x1122334455667788) <> gas_raw 0x7F 0x40 0x03 0x04 0x1122334455667788.
Proof. vm_compute. repeat split. discriminate. Qed.
