(* RHCT: the Impl model refines the Spec (C04 as a theorem).  For every constructor argument and every history of
   operations in the domain of Spec/RhctS.v, in both build modes, the model of rhct.rs accepts the history and the table it
   serialises is byte for byte the reference image. *)
From Coq Require Import NArith List Lia.
From ACPI Require Import Lib.Bytes Lib.Sx Lib.Machine Impl.Table Impl.Rhct
  Spec.Layout Spec.HmatS Spec.PpttS Spec.RhctS
  Proofs.TableP Proofs.RhctP Proofs.RefCommonP Proofs.BaseP Proofs.RhctStructP.
Import ListNotations.

Open Scope N_scope.

Lemma resolve_all_handles s p ty l offs : placed_tracks p (t_handles s) -> resolve_all p ty l = Some offs -> handle_refs s l = Some offs.
Proof.
  intros HR. revert offs. induction l as [|x l IH]; intros offs H; cbn [resolve_all handle_refs] in *.
  - exact H.
  - destruct (resolve p ty x) as [h|] eqn:Eh; [|discriminate H].
    destruct (resolve_all p ty l) as [hs|]; [|discriminate H]. injection H as <-.
    rewrite (resolve_handle _ _ _ _ _ HR Eh), (IH hs eq_refl). reflexivity.
Qed.

(* every structure type is the reference encoding of the caller's values: both entry functions are "decode, check the
   size, serialise" ([rhct_entry_ref_cases], [rhct_addition_intro]), and an offset the Spec's bookkeeping resolves a handle to
   is the handle the model returned *)
Theorem rhct_entries_are_reference p s o e :
  placed_tracks p (t_handles s) -> rhct_entry_ref p o = Some e ->
  exists a, rhct_addition s o = Some a /\ a_bytes a = e.
Proof.
  intros SM H. apply rhct_entry_ref_cases in H as (d & Hop & Hfit & ->).
  exists (rhct_node_addition d). split; [|reflexivity]. apply rhct_addition_intro; [|exact Hfit].
  exact (rhct_op_mono _ _ _ _ o d (fun x v => resolve_handle p s 0 x v SM) (fun l vs => resolve_all_handles s p 1 l vs SM) Hop).
Qed.

Lemma rhct_refines_calls md ctor ops r :
  ts_image rhct_spec ctor ops = Some r -> N.of_nat (length r) < 2 ^ 32 ->
  exists s0 s, rhct_new ctor = Some s0 /\ run_adds rhct_addition md s0 ops = Some s /\ tbl_image s = r /\ all_calls ops.
Proof.
  intros H Hfit. cbn [ts_image rhct_spec] in H. unfold rhct_image, rhct_entries_ref in H.
  destruct ctor as [|[|o [|t [|rr [|[timebase|] [|]]]]]]; try discriminate H.
  destruct (sx_hdr_args o t rr) as [[oem tb orev]|] eqn:Eha; [|discriminate H].
  destruct (rhct_entries_from ops ([], 0) 56 []) as [es|] eqn:Ees; [|discriminate H].
  destruct ((timebase <? 2 ^ 64) && (N.of_nat (length es) <? 2 ^ 32)); [|discriminate H].
  apply Some_inj in H. subst r.
  assert (Hnew : rhct_new (SL [o; t; rr; SA timebase]) =
                 Some (tbl_new KRhct (mk_hdr [82; 72; 67; 84] 1 (Build_hdr_args oem tb orev)) (q8 timebase)))
    by (unfold rhct_new; rewrite (sx_hdr_of_args Eha); reflexivity).
  rewrite rhct_entries_from_pl in Ees.
  destruct (placed_image KRhct rhct_addition rhct_addition_sound rhct_entry_ref (fun e => unle (firstn 2 e)) (fun _ _ => eq_refl)
              rhct_entries_are_reference
              md _ ops es (rhct_new_inv _ _ Hnew) eq_refl eq_refl Ees Hfit) as (s & Hr & Hi & Hc); [discriminate|].
  eexists _, s. repeat split; eassumption.
Qed.

Theorem rhct_refines :
  forall md ctor ops r,
    ts_image rhct_spec ctor ops = Some r ->
    N.of_nat (length r) < 2 ^ 32 ->
    exists s0 s, rhct_new ctor = Some s0 /\
                 run_adds rhct_addition md s0 ops = Some s /\
                 tbl_image s = r.
Proof. intros md ctor ops r H Hfit. exact (accepted_refines (rhct_refines_calls md ctor ops r H Hfit)). Qed.

Corollary rhct_case_refines md ctor ops r :
  ts_image rhct_spec ctor ops = Some r -> N.of_nat (length r) < 2 ^ 32 ->
  exists evs, Forall (fun e => match e with EvNum _ => True | _ => False end) evs /\ length evs = length ops /\
    rhct_case md (SL (ctor :: ops ++ [SA 1])) = evs ++ [EvBytes r].
Proof. intros H Hfit. exact (case_shape (rhct_refines_calls md ctor ops r H Hfit)). Qed.

Print Assumptions rhct_refines.
Print Assumptions rhct_case_refines.
