(* C11, SRAT: memory affinity and generic initiator (records whose builders only OR option bits into the flags: one step
   lemma and the shape of the serialiser each), RINTC affinity (a field list).  The theorems about the emitted bytes are
   c11_srat_* in Props/C11.v. *)
From Coq Require Import NArith List Bool.
From ACPI Require Import Lib.Bytes Impl.Fields Impl.Srat Spec.OptionsS Proofs.FadtP Proofs.C11CommonP.
Import ListNotations.
Open Scope N_scope.

Definition memaff_reflag (m : memaff) (a : N) : memaff :=
  {| ma_pd := ma_pd m; ma_base := ma_base m; ma_len := ma_len m; ma_flags := a |}.

Lemma memaff_step m o m' : memaff_builder m o = Some m' ->
  ma_flags m' = N.lor (ma_flags m) (memaff_call_bit o) /\ forall a, memaff_reflag m' a = memaff_reflag m a.
Proof. revert m'. apply opt_case. unfold memaff_builder. dmatch_goal; split; reflexivity. Qed.

Lemma memaff_call_bit_small o : memaff_call_bit o < 2 ^ 32.
Proof. unfold memaff_call_bit. dmatch_goal; reflexivity. Qed.

Definition memaff_pre (m : memaff) : list N :=
  b1 1 ++ b1 40 ++ d4 (ma_pd m) ++ w2 0
  ++ d4 (N.land (ma_base m) LOW32) ++ d4 (N.land (N.shiftr (ma_base m) 32) LOW32)
  ++ d4 (N.land (ma_len m) LOW32) ++ d4 (N.land (N.shiftr (ma_len m) 32) LOW32) ++ d4 0.

Lemma memaff_shape m a :
  memaff_bytes m = memaff_pre m ++ le 4 (ma_flags m) ++ q8 0 /\
  memaff_bytes (memaff_reflag m a) = memaff_pre m ++ le 4 a ++ q8 0.
Proof. split; reflexivity. Qed.

Lemma memaff_options_distinct : distinct_single_bits memaff_option_table && below (2 ^ 32) memaff_option_table = true.
Proof. reflexivity. Qed.

Definition geninit_reflag (g : geninit) (a : N) : geninit := {| gi_pd := gi_pd g; gi_handle := gi_handle g; gi_flags := a |}.

Lemma geninit_step g o g' : geninit_builder g o = Some g' ->
  gi_flags g' = N.lor (gi_flags g) (geninit_call_bit o) /\ forall a, geninit_reflag g' a = geninit_reflag g a.
Proof. revert g'. apply opt_case. unfold geninit_builder. dmatch_goal; split; reflexivity. Qed.

Lemma geninit_call_bit_small o : geninit_call_bit o < 2 ^ 32.
Proof. unfold geninit_call_bit. dmatch_goal; reflexivity. Qed.

Definition geninit_pre (g : geninit) : list N :=
  b1 5 ++ b1 32 ++ b1 0 ++ b1 (match gi_handle g with HAcpi _ _ => 0 | HPci _ _ _ _ => 1 end)
  ++ d4 (gi_pd g) ++ handle_bytes (gi_handle g).

Lemma geninit_shape g a :
  geninit_bytes g = geninit_pre g ++ le 4 (gi_flags g) ++ d4 0 /\
  geninit_bytes (geninit_reflag g a) = geninit_pre g ++ le 4 a ++ d4 0.
Proof. split; reflexivity. Qed.

Lemma geninit_options_distinct : distinct_single_bits geninit_option_table && below (2 ^ 32) geninit_option_table = true.
Proof. reflexivity. Qed.

Definition RINTC_AFF_WS : list nat := [1; 1; 2; 4; 1; 1; 1; 1; 4; 4]%nat.

Lemma rintc_aff_new_spec u clock : length u = 4%nat ->
  widths (rintc_aff_new u clock) = RINTC_AFF_WS /\ fget (rintc_aff_new u clock) 8 = 0.
Proof. destruct u as [|a [|b [|c [|d [|? ?]]]]]; try discriminate. split; reflexivity. Qed.

Lemma rintc_aff_step f o f' : rintc_aff_builder f o = Some f' ->
  exists b, writes 8 (fun k => In (fld_range RINTC_AFF_WS k) (rintc_aff_call_ranges o)) f b f' /\ b = rintc_aff_call_bit o.
Proof.
  revert f'. apply opt_case. unfold rintc_aff_builder.
  dmatch_goal; cbv beta iota; unfold rintc_aff_call_bit; cbn [rintc_aff_enables rintc_aff_call_ranges];
    eexists; (split; [writes_tac|reflexivity]).
Qed.

Lemma rintc_aff_call_bit_small o : rintc_aff_call_bit o < 2 ^ (8 * N.of_nat (fwid RINTC_AFF_WS 8)).
Proof. unfold rintc_aff_call_bit. destruct (rintc_aff_enables o); reflexivity. Qed.

