(* [length_ref_table_gen]: a reference table is 36 bytes longer than what follows its header, from the three lengths that
   `hdr_ok` checks.  [walk_result_nth]: the k-th element of a walk result is the k-th entry: its type code, its length, and as
   offset the first-entry offset plus the total size of the entries before it (Proofs/WalkRefCommon2P.v has it with the
   offset quantified first). *)
From Coq Require Import List.
From ACPI Require Import Impl.Table Spec.Layout Proofs.WalkP Proofs.WalkRefCommon2P Proofs.RefTableCommonP.
Import ListNotations.
Open Scope N_scope.

Lemma length_ref_table_gen sig rev h rest :
  length sig = 4%nat -> length (ha_oem h) = 6%nat -> length (ha_tbl h) = 8%nat ->
  length (ref_table sig rev h rest) = (36 + length rest)%nat.
Proof.
  intros H1 H2 H3. apply length_ref_table_args. unfold hdr_ok. cbn [mk_hdr h_sig h_oem h_tbl]. now rewrite H1, H2, H3.
Qed.

Lemma walk_result_nth : forall es tys off k e t,
  nth_error es k = Some e -> nth_error tys k = Some t ->
  nth_error (walk_result off es tys) k = Some (t, (off + length (concat (firstn k es)))%nat, length e).
Proof. intros es tys off. exact (WalkRefCommon2P.walk_result_nth off es tys). Qed.
