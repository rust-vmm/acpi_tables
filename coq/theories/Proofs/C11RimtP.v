(* C11, RIMT: the options are constructor arguments (booleans, Option values).  Each serialiser emits fixed-width fields and
   then its embedded elements: it is read as a field list followed by a tail, the option being one assignment to the flags
   field of the structure built without options.  The theorems about the emitted bytes are c11_rimt_* in Props/C11.v. *)
From Coq Require Import NArith List Lia.
From ACPI Require Import Lib.Sx Impl.Fields Impl.Rimt Spec.Layout Spec.RimtS Spec.OptionsS
  Proofs.C11CommonP Proofs.BaseP.
Import ListNotations.
Open Scope N_scope.

Lemma truthy_bit v k : (if truthy v then k else 0) = sp_bit v k.
Proof. unfold truthy, sp_bit. destruct (v =? 0); reflexivity. Qed.

Lemma sp_bit_lt v k n : k < 2 ^ n -> sp_bit v k < 2 ^ n.
Proof. intros H. unfold sp_bit. destruct (v =? 0); [|exact H]. apply N.neq_0_lt_0, N.pow_nonzero. discriminate. Qed.

Lemma rimt_pci_given x p : rimt_pci x = Some p -> (match p with Some _ => true | None => false end) = opt_given x.
Proof. revert p. apply opt_case. unfold rimt_pci. dmatch_goal; try (destruct (pci_ok _ _); [|exact I]); reflexivity. Qed.
Lemma opt_num_given x p : opt_num x = Some p -> (match p with Some _ => true | None => false end) = opt_given x.
Proof. revert p. apply opt_case. unfold opt_num. dmatch_goal; reflexivity. Qed.

(* the fixed part of the device, as a field list: `iommu_bytes` is `ser_flds` of it followed by the wires (by computation);
   index 6 flags, 7 PCI segment, 8 PCI BDF, 9 proximity domain *)
Definition iommu_flds (id : N) (base : option N) (n flags seg bdf prox : N) : flds :=
  [F 1 0; F 1 1; F 2 (iommu_len n); F 2 id; F 2 0; F 8 (match base with Some b => b | None => 0 end);
   F 4 flags; F 2 seg; F 2 bdf; F 4 prox; F 2 n; F 2 32].

(* the i-th element of a vector of w-byte elements emitted after a prefix of n bytes starts at n + w i *)
Lemma embedded_elt (f : sx -> option (list N)) w : (forall y b, f y = Some b -> length b = w) ->
  forall l es i x, sx_list_all f l = Some es -> nth_error l i = Some x ->
  exists b, f x = Some b /\
    forall pre n off k, length pre = n -> (off + k <= w)%nat ->
      field_at (pre ++ concat es) (n + w * i + off) k = field_at b off k.
Proof.
  intros Hw. induction l as [|y l IH]; intros es i x H Hi; [now destruct i|].
  cbn [sx_list_all] in H. destruct (f y) as [a|] eqn:Ea; [|discriminate].
  destruct (sx_list_all f l) as [r|] eqn:Er; [|discriminate]. injection H as <-.
  destruct i as [|i]; cbn [nth_error] in Hi.
  - injection Hi as <-. exists a. split; [exact Ea|]. intros pre n off k <- Hk. cbn [concat].
    replace (length pre + w * 0 + off)%nat with (length pre + off)%nat by lia.
    rewrite field_at_app_r. apply field_at_app_l. now rewrite (Hw _ _ Ea).
  - destruct (IH r i x eq_refl Hi) as (b & Hb & Hat). exists b. split; [exact Hb|].
    intros pre n off k <- Hk. cbn [concat]. rewrite app_assoc.
    replace (length pre + w * S i + off)%nat with (length pre + w + w * i + off)%nat by lia.
    apply Hat; [|exact Hk]. now rewrite app_length, (Hw _ _ Ea).
Qed.

Lemma rimt_options_distinct : forallb distinct_single_bits rimt_option_tables = true /\
  map (fun x => wire_flags_ref (fst x) (snd x)) [(0, 0); (1, 0); (0, 1); (1, 1)] = [0; 1; 2; 3] /\
  map (fun x => idmap_flags_ref (fst (fst x)) (snd (fst x)) (snd x))
      [(0, 0, 0); (1, 0, 0); (0, 1, 0); (1, 1, 0); (0, 0, 1); (1, 0, 1); (0, 1, 1); (1, 1, 1)] = [0; 1; 2; 3; 4; 5; 6; 7].
Proof. repeat split; reflexivity. Qed.
