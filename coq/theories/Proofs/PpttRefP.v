(* PPTT: the Impl model refines the Spec layer (C04 as a theorem).
   For every constructor argument and every history inside the specification's domain, in both build modes, the
   model accepts the history and its image is byte for byte the reference image.  Handle references (104 k) resolve
   on both sides to the offset at which the entry added by operation k starts. *)
From Coq Require Import NArith List Lia Bool Arith.
From ACPI Require Import Lib.Bytes Lib.Sx Lib.Machine Impl.Table Impl.Fields Impl.Pptt
  Spec.Layout Spec.MadtS Spec.HmatS Spec.PpttS
  Proofs.TableP Proofs.PpttP Proofs.WalkRefCommon2P Proofs.RefCommonP Proofs.BaseP Proofs.PpttStructP.
Import ListNotations.

Open Scope N_scope.

Lemma resolve_or_raw_handle p s ty x v : placed_tracks p (t_handles s) -> resolve_or_raw p ty x = Some v -> handle_ref s x = Some v.
Proof.
  intros HR H. destruct x as [n|l]; cbn [resolve_or_raw] in H.
  - destruct (n <? 2 ^ 32); [exact H|discriminate].
  - eapply resolve_handle; eauto.
Qed.

Lemma pptt_par_val_handle p s x v : placed_tracks p (t_handles s) -> pptt_par_val p x = Some v -> pnode_parent s x = Some v.
Proof.
  intros HR H.
  destruct x as [n|[|y l]]; [exact (resolve_or_raw_handle _ _ _ _ _ HR H)|exact H|exact (resolve_or_raw_handle _ _ _ _ _ HR H)].
Qed.

Lemma proc_builder_sim p s st b st' : placed_tracks p (t_handles s) ->
  proc_builder p st b = Some st' -> pnode_builder s (pn_of st) b = Some (pn_of st').
Proof.
  intros HR H. destruct st as [[[fl par] uid] rres]. apply proc_builder_cases in H.
  destruct H as [| | | | |h c E|v _|x v E|v _]; cbn [pnode_builder pn_of pn_flags pn_parent pn_uid pn_rres]; try reflexivity.
  - (* add_cache(&handle) *) rewrite (resolve_handle _ _ _ _ _ HR E). reflexivity.
  - (* node.parent = v *) rewrite (resolve_or_raw_handle _ _ _ _ _ HR E). reflexivity.
Qed.

Lemma proc_builders_sim p s bs : placed_tracks p (t_handles s) -> forall st st',
  proc_builders p st bs = Some st' -> pnode_builders s (pn_of st) bs = Some (pn_of st').
Proof.
  intros HR. induction bs as [|b bs IH]; intros st st' H; cbn [proc_builders pnode_builders] in *.
  - apply Some_inj in H. subst st'. reflexivity.
  - destruct (proc_builder p st b) as [st1|] eqn:E; [|discriminate].
    rewrite (proc_builder_sim _ _ _ _ _ HR E). apply IH. exact H.
Qed.

(* builder chains write slots: [c k] is what builder k was last given, [set_slot c k x] after one more call *)
Definition set_slot (c : N -> option (list N)) (k : N) (x : list N) : N -> option (list N) :=
  fun j => if k =? j then Some x else c j.

Definition cflags (a1 a2 a3 a4 a5 a6 a7 a8 : option (list N)) : N :=
  bit (isS a1) 1 + bit (isS a2) 2 + bit (isS a3) 4 + bit (isS a4) 8 + bit (isS a5) 16
  + bit (isS a6) 32 + bit (isS a7) 64 + bit (isS a8) 128.

(* a word given digit by digit, lowest first: or-ing a power of two into it descends to that digit and sets it *)
Definition digit (b : bool) (r : N) : N := N.b2n b + 2 * r.

Lemma lor_digit_1 b r : N.lor (digit b r) 1 = digit true r.
Proof. destruct b, r; reflexivity. Qed.

Lemma lor_digit_double b r v : N.lor (digit b r) (2 * v) = digit b (N.lor r v).
Proof. destruct b, r, v; reflexivity. Qed.

Lemma cflags_as_digits a1 a2 a3 a4 a5 a6 a7 a8 :
  cflags a1 a2 a3 a4 a5 a6 a7 a8 =
  digit (isS a1) (digit (isS a2) (digit (isS a3) (digit (isS a4)
    (digit (isS a5) (digit (isS a6) (digit (isS a7) (digit (isS a8) 0))))))).
Proof.
  unfold cflags, digit. assert (E : forall b v, bit b v = N.b2n b * v) by (intros [] v; cbn [bit N.b2n]; lia).
  rewrite !E. lia.
Qed.

Lemma cflags_or a1 a2 a3 a4 a5 a6 a7 a8 l :
  N.lor (cflags a1 a2 a3 a4 a5 a6 a7 a8) 1 = cflags (Some l) a2 a3 a4 a5 a6 a7 a8 /\
  N.lor (cflags a1 a2 a3 a4 a5 a6 a7 a8) 2 = cflags a1 (Some l) a3 a4 a5 a6 a7 a8 /\
  N.lor (cflags a1 a2 a3 a4 a5 a6 a7 a8) 4 = cflags a1 a2 (Some l) a4 a5 a6 a7 a8 /\
  N.lor (cflags a1 a2 a3 a4 a5 a6 a7 a8) 8 = cflags a1 a2 a3 (Some l) a5 a6 a7 a8 /\
  N.lor (cflags a1 a2 a3 a4 a5 a6 a7 a8) 16 = cflags a1 a2 a3 a4 (Some l) a6 a7 a8 /\
  N.lor (cflags a1 a2 a3 a4 a5 a6 a7 a8) 32 = cflags a1 a2 a3 a4 a5 (Some l) a7 a8 /\
  N.lor (cflags a1 a2 a3 a4 a5 a6 a7 a8) 64 = cflags a1 a2 a3 a4 a5 a6 (Some l) a8 /\
  N.lor (cflags a1 a2 a3 a4 a5 a6 a7 a8) 128 = cflags a1 a2 a3 a4 a5 a6 a7 (Some l).
Proof.
  rewrite !cflags_as_digits. cbn [isS].
  change 2 with (2 * 1). change 4 with (2 * (2 * 1)). change 8 with (2 * (2 * (2 * 1))).
  change 16 with (2 * (2 * (2 * (2 * 1)))). change 32 with (2 * (2 * (2 * (2 * (2 * 1))))).
  change 64 with (2 * (2 * (2 * (2 * (2 * (2 * 1)))))). change 128 with (2 * (2 * (2 * (2 * (2 * (2 * (2 * 1))))))).
  rewrite !lor_digit_double, !lor_digit_1. repeat split.
Qed.

Lemma lor_move a x b c d : N.lor (N.lor a x) (N.lor (N.lor b c) d) = N.lor a (N.lor (N.lor (N.lor x b) c) d).
Proof. now rewrite <- !N.lor_assoc. Qed.
Lemma lor_move2 a x b c d : N.lor (N.lor a x) (N.lor (N.lor b c) d) = N.lor a (N.lor (N.lor b (N.lor x c)) d).
Proof. rewrite <- !N.lor_assoc. f_equal. now rewrite !N.lor_assoc, (N.lor_comm x b). Qed.
Lemma lor_move3 a x b c d : N.lor (N.lor a x) (N.lor (N.lor b c) d) = N.lor a (N.lor (N.lor b c) (N.lor x d)).
Proof. rewrite <- !N.lor_assoc. f_equal. rewrite !N.lor_assoc. f_equal. now rewrite (N.lor_comm (N.lor b c) x), N.lor_assoc. Qed.

Lemma alloc_bits_small e : e < 3 -> alloc_bits e = e * 1.
Proof. intros H. assert (C : e = 0 \/ e = 1 \/ e = 2) by lia. destruct C as [->|[->| ->]]; reflexivity. Qed.
Lemma ctype_bits_small e : e < 3 -> ctype_bits e = e * 4.
Proof. intros H. assert (C : e = 0 \/ e = 1 \/ e = 2) by lia. destruct C as [->|[->| ->]]; reflexivity. Qed.
Lemma policy_bits_small e : e < 2 -> policy_bits e = e * 16.
Proof. intros H. assert (C : e = 0 \/ e = 1) by lia. destruct C as [->| ->]; reflexivity. Qed.

(* the Cache Type Structure holding what the setters were last given, [c k] for setter k *)
Definition cflc (c : N -> option (list N)) (nl at0 : N) : flds :=
  pptt_cache_flds (cflags (c 1) (c 2) (c 3) (c 4) (c 5) (c 6) (c 7) (c 8)) nl (val (c 1)) (val (c 2)) (val (c 3)) at0 (val (c 7)) (val (c 8)).

(* the setter calls in the Spec's domain *)
Inductive cache_call : sx -> Prop :=
| CallSize v : cache_call (SL [SA 1; SA v])
| CallSets v : cache_call (SL [SA 2; SA v])
| CallAssoc v : cache_call (SL [SA 3; SA v])
| CallAlloc e : e < 3 -> cache_call (SL [SA 4; SA e])
| CallType e : e < 3 -> cache_call (SL [SA 5; SA e])
| CallPolicy e : e < 2 -> cache_call (SL [SA 6; SA e])
| CallLine v : cache_call (SL [SA 7; SA v])
| CallId v : cache_call (SL [SA 8; SA v])
| CallNext h : cache_call (SL [SA 9; h]).

Lemma cache_setter_ok_cases x : cache_setter_ok x = true -> cache_call x.
Proof. unfold cache_setter_ok. intros H. break_sx H; try apply N.ltb_lt in H; constructor; assumption. Qed.

(* the setter fold of the model, from any intermediate state, against the Spec's summaries of the remaining setters *)
Lemma cache_setters_sim p s (HR : placed_tracks p (t_handles s)) st :
  forall c nl at0 next,
  forallb cache_setter_ok st = true ->
  last_next_level p st nl = Some next ->
  cache_setters s (cflc c nl at0) st = Some (cflc (fun k => last_arg k st (c k)) next (N.lor at0 (pptt_cache_attrs st))).
Proof.
  induction st as [|x st IH]; intros c nl at0 next Hok Hnl; unfold cflc.
  - cbn [last_next_level] in Hnl. apply Some_inj in Hnl. subst next.
    cbn [cache_setters last_arg]. unfold pptt_cache_attrs. cbn [or_args]. change (N.lor (N.lor 0 0) 0) with 0.
    rewrite N.lor_0_r. reflexivity.
  - cbn [forallb] in Hok. apply andb_true_iff in Hok. destruct Hok as [Hx Hok].
    destruct (cflags_or (c 1) (c 2) (c 3) (c 4) (c 5) (c 6) (c 7) (c 8) []) as (F1 & F2 & F3 & F4 & F5 & F6 & F7 & F8).
    destruct (cache_setter_ok_cases x Hx) as [v|v|v|e He|e He|e He|v|v|h];
      cbn [cache_setters cache_setter pptt_cache_flds fset f_or F last_next_level] in *;
      unfold pptt_cache_attrs; cbn [last_arg or_args sx_nums]; cbv [N.eqb Pos.eqb]; fold (pptt_cache_attrs st).
    + rewrite F1. exact (IH (set_slot c 1 [v]) nl at0 next Hok Hnl).
    + rewrite F2. exact (IH (set_slot c 2 [v]) nl at0 next Hok Hnl).
    + rewrite F3. exact (IH (set_slot c 3 [v]) nl at0 next Hok Hnl).
    + (* the three attribute setters or their sub-field into the byte *)
      rewrite (alloc_bits_small e He), <- lor_move, F4. exact (IH (set_slot c 4 [e]) nl _ next Hok Hnl).
    + rewrite (ctype_bits_small e He), <- lor_move2, F5. exact (IH (set_slot c 5 [e]) nl _ next Hok Hnl).
    + rewrite (policy_bits_small e He), <- lor_move3, F6. exact (IH (set_slot c 6 [e]) nl _ next Hok Hnl).
    + rewrite F7. exact (IH (set_slot c 7 [v]) nl at0 next Hok Hnl).
    + rewrite F8. exact (IH (set_slot c 8 [v]) nl at0 next Hok Hnl).
    + (* next_level(&handle) *)
      destruct (resolve p 1 h) as [h0|] eqn:E; [|discriminate Hnl].
      rewrite (resolve_handle _ _ _ _ _ HR E). cbn [option_bind].
      replace (N.lor (N.lor match h with SA _ | _ => or_args 4 1 st end match h with SA _ | _ => or_args 5 4 st end)
                     match h with SA _ | _ => or_args 6 16 st end) with (pptt_cache_attrs st) by (destruct h; reflexivity).
      exact (IH c h0 at0 next Hok Hnl).
Qed.

(* a node of the Spec is the node the model builds from the same operation *)
Lemma pptt_ref_op_sim p s o d : placed_tracks p (t_handles s) -> pptt_ref_op p o d -> pptt_op s o d.
Proof.
  intros HR [parent uid bs par0 st Epar Eb|st next Hok Hnl].
  - apply (PpOpProc s parent uid bs (pn_of (0, par0, uid, []))).
    + exact (pnode_new_intro s parent uid par0 (pptt_par_val_handle p s parent par0 HR Epar)).
    + exact (proc_builders_sim p s bs HR _ _ Eb).
  - (* [cache_default] is the node before any setter: nothing supplied, next level 0, attributes 0 *)
    constructor. pose proof (cache_setters_sim p s HR st (fun _ => None) 0 0 next Hok Hnl) as Hsim.
    rewrite N.lor_0_l in Hsim. exact Hsim.
Qed.

Theorem pptt_entries_are_reference p s o e : placed_tracks p (t_handles s) ->
  pptt_entry_ref p o = Some e ->
  exists a, pptt_addition s o = Some a /\ a_bytes a = e.
Proof.
  intros HR H. apply pptt_entry_ref_cases in H as (d & Hop & Hfit & ->). exists (pptt_node_addition d).
  split; [|reflexivity]. exact (pptt_addition_intro s o d (pptt_ref_op_sim p s o d HR Hop) Hfit).
Qed.

Lemma pptt_refines_calls md ctor ops r :
  ts_image pptt_spec ctor ops = Some r -> N.of_nat (length r) < 2 ^ 32 ->
  exists s0 s, pptt_new ctor = Some s0 /\ run_adds pptt_addition md s0 ops = Some s /\ tbl_image s = r /\ all_calls ops.
Proof.
  intros H Hfit. apply (table3_accepts KPptt [80; 80; 84; 84] pptt_addition pptt_entries_ref eq_refl md ctor ops r H).
  intros s0 es I0 He0 Hh0 Hes ->. unfold pptt_entries_ref in Hes. rewrite pptt_entries_from_pl in Hes.
  exact (placed_image KPptt pptt_addition pptt_addition_sound pptt_entry_ref sp_ty (fun _ _ => eq_refl)
           pptt_entries_are_reference md s0 ops es I0 He0 Hh0 Hes Hfit ltac:(discriminate)).
Qed.

Theorem pptt_refines md ctor ops r :
  ts_image pptt_spec ctor ops = Some r ->
  N.of_nat (length r) < 2 ^ 32 ->
  exists s0 s, pptt_new ctor = Some s0 /\ run_adds pptt_addition md s0 ops = Some s /\ tbl_image s = r.
Proof. intros H Hfit. exact (accepted_refines (pptt_refines_calls md ctor ops r H Hfit)). Qed.

Corollary pptt_case_refines md ctor ops r :
  ts_image pptt_spec ctor ops = Some r ->
  N.of_nat (length r) < 2 ^ 32 ->
  exists evs, Forall is_num evs /\ pptt_case md (SL (ctor :: ops ++ [SA 1])) = evs ++ [EvBytes r].
Proof. intros H Hfit. exact (case_is_num (pptt_refines_calls md ctor ops r H Hfit)). Qed.

Print Assumptions pptt_entries_are_reference.
Print Assumptions pptt_refines.
Print Assumptions pptt_case_refines.
