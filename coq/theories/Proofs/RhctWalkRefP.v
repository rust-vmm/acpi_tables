(* RHCT, C03 and C05 on the reference image: for every history in the domain of Spec/RhctS.v the reference image is exactly
   tiled by the nodes that were added (walk from offset 56 by each node's own 16-bit length field), the node count (offset 48)
   is the number of nodes and the node offset (offset 52) is 56; every node passes the per-entry self-check (ISA string node:
   string length incl. NUL, padding to an even size, NUL in place; CMO / MMU nodes: fixed sizes; hart info node: offset count
   against the node length); and the offset the Spec resolves (104 k) to is the offset at which the walk finds the k-th node. *)
From Coq Require Import NArith List Lia Bool.
From ACPI Require Import Lib.Bytes Lib.Sx Spec.Layout Spec.HmatS Spec.PpttS Spec.RhctS Spec.SelfCheck Judge
  Proofs.BaseP Proofs.WalkP Proofs.RefTableCommonP Proofs.WalkRefCommon2P Proofs.SelfCommonP Proofs.RhctStructP.
Import ListNotations.
Open Scope N_scope.

Definition rhct_ty (e : list N) : N := unle (firstn 2 e).

(* a node that fits 16 bits describes itself (its bytes 2..3 hold its own size) and passes its self-check: the type code and
   the count field are read off the head of the node and compared with its size; 17 is the RHCT's component number in
   Judge.v *)
Lemma rhct_node_good d : N.of_nat (rhct_node_size d) <= 65535 -> entry_good H_u16_u16 17 rhct_ty (rhct_node_bytes d).
Proof.
  intros Hfit. split; [exact (rhct_node_self d Hfit)|].
  pose proof (rhct_node_length d) as Hlen.
  unfold rhct_ty. rewrite rhct_node_ty.
  destruct d as [str|scheme|cbom cbop cboz|uid hs]; cbn [entry_self_ok rhct_self]; unfold lenN; rewrite Hlen.
  - (* ISA string: string length incl. NUL, padding to an even size, NUL in place *)
    rewrite (rhct_node_field16 _ 6 (length str + 1) Hfit eq_refl) by (cbn [rhct_node_size]; lia).
    destruct (rhct_node_split (RhIsa str)) as (fixed & Hfx & ->).
    cbn [rhct_node_size rhct_node_tail rhct_node_head_size app] in *. pose proof (odd_mod2 (8 + length str + 1)) as Ho.
    rewrite (proj2 (N.leb_le 1 _)), (proj2 (N.eqb_eq _ _)) by lia.
    rewrite app_assoc, byte_at_here; [reflexivity| |lia]. rewrite app_length, Hfx. lia.
  - (* MMU, CMO: fixed sizes *) reflexivity.
  - reflexivity.
  - (* hart info: offset count *)
    rewrite (rhct_node_field16 _ 6 (length hs) Hfit eq_refl) by (cbn [rhct_node_size]; lia).
    cbn [rhct_node_size]. apply N.eqb_eq. lia.
Qed.

Lemma rhct_entry_good p o e : rhct_entry_ref p o = Some e -> entry_good H_u16_u16 17 rhct_ty e.
Proof. intros H. apply rhct_entry_ref_cases in H as (d & _ & Hfit & ->). exact (rhct_node_good d Hfit). Qed.

(* the constructor (oem6 tbl8 orev timebase) *)
Definition ctor4 (c : sx) : option (hdr_args * N) :=
  match c with SL [o; t; r; SA tb] => option_map (fun ha => (ha, tb)) (sx_hdr_args o t r) | _ => None end.

Lemma ctor4_len c ha tb : ctor4 c = Some (ha, tb) -> length (ha_oem ha) = 6%nat /\ length (ha_tbl ha) = 8%nat.
Proof.
  destruct c as [|[|o [|t [|r [|[tb'|] [|]]]]]]; try discriminate. cbn [ctor4].
  destruct (sx_hdr_args o t r) as [ha'|] eqn:E; [|discriminate]. intros H. injection H as <- _. exact (sx_hdr_args_len _ _ _ _ E).
Qed.

(* 36+4 reserved, 40+8 time base frequency, 48+4 node count, 52+4 node offset = 56 *)
Definition rhct_fixed (tb : N) (n : nat) : layout := [L 36 4 0; L 40 8 tb; L 48 4 (N.of_nat n); L 52 4 56].
Definition rhct_ok (tb : N) (es : list (list N)) : bool := (tb <? 2 ^ 64) && (N.of_nat (length es) <? 2 ^ 32).

Lemma rhct_image_eq ctor ops : ts_image rhct_spec ctor ops =
  match ctor4 ctor, rhct_entries_ref ops with
  | Some (ha, tb), Some es =>
      if rhct_ok tb es then Some (ref_table [82; 72; 67; 84] 1 ha (assemble (rhct_fixed tb (length es)) ++ concat es)) else None
  | _, _ => None
  end.
Proof.
  destruct ctor as [|[|o [|t [|rr [|[tb|] [|]]]]]]; try reflexivity. cbn [ts_image rhct_spec rhct_image ctor4].
  destruct (sx_hdr_args o t rr); [|reflexivity]. destruct (rhct_entries_ref ops); reflexivity.
Qed.

Lemma rhct_entries_good ops es : rhct_entries_ref ops = Some es -> Forall (entry_good H_u16_u16 17 rhct_ty) es.
Proof.
  unfold rhct_entries_ref. rewrite rhct_entries_from_pl. intros H.
  exact (bk_entries_forall _ rhct_entry_good ops _ _ es H).
Qed.

Definition rhct_ref : reftable rhct_spec 17 (fun _ => True).
Proof.
  refine (Build_reftable rhct_spec 17 _ [82; 72; 67; 84] 56 H_u16_u16 rhct_ty rhct_entries_ref eq_refl eq_refl (fun _ _ => eq_refl)
            rhct_entries_good _).
  intros ctor ops r H. destruct (body_shape _ _ _ _ _ _ _ ctor4_len rhct_image_eq ctor ops r H) as (ha & tb & es & _ & Ees & Hok & Hr).
  exists (rhct_fixed tb (length es)), es. split; [exact Ees|]. split; [exact Hr|]. split; [reflexivity|]. split; [reflexivity|].
  apply andb_true_iff in Hok. destruct Hok as [_ Hc]. apply N.ltb_lt in Hc.
  intros _ o w v [E|[E|[]]]; injection E as <- <- <-.
  - split; [right; right; left; reflexivity|exact Hc].
  - split; [right; right; right; left; reflexivity|reflexivity].
Defined.

Lemma rhct_image_body ctor ops r : ts_image rhct_spec ctor ops = Some r ->
  exists es, rhct_entries_ref ops = Some es /\ skipn 56 r = concat es /\
    Forall (fun e => self_describing H_u16_u16 e (rhct_ty e)) es.
Proof. exact (reftable_body rhct_ref ctor ops r). Qed.

Theorem rhct_reference_tiles : forall ctor ops r,
  ts_image rhct_spec ctor ops = Some r -> c03_judge rhct_spec ctor r ops = true.
Proof. intros ctor ops r H. exact (reftable_tiles rhct_ref ctor ops r H I). Qed.

Theorem rhct_selfcheck : forall ctor ops r, ts_image rhct_spec ctor ops = Some r -> c03_self 17 r = true.
Proof. exact (reftable_selfcheck rhct_ref). Qed.

(* the Spec's bookkeeping (Spec/RhctS.v, [rhct_entries_from]) after a list of operations: the (type, start) of every node
   placed so far, most recent first, and their number; this is the [p] with which the NEXT operation's handle references
   (104 k) are resolved *)
Fixpoint rhct_placed_from (ops : list sx) (p : placed) (next : N) : option placed :=
  match ops with
  | [] => Some p
  | o :: r =>
      match rhct_entry_ref p o with
      | Some e => rhct_placed_from r ((rhct_ty e, next) :: fst p, snd p + 1) (next + N.of_nat (length e))
      | None => None
      end
  end.

Definition rhct_placed (ops : list sx) : option placed := rhct_placed_from ops ([], 0) 56.

Lemma rhct_placed_from_pl ops : forall p next, rhct_placed_from ops p next = pl_placed_from rhct_entry_ref rhct_ty ops p next.
Proof.
  unfold pl_placed_from. induction ops as [|o ops IH]; intros; cbn [rhct_placed_from bk_final]; [reflexivity|].
  destruct (rhct_entry_ref p o); [apply IH|reflexivity].
Qed.

(* in the form of the run-time judgement [c05_handles_ok]: whatever set of (handle, operation number) pairs is pending, if
   each handle is the offset the Spec resolves that operation's (104 k) to, the judgement on the reference image is true *)
Corollary rhct_reference_handles_ok : forall ctor ops r p pending,
  ts_image rhct_spec ctor ops = Some r -> rhct_placed ops = Some p ->
  (forall hk, In hk pending -> exists ty, resolve p ty (SL [SA 104; SA (N.of_nat (snd hk))]) = Some (fst hk)) ->
  c05_handles_ok rhct_spec r pending = true.
Proof.
  intros ctor ops r p pending H Hp Hpend. destruct (rhct_image_body ctor _ r H) as (es & Ees & Hsk & HF).
  unfold rhct_entries_ref in Ees. rewrite rhct_entries_from_pl in Ees.
  unfold rhct_placed in Hp. rewrite rhct_placed_from_pl in Hp.
  exact (pl_reference_handles_ok rhct_ty rhct_entry_ref H_u16_u16 rhct_spec r 56%nat ops es p pending eq_refl Ees Hsk HF Hp Hpend).
Qed.

Print Assumptions rhct_reference_tiles.
Print Assumptions rhct_selfcheck.
Print Assumptions rhct_reference_handles_ok.
