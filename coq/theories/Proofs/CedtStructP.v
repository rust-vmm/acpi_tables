(* CEDT: the structure an add_* call receives (cedt.rs `CxlHostBridge`, `CxlFixedMemory`, `XorInterleaveMath`,
   `PortAssociation`; targets already serialised), as a value between the operation and the bytes.  Both entry functions --
   the model's `cedt_addition` and the Spec's `cedt_entry_ref` -- are "decode the operation to a structure, check the
   serialiser's asserts, serialise it" (`cedt_addition_cases` / `_intro`, `cedt_entry_ref_cases`); they differ in three argument
   decoders only (`cedt_dec`).  The layout of a structure is stated once (`cedt_rec_lay`); its size, fields and
   self-description are read off it.  Every other CEDT file starts from these. *)
From Coq Require Import NArith List Lia Arith.
From ACPI Require Import Lib.Bytes Lib.Sx Lib.Machine Impl.Table Impl.Fields Impl.Cedt Spec.Layout Spec.HmatS Spec.RimtS Spec.CedtS
  Proofs.BaseP Proofs.WalkP Proofs.WalkRefCommon2P.
Import ListNotations.
Open Scope N_scope.

(* [nw] is what the ways code [ways] stands for (InterleaveWays::num_interleaved_ways), [verlen] what the version does
   (CxlVersion::len) *)
Inductive cedt_rec : Type :=
| RChbs (uid ver base verlen : N)
| RCfmws (base size ways arith gran restr qtg nw : N) (targets : list (list N))
| RCxims (gran : N) (maps : list N)
| RRdpas (seg bdf proto base : N).

Definition cedt_rec_bytes (d : cedt_rec) : list N :=
  match d with
  | RChbs uid ver base vl => chbs_bytes uid ver base vl
  | RCfmws base size ways arith gran restr qtg nw tg => cfmws_bytes base size ways arith gran restr qtg nw tg
  | RCxims gran ms => cxims_bytes gran ms
  | RRdpas seg b proto base => rdpas_bytes seg b proto base
  end.

(* the hand-written len() *)
Definition cedt_rec_claimed (d : cedt_rec) : N :=
  match d with
  | RChbs _ _ _ _ => 32
  | RCfmws _ _ _ _ _ _ _ nw _ => cfmws_len nw
  | RCxims _ ms => cxims_len (N.of_nat (length ms))
  | RRdpas _ _ _ _ => 17
  end.

Definition cedt_rec_size (d : cedt_rec) : nat :=
  match d with
  | RChbs _ _ _ _ => 32
  | RCfmws _ _ _ _ _ _ _ _ tg => 36 + 4 * length tg
  | RCxims _ ms => 8 + 8 * length ms
  | RRdpas _ _ _ _ => 17
  end.

(* what decoding guarantees: the count belongs to the ways code, targets are 4 bytes each *)
Definition cedt_rec_ok (d : cedt_rec) : Prop :=
  match d with
  | RCfmws _ _ ways _ _ _ _ nw tg => num_ways ways = Some nw /\ Forall (fun t => length t = 4%nat) tg
  | _ => True
  end.

(* the asserts of the serialisers: one target per interleave way; the xormap count fits its byte *)
Definition cedt_rec_asserts (d : cedt_rec) : Prop :=
  match d with
  | RCfmws _ _ _ _ _ _ _ nw tg => nw = N.of_nat (length tg)
  | RCxims _ ms => N.of_nat (length ms) <= 255
  | _ => True
  end.

Definition cedt_rec_addition (s : tbl) (d : cedt_rec) : addition :=
  {| a_style := SumAdd; a_claimed := cedt_rec_claimed d; a_bytes := cedt_rec_bytes d; a_returns := false; a_flag := t_flag s |}.

(* the restriction builders (model: fold of `|= bit`; Spec: the set of builders invoked), the target list, the PCI address *)
Record cedt_dec := { cedt_d_restr : list sx -> option N; cedt_d_targets : list sx -> option (list (list N));
                     cedt_d_bdf : N -> N -> N -> option N }.
Definition cedt_impl_dec : cedt_dec :=
  {| cedt_d_restr := fun bs => option_map restr_apply (sx_list_all restr_builder bs);
     cedt_d_targets := sx_list_all (sx_arr 4);
     cedt_d_bdf := fun bus dev fn => option_map (fun _ => bdf bus dev fn) (pci_ok dev fn) |}.
Definition cedt_spec_dec : cedt_dec :=
  {| cedt_d_restr := fun bs => if cedt_builders_ok bs then Some (cedt_restrictions bs) else None;
     cedt_d_targets := fun ts => sp_all cedt_target ts [];
     cedt_d_bdf := sp_bdf |}.

Inductive cedt_op (D : cedt_dec) : sx -> cedt_rec -> Prop :=
| CeOpChbs uid ver base vl : cxl_version_len ver = Some vl ->
    cedt_op D (SL [SA 1; SA uid; SA ver; SA base]) (RChbs uid ver base vl)
| CeOpCfmws base size arith gran ways qtg builders targets nw restr tg :
    num_ways ways = Some nw -> cedt_d_restr D builders = Some restr -> cedt_d_targets D targets = Some tg ->
    cedt_op D (SL [SA 2; SA base; SA size; SA arith; SA gran; SA ways; SA qtg; SL builders; SL targets])
      (RCfmws base size ways arith gran restr qtg nw tg)
| CeOpCxims gran maps ms : sx_nums maps = Some ms -> cedt_op D (SL [SA 3; SA gran; SL maps]) (RCxims gran ms)
| CeOpRdpas seg bus dev fn proto base b : cedt_d_bdf D bus dev fn = Some b ->
    cedt_op D (SL [SA 4; SA seg; SA bus; SA dev; SA fn; SA proto; SA base]) (RRdpas seg b proto base).

Lemma cedt_op_mono D D' o d :
  (forall x r, cedt_d_restr D x = Some r -> cedt_d_restr D' x = Some r) ->
  (forall x l, cedt_d_targets D x = Some l -> cedt_d_targets D' x = Some l) ->
  (forall bus dev fn b, cedt_d_bdf D bus dev fn = Some b -> cedt_d_bdf D' bus dev fn = Some b) -> cedt_op D o d -> cedt_op D' o d.
Proof. intros Hr Ht Hb []; constructor; auto. Qed.

Lemma cedt_op_cfmws D base size arith gran ways qtg builders targets d :
  cedt_op D (SL [SA 2; SA base; SA size; SA arith; SA gran; SA ways; SA qtg; SL builders; SL targets]) d ->
  exists nw restr tg, num_ways ways = Some nw /\ cedt_d_restr D builders = Some restr /\ cedt_d_targets D targets = Some tg /\
    d = RCfmws base size ways arith gran restr qtg nw tg.
Proof. intros H. inversion H as [|? ? ? ? ? ? ? ? nw restr tg Enw Er Et| |]; subst. exists nw, restr, tg. auto. Qed.

Lemma cedt_op_ok D o d :
  (forall x l, cedt_d_targets D x = Some l -> Forall (fun t => length t = 4%nat) l) -> cedt_op D o d -> cedt_rec_ok d.
Proof. intros Ht []; cbn [cedt_rec_ok]; eauto. Qed.

Lemma num_ways_small w nw : num_ways w = Some nw -> nw <= 16 /\ w < 16.
Proof. unfold num_ways. intros H. split_matches H; apply Some_inj in H; subst nw; (split; [discriminate|reflexivity]). Qed.

(* the fixed head of a structure, as Spec/CedtS.v tabulates it; the length field holds what len() claims *)
Definition cedt_rec_head (d : cedt_rec) : layout :=
  match d with
  | RChbs uid ver base vl => [L 0 1 0; L 1 1 0; L 2 2 32; L 4 4 uid; L 8 4 ver; L 12 4 0; L 16 8 base; L 24 8 vl]
  | RCfmws base size ways arith gran restr qtg nw _ =>
      [L 0 1 1; L 1 1 0; L 2 2 (cfmws_len nw); L 4 4 0; L 8 8 base; L 16 8 size; L 24 1 ways; L 25 1 arith; L 26 2 0;
       L 28 4 gran; L 32 2 restr; L 34 2 qtg]
  | RCxims gran ms => [L 0 1 2; L 1 1 0; L 2 2 (cxims_len (N.of_nat (length ms))); L 4 2 0; L 6 1 gran; L 7 1 (N.of_nat (length ms))]
  | RRdpas seg b proto base => [L 0 1 3; L 1 1 0; L 2 2 17; L 4 2 seg; L 6 2 b; L 8 1 proto; L 9 8 base]
  end.

Definition cedt_rec_head_size (d : cedt_rec) : nat :=
  match d with RChbs _ _ _ _ => 32 | RCfmws _ _ _ _ _ _ _ _ _ => 36 | RCxims _ _ => 8 | RRdpas _ _ _ _ => 17 end.

Definition cedt_rec_tail (d : cedt_rec) : list N :=
  match d with RCfmws _ _ _ _ _ _ _ _ tg => concat tg | RCxims _ ms => concat (map (le 8) ms) | _ => [] end.

(* the one place where the serialisers of cedt.rs and the field tables of the specification meet: with the lengths as
   variables both sides compute to the same list *)
Lemma cedt_rec_lay d : lay_then (cedt_rec_head_size d) (cedt_rec_head d) (cedt_rec_tail d) = Some (cedt_rec_bytes d).
Proof.
  destruct d as [uid ver base vl|base size ways arith gran restr qtg nw tg|gran ms|seg b proto base];
    unfold cedt_rec_bytes, cedt_rec_head, cedt_rec_tail, cedt_rec_head_size.
  - reflexivity.
  - unfold cfmws_bytes. generalize (cfmws_len nw). intros len. reflexivity.
  - unfold cxims_bytes. generalize (N.of_nat (length ms)). intros n. generalize (cxims_len n). intros len. reflexivity.
  - reflexivity.
Qed.

Lemma cedt_rec_ty d :
  sp_ty (cedt_rec_bytes d) = match d with RChbs _ _ _ _ => 0 | RCfmws _ _ _ _ _ _ _ _ _ => 1 | RCxims _ _ => 2 | RRdpas _ _ _ _ => 3 end.
Proof. destruct d; reflexivity. Qed.

Lemma cedt_rec_field_below d o w v b : layout_get (cedt_rec_head d) o w = Some v -> b = 2 ^ (8 * N.of_nat w) -> v < b ->
  field_at (cedt_rec_bytes d) o w = v.
Proof. exact (lay_then_get_below o w v b (cedt_rec_lay d)). Qed.

Lemma cedt_rec_length d : cedt_rec_ok d -> length (cedt_rec_bytes d) = cedt_rec_size d.
Proof.
  intros H. rewrite (proj1 (lay_then_fields _ _ _ _ (cedt_rec_lay d))).
  destruct d as [| ? ? ? ? ? ? ? ? tg|? ms|]; cbn [cedt_rec_head_size cedt_rec_tail cedt_rec_size]; [reflexivity| | |reflexivity].
  - now rewrite (length_concat_const 4 tg (proj2 H)).
  - now rewrite (length_arr 8 ms : length (concat (map (le 8) ms)) = _).
Qed.

(* CxlFixedMemory::len() counts the ways, not the targets pushed: it is the size only where the assert holds *)
Lemma cedt_rec_claimed_size d : cedt_rec_asserts d -> cedt_rec_claimed d = N.of_nat (cedt_rec_size d).
Proof.
  destruct d; cbn [cedt_rec_asserts cedt_rec_claimed cedt_rec_size]; unfold cfmws_len, cxims_len; intros H; lia.
Qed.

(* at most 16 targets, at most 255 xormaps *)
Lemma cedt_rec_small d : cedt_rec_ok d -> cedt_rec_asserts d -> N.of_nat (cedt_rec_size d) <= 65535.
Proof.
  destruct d as [| ? ? ways ? ? ? ? nw tg| |]; cbn [cedt_rec_ok cedt_rec_asserts cedt_rec_size]; intros Hok Ha; [lia| |lia|lia].
  destruct (num_ways_small ways nw (proj1 Hok)) as [Hnw _]. lia.
Qed.

Lemma cedt_rec_len_field d : layout_get (cedt_rec_head d) 2 2 = Some (cedt_rec_claimed d).
Proof. destruct d; reflexivity. Qed.

Lemma cedt_rec_self d : cedt_rec_ok d -> cedt_rec_asserts d ->
  self_describing H_u8_x_u16 (cedt_rec_bytes d) (sp_ty (cedt_rec_bytes d)).
Proof.
  intros Hok Ha. pose proof (cedt_rec_small d Hok Ha) as Hs. pose proof (cedt_rec_len_field d) as Hg.
  rewrite (cedt_rec_claimed_size d Ha) in Hg.
  apply self_describing_sp_ty, (lay_then_self H_u8_x_u16 1 1 2 _ _ _ _ _ 65536 eq_refl (cedt_rec_lay d) Hg (cedt_rec_length d Hok));
    [destruct d; cbn [cedt_rec_size]; lia|reflexivity|lia].
Qed.

Lemma cedt_addition_cases s o e : cedt_addition s o = Some e ->
  exists d, cedt_op cedt_impl_dec o d /\ cedt_rec_ok d /\ cedt_rec_asserts d /\ e = cedt_rec_addition s d.
Proof.
  intros H. op_cases H o l of cedt_addition.
  - (* 3: CXIMS *)
    arg_num H l gran. arg_list H l maps. arg_end H l.
    apply bind_Some in H as (ms & Ems & H). apply bind_Some in H as (u & Ea & H). apply Some_inj in H. subst e.
    apply assert_true, N.leb_le in Ea.
    exists (RCxims gran ms). split; [exact (CeOpCxims _ gran maps ms Ems)|]. split; [exact I|]. split; [exact Ea|reflexivity].
  - (* 4: RDPAS *)
    arg_num H l seg. arg_num H l bus. arg_num H l dev. arg_num H l fn. arg_num H l proto. arg_num H l base. arg_end H l.
    apply bind_Some in H as (u & Ep & H). apply Some_inj in H. subst e.
    exists (RRdpas seg (bdf bus dev fn) proto base). split; [|split; [exact I|split; [exact I|reflexivity]]].
    apply CeOpRdpas. cbn [cedt_impl_dec cedt_d_bdf]. now rewrite Ep.
  - (* 2: CFMWS *)
    arg_num H l base. arg_num H l size. arg_num H l arith. arg_num H l gran. arg_num H l ways. arg_num H l qtg.
    arg_list H l builders. arg_list H l targets. arg_end H l.
    apply bind_Some in H as (nw & Enw & H). apply bind_Some in H as (bits & Eb & H). apply bind_Some in H as (tg & Et & H).
    apply bind_Some in H as (u & Ea & H). apply Some_inj in H. subst e. apply assert_true, N.eqb_eq in Ea.
    exists (RCfmws base size ways arith gran (restr_apply bits) qtg nw tg).
    split; [|split; [exact (conj Enw (sx_arrs_length 4 _ _ Et))|split; [exact Ea|reflexivity]]].
    apply CeOpCfmws; [exact Enw| |exact Et]. cbn [cedt_impl_dec cedt_d_restr]. now rewrite Eb.
  - (* 1: CHBS *)
    arg_num H l uid. arg_num H l ver. arg_num H l base. arg_end H l.
    apply bind_Some in H as (vl & Ev & H). apply Some_inj in H. subst e.
    exists (RChbs uid ver base vl). split; [exact (CeOpChbs _ uid ver base vl Ev)|]. split; [exact I|]. split; [exact I|reflexivity].
Qed.

Lemma cedt_addition_intro s o d : cedt_op cedt_impl_dec o d -> cedt_rec_asserts d ->
  cedt_addition s o = Some (cedt_rec_addition s d).
Proof.
  intros Hop Ha. destruct Hop as [uid ver base vl Ev|base size arith gran ways qtg builders targets nw restr tg Enw Er Et
                                  |gran maps ms Ems|seg bus dev fn proto base b Eb];
    cbn [cedt_impl_dec cedt_d_restr cedt_d_targets cedt_d_bdf cedt_rec_asserts] in *; cbn [cedt_addition].
  - rewrite Ev. reflexivity.
  - destruct (sx_list_all restr_builder builders) as [bits|]; [|discriminate Er]. apply Some_inj in Er. subst restr.
    rewrite Enw, Et. cbn [option_bind]. rewrite <- Ha, N.eqb_refl. reflexivity.
  - rewrite Ems. cbn [option_bind]. apply N.leb_le in Ha. rewrite Ha. reflexivity.
  - destruct (pci_ok dev fn) as [[]|]; [|discriminate Eb]. apply Some_inj in Eb. subst b. reflexivity.
Qed.

Lemma cedt_addition_refused s o : (forall d, cedt_op cedt_impl_dec o d -> ~ cedt_rec_asserts d) -> cedt_addition s o = None.
Proof.
  intros Hno. destruct (cedt_addition s o) as [e|] eqn:H; [|reflexivity].
  apply cedt_addition_cases in H as (d & Hop & _ & Ha & _). destruct (Hno d Hop Ha).
Qed.

(* on a decoded structure whose asserts hold the Spec's entry function is, by computation, the checked layout of head and tail *)
Lemma cedt_ref_case o d e : cedt_op cedt_spec_dec o d -> cedt_rec_asserts d ->
  lay_then (cedt_rec_head_size d) (cedt_rec_head d) (cedt_rec_tail d) = Some e ->
  exists d, cedt_op cedt_spec_dec o d /\ cedt_rec_ok d /\ cedt_rec_asserts d /\ e = cedt_rec_bytes d.
Proof.
  intros Hop Ha H. rewrite cedt_rec_lay in H. exists d. split; [exact Hop|].
  split; [|split; [exact Ha|symmetry; exact (Some_inj _ _ H)]].
  apply (cedt_op_ok _ o d) in Hop; [exact Hop|]. intros x l Hx.
  exact (sp_all_forall (sx_arr 4) _ (sx_arr_length 4) x l Hx).
Qed.

Lemma cedt_ways_num ways niw : cedt_ways ways = Some niw -> num_ways ways = Some (N.of_nat niw).
Proof. unfold cedt_ways, num_ways. intros H. break_sx H; apply Some_inj in H; subst niw; reflexivity. Qed.

Lemma cedt_entry_ref_cases o e : cedt_entry_ref o = Some e ->
  exists d, cedt_op cedt_spec_dec o d /\ cedt_rec_ok d /\ cedt_rec_asserts d /\ e = cedt_rec_bytes d.
Proof.
  intros H. op_cases H o l of cedt_entry_ref.
  - (* 3: CXIMS *)
    arg_num H l gran. arg_list H l maps. arg_end H l.
    destruct (sx_nums maps) as [ms|] eqn:Ems; [|discriminate H]. cbv zeta in H.
    destruct (N.leb_spec (N.of_nat (length ms)) 255) as [Hn|]; [|discriminate H].
    replace (N.of_nat (8 + 8 * length ms)) with (cxims_len (N.of_nat (length ms))) in H by (unfold cxims_len; lia).
    exact (cedt_ref_case _ (RCxims gran ms) e (CeOpCxims _ gran maps ms Ems) Hn H).
  - (* 4: RDPAS *)
    arg_num H l seg. arg_num H l bus. arg_num H l dev. arg_num H l fn. arg_num H l proto. arg_num H l base. arg_end H l.
    destruct (sp_bdf bus dev fn) as [b|] eqn:Eb; [|discriminate H].
    exact (cedt_ref_case _ (RRdpas seg b proto base) e (CeOpRdpas cedt_spec_dec seg bus dev fn proto base b Eb) I (lay_then_nil _ _ _ H)).
  - (* 2: CFMWS *)
    arg_num H l base. arg_num H l size. arg_num H l arith. arg_num H l gran. arg_num H l ways. arg_num H l qtg.
    arg_list H l builders. arg_list H l targets. arg_end H l.
    destruct (cedt_ways ways) as [niw|] eqn:Ew; [|discriminate H].
    destruct (sp_all cedt_target targets []) as [tg|] eqn:Et; [|discriminate H].
    destruct (Nat.eqb_spec (length tg) niw) as [Hniw|]; [|discriminate H]. cbn [andb] in H.
    destruct (cedt_builders_ok builders) eqn:Eb; [|discriminate H].
    replace (N.of_nat (36 + 4 * niw)) with (cfmws_len (N.of_nat niw)) in H by (unfold cfmws_len; lia).
    refine (cedt_ref_case _ (RCfmws base size ways arith gran (cedt_restrictions builders) qtg (N.of_nat niw) tg) e
              (CeOpCfmws cedt_spec_dec base size arith gran ways qtg builders targets _ _ tg (cedt_ways_num _ _ Ew) _ Et) _ H).
    + cbn [cedt_spec_dec cedt_d_restr]. now rewrite Eb.
    + cbn [cedt_rec_asserts]. now rewrite Hniw.
  - (* 1: CHBS *)
    arg_num H l uid. arg_num H l ver. arg_num H l base. arg_end H l.
    fold (cxl_version_len ver) in H. destruct (cxl_version_len ver) as [vl|] eqn:Ev; [|discriminate H].
    exact (cedt_ref_case _ (RChbs uid ver base vl) e (CeOpChbs _ uid ver base vl Ev) I (lay_then_nil _ _ _ H)).
Qed.
