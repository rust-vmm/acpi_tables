(* C18 for the AML encoder: counts and sizes that do not fit their field are refused in both build profiles. *)
From Coq Require Import NArith List Lia.
From ACPI Require Import Lib.Bytes Lib.Machine Impl.AmlCore Impl.AmlTerm Proofs.PkgLenP Proofs.PathP Proofs.FrameSitesP.
Import ListNotations.
Open Scope N_scope.

Lemma package_refuses md ks : (255 < length ks)%nat -> enc md (TPackage ks) = None.
Proof.
  intros H. cbn [enc]. destruct (N.leb_spec (N.of_nat (length ks)) 255); [lia|]. reflexivity.
Qed.

Lemma pkg_builder_refuses md ks : (255 < length ks)%nat -> enc md (TPkgBuilder ks) = None.
Proof.
  intros H. cbn [enc].
  rewrite encs_loop. destruct (opt_concat_map (enc md) ks); [|reflexivity].
  cbn [option_bind]. destruct (N.leb_spec (N.of_nat (length ks)) 255); [lia|]. reflexivity.
Qed.

Lemma method_refuses md p args sr ks : 7 < args -> enc md (TMethod p args sr ks) = None.
Proof.
  intros H. cbn [enc]. destruct (enc_path_text p); [|reflexivity]. cbn [option_bind].
  destruct (N.leb_spec args 7); [lia|]. reflexivity.
Qed.

Lemma arg_local_refuse md n : (6 < n -> enc md (TArg n) = None) /\ (7 < n -> enc md (TLocal n) = None).
Proof.
  split; intros H; cbn [enc].
  - destruct (N.leb_spec n 6); [lia|reflexivity].
  - destruct (N.leb_spec n 7); [lia|reflexivity].
Qed.

Lemma path_text_refuses s p : path_new s = Some p -> (255 < length (p_parts p))%nat -> enc_path_text s = None.
Proof. intros H Hl. unfold enc_path_text. rewrite H. cbn [option_bind]. apply path_enc_refuse. now right. Qed.

(* a body of 2^28 - 4 bytes or more cannot be framed (four bytes of PkgLength would be needed, and the total must stay
   below 2^28): every length-prefixed object refuses it *)
Lemma framed_refuses md op body :
  N.of_nat (length body) < 2 ^ 63 -> 2 ^ 28 <= N.of_nat (length body) + 4 -> 2 ^ 20 <= N.of_nat (length body) ->
  framed md op body = None.
Proof.
  intros Hn H Hbig. unfold framed. rewrite pkg_len_refuse; [reflexivity|exact Hn|].
  destruct (pkg_ll_cases (N.of_nat (length body))) as [[Hr _]|[[Hr _]|[[Hr _]|[_ E]]]]; lia.
Qed.

Lemma package_count_agrees md ks b : enc md (TPackage ks) = Some b ->
  exists pl body, b = [0x12] ++ pl ++ N.of_nat (length ks) :: body /\ N.of_nat (length ks) <= 255.
Proof.
  cbn [enc]. destruct (N.leb_spec (N.of_nat (length ks)) 255) as [Hle|]; [|discriminate]. cbn [assert option_bind].
  rewrite encs_loop. destruct (opt_concat_map (enc md) ks) as [eks|]; [|discriminate].
  cbn [option_bind]. unfold framed. destruct (pkg_len md _ true) as [pl|]; [|discriminate].
  cbn [option_bind]. intros H. inversion H; subst. exists pl, eks. split; [|exact Hle].
  unfold cast, U8. rewrite N.mod_small by lia. reflexivity.
Qed.
