(* HMAT: the Impl model refines the Spec layer (C04 as a theorem).  The reference lays the System Locality matrix out
   with cell (i, j) at row-major index i * (number of targets) + j holding the last value assigned to it, 0xFFFF if none
   (the property C12, whose Props theorems rest on Proofs/HmatP.v); here the model's builder fold is shown to produce it.
   For every constructor argument and every history inside the specification's domain, in both build modes, the
   model accepts the history and its image is byte for byte the reference image. *)
From Coq Require Import NArith List Lia Bool.
From ACPI Require Import Lib.Bytes Lib.Sx Lib.Machine Impl.Table Impl.Hmat
  Spec.Layout Spec.MadtS Spec.HmatS
  Proofs.BitsP Proofs.TableP Proofs.HmatP Proofs.RefCommonP Proofs.BaseP Proofs.HmatStructP.
Import ListNotations.

Open Scope N_scope.

Lemma msc_attributes_ref total level assoc policy line :
  total < 4 -> level < 4 -> assoc < 3 -> policy < 3 -> line < 2 ^ 16 ->
  msc_attributes total level assoc policy line = total + 16 * level + 256 * assoc + 4096 * policy + 65536 * line.
Proof.
  intros H1 H2 H3 H4 H5. unfold msc_attributes, cast, U16. rewrite (N.mod_small line) by exact H5.
  rewrite !shiftl_mul.
  rewrite (lor_disjoint' total level 4) by (change (2 ^ 4) with 16; lia).
  rewrite (lor_disjoint' _ assoc 8) by (change (2 ^ 4) with 16; change (2 ^ 8) with 256; lia).
  rewrite (lor_disjoint' _ policy 12) by (change (2 ^ 4) with 16; change (2 ^ 8) with 256; change (2 ^ 12) with 4096; lia).
  rewrite (lor_disjoint' _ line 16)
    by (change (2 ^ 4) with 16; change (2 ^ 8) with 256; change (2 ^ 12) with 4096; change (2 ^ 16) with 65536; lia).
  change (2 ^ 4) with 16; change (2 ^ 8) with 256; change (2 ^ 12) with 4096; change (2 ^ 16) with 65536. lia.
Qed.

Lemma nth_upd_N l idx v i : idx < hm_len l ->
  nth (N.to_nat i) (upd l (N.to_nat idx) v) 0 = if idx =? i then v else nth (N.to_nat i) l 0.
Proof.
  intros H. unfold hm_len in H. destruct (N.eqb_spec idx i) as [->|Hne].
  - apply nth_upd_same. lia.
  - apply nth_upd_other. intros E. apply N2Nat.inj in E. congruence.
Qed.

Definition sysloc_flag_bits (bs : list sx) : N :=
  N.lor (if ever (is_op 2) bs then 16 else 0) (if ever (is_op 1) bs then 32 else 0).

Ltac break_match_goal :=
  repeat match goal with |- context [match ?x with _ => _ end] => is_var x; destruct x end.

Lemma last_slot_cons k i b bs acc : last_slot k i (b :: bs) acc = last_slot k i bs (last_slot k i [b] acc).
Proof. cbn [last_slot]. break_match_goal; reflexivity. Qed.

Lemma last_cell_cons i j b bs acc : last_cell i j (b :: bs) acc = last_cell i j bs (last_cell i j [b] acc).
Proof. cbn [last_cell]. break_match_goal; reflexivity. Qed.

Lemma sysloc_flag_bits_cons b bs : sysloc_flag_bits (b :: bs) = N.lor (sysloc_flag_bits [b]) (sysloc_flag_bits bs).
Proof.
  unfold sysloc_flag_bits, ever. cbn [existsb]. rewrite !orb_false_r.
  destruct (is_op 2 b), (is_op 1 b), (existsb (is_op 2) bs), (existsb (is_op 1) bs); reflexivity.
Qed.

(* what a list of builder calls writes into a structure of [ni] x [nt] cells, in the Spec's terms (what it leaves alone:
   `sysloc_builders_shape`) *)
Definition sl_after (ni nt : N) (bs : list sx) (sl sl' : sysloc) : Prop :=
  sl_flags sl' = N.lor (sl_flags sl) (sysloc_flag_bits bs) /\
  (forall i, i < ni -> nth (N.to_nat i) (sl_inits sl') 0 = last_slot 3 i bs (nth (N.to_nat i) (sl_inits sl) 0)) /\
  (forall j, j < nt -> nth (N.to_nat j) (sl_targets sl') 0 = last_slot 4 j bs (nth (N.to_nat j) (sl_targets sl) 0)) /\
  (forall i j, i < ni -> j < nt -> cell sl' i j = last_cell i j bs (cell sl i j)).

Lemma sl_same_shape_counts a b : sl_same_shape a b -> nI a = nI b /\ nT a = nT b /\ (shape_ok b -> shape_ok a).
Proof. intros (A & B & C & _). unfold shape_ok, nI, nT, hm_len. rewrite A, B, C. auto. Qed.

(* one builder call *)
Lemma sysloc_builder_step ni nt b sl :
  sl_builder_ok ni nt b = true -> nI sl = ni -> nT sl = nt -> shape_ok sl ->
  exists sl', sysloc_builder sl b = Some sl' /\ sl_after ni nt [b] sl sl'.
Proof.
  intros Hb HI HT Hs. unfold sl_after. unfold sl_builder_ok in Hb. break_sx Hb.
  - (* set_entry_value *)
    match goal with |- context [SL [SA 5; SA ?a; SA ?b; SA ?c]] => rename a into i0; rename b into j0; rename c into v0 end.
    apply andb_true_iff in Hb. destruct Hb as [Hb _]. apply andb_true_iff in Hb. destruct Hb as [Hi Hj].
    apply N.ltb_lt in Hi, Hj.
    destruct (set_entry_spec sl i0 j0 v0 Hs) as (s1 & E1 & _ & _ & _ & Hf1 & Hin1 & Htg1 & Hc1); try congruence.
    exists s1. cbn [sysloc_builder]. split; [exact E1|].
    split; [rewrite Hf1; unfold sysloc_flag_bits; cbn; rewrite N.lor_0_r; reflexivity|].
    split; [intros i _; rewrite Hin1; reflexivity|]. split; [intros j _; rewrite Htg1; reflexivity|].
    intros i j Hi2 Hj2. cbn [last_cell]. rewrite Hc1 by congruence.
    rewrite (N.eqb_sym i0 i), (N.eqb_sym j0 j). reflexivity.
  - (* set_initiator_value *)
    apply andb_true_iff in Hb. destruct Hb as [Hi _]. apply N.ltb_lt in Hi. rewrite <- HI in Hi. unfold nI in Hi.
    cbn [sysloc_builder]. unfold hm_vec_set. apply N.ltb_lt in Hi as Hi'. rewrite Hi'. cbn [option_map].
    eexists. split; [reflexivity|]. unfold cell, nT. cbn [sl_with_inits sl_inits sl_targets sl_entries sl_flags].
    split; [unfold sysloc_flag_bits; cbn; rewrite N.lor_0_r; reflexivity|].
    split; [|split; [intros; reflexivity|intros; reflexivity]].
    intros i _. cbn [last_slot]. rewrite nth_upd_N by exact Hi. change (3 =? 3) with true. cbn [andb]. reflexivity.
  - (* set_target_value *)
    apply andb_true_iff in Hb. destruct Hb as [Hi _]. apply N.ltb_lt in Hi. rewrite <- HT in Hi. unfold nT in Hi.
    cbn [sysloc_builder]. unfold hm_vec_set. apply N.ltb_lt in Hi as Hi'. rewrite Hi'. cbn [option_map].
    eexists. split; [reflexivity|]. unfold cell, nT, hm_len. cbn [sl_with_targets sl_inits sl_targets sl_entries sl_flags].
    rewrite length_upd.
    split; [unfold sysloc_flag_bits; cbn; rewrite N.lor_0_r; reflexivity|].
    split; [intros; reflexivity|split; [|intros; reflexivity]].
    intros j _. cbn [last_slot]. rewrite nth_upd_N by exact Hi. change (4 =? 4) with true. cbn [andb]. reflexivity.
  - (* minimum_transfer_size_required *)
    cbn [sysloc_builder]. eexists. split; [reflexivity|]. repeat split.
  - (* non_sequential_transfers *)
    cbn [sysloc_builder]. eexists. split; [reflexivity|]. repeat split.
Qed.

(* the builder fold of the model from any intermediate state, against the Spec's summaries of the remaining builders *)
Lemma sysloc_builders_sim ni nt bs : forall sl,
  forallb (sl_builder_ok ni nt) bs = true ->
  nI sl = ni -> nT sl = nt -> shape_ok sl ->
  exists sl', sysloc_builders sl bs = Some sl' /\ sl_after ni nt bs sl sl'.
Proof.
  induction bs as [|b bs IH]; intros sl Hok HI HT Hs; unfold sl_after.
  - exists sl. cbn [sysloc_builders last_slot last_cell]. unfold sysloc_flag_bits. cbn [ever existsb].
    change (N.lor 0 0) with 0. rewrite N.lor_0_r. repeat split.
  - cbn [forallb] in Hok. apply andb_true_iff in Hok. destruct Hok as [Hb Hok].
    destruct (sysloc_builder_step ni nt b sl Hb HI HT Hs) as (s1 & E1 & F1 & A1 & B1 & C1).
    destruct (sl_same_shape_counts _ _ (sysloc_builder_shape _ _ _ E1)) as (HI1 & HT1 & Hs1).
    destruct (IH s1 Hok (eq_trans HI1 HI) (eq_trans HT1 HT) (Hs1 Hs)) as (s2 & E2 & F2 & A2 & B2 & C2).
    exists s2. cbn [sysloc_builders]. rewrite E1. split; [exact E2|].
    split; [rewrite F2, F1, (sysloc_flag_bits_cons b bs), N.lor_assoc; reflexivity|].
    split; [|split].
    + intros i Hi. rewrite last_slot_cons, A2, A1 by exact Hi. reflexivity.
    + intros j Hj. rewrite last_slot_cons, B2, B1 by exact Hj. reflexivity.
    + intros i j Hi Hj. rewrite last_cell_cons, C2, C1 by assumption. reflexivity.
Qed.

Lemma sysloc_flags_ref lt (b2 b1 : bool) : lt < 4 ->
  N.lor (cast U8 lt) (N.lor (if b2 then 16 else 0) (if b1 then 32 else 0)) =
  lt + (if b2 then 16 else 0) + (if b1 then 32 else 0).
Proof.
  intros H. assert (C : lt = 0 \/ lt = 1 \/ lt = 2 \/ lt = 3) by lia.
  destruct C as [->|[->|[->| ->]]]; destruct b2, b1; reflexivity.
Qed.

(* the builder fold of the model arrives at the structure the Spec lays out *)
Lemma sysloc_ref_built md lt dt mts unit ni nt bs :
  lt < 4 -> hmat_struct_asserts (HSysloc (sysloc_ref lt dt mts unit ni nt bs)) -> forallb (sl_builder_ok ni nt) bs = true ->
  exists sl0, sysloc_new md lt dt mts unit ni nt = Some sl0 /\ sysloc_builders sl0 bs = Some (sysloc_ref lt dt mts unit ni nt bs).
Proof.
  intros Hlt Hlen Hok. cbn [hmat_struct_asserts] in Hlen. rewrite sysloc_ref_size in Hlen.
  assert (Hfit : ni * nt < U64).
  { unfold U64. assert (2 ^ 32 < 2 ^ 64) by (apply N.pow_lt_mono_r; lia). lia. }
  pose proof (sysloc_new_exact md lt dt mts unit ni nt Hfit) as E0.
  destruct (sysloc_new_spec _ _ _ _ _ _ _ _ E0 Hfit) as (Hs0 & HI0 & HT0 & Hc0).
  destruct (sysloc_builders_sim ni nt bs _ Hok HI0 HT0 Hs0) as (sl & Eb & Hf & Hin & Htg & Hce).
  destruct (sysloc_builders_shape _ _ _ Eb) as (_ & _ & _ & Hd & Hm & Hu).
  destruct (sl_same_shape_counts _ _ (sysloc_builders_shape _ _ _ Eb)) as (HI & HT & Hs).
  rewrite HI0 in HI. rewrite HT0 in HT. specialize (Hs Hs0).
  eexists. split; [exact E0|]. rewrite Eb. f_equal.
  (* field by field; the three vectors are the lists the specification writes *)
  destruct sl as [f d m u ins tgs ens]. unfold shape_ok, nI, nT in HI, HT, Hs.
  cbn [sl_flags sl_dt sl_mts sl_unit sl_inits sl_targets sl_entries] in HI, HT, Hs, Hd, Hm, Hu, Hf, Hin, Htg.
  unfold sysloc_ref. f_equal; try assumption.
  - rewrite Hf. exact (sysloc_flags_ref lt _ _ Hlt).
  - apply list_is_map; [unfold hm_len in HI; lia|].
    intros i Hi. rewrite (Hin i Hi), nth_repeatN by lia. reflexivity.
  - apply list_is_map; [unfold hm_len in HT; lia|].
    intros j Hj. rewrite (Htg j Hj), nth_repeatN by lia. reflexivity.
  - apply list_is_matrix; [change (hm_len ens = ni * nt); rewrite Hs, HI, HT; reflexivity|].
    intros i j Hi Hj. pose proof (Hce i j Hi Hj) as Hc. unfold cell at 1, nT in Hc. cbn [sl_targets sl_entries] in Hc.
    rewrite HT in Hc. rewrite Hc, Hc0 by assumption. reflexivity.
Qed.

(* an operation of the Spec's domain decodes, in the model, to the structure the Spec describes *)
Lemma hmat_ref_op_impl md o d : hmat_ref_op o d -> hmat_struct_asserts d -> hmat_op md o d.
Proof.
  intros Hop Hfit.
  destruct Hop as [ipd mpd|lt dt mts unit ni nt bs Hlt Hbs|pd size total level assoc policy line hs handles Eh Htot Hlev Has Hpol Hline].
  - constructor.
  - destruct (sysloc_ref_built md lt dt mts unit ni nt bs Hlt Hfit Hbs) as (sl0 & En & Eb).
    exact (HOpSysloc md lt dt mts unit ni nt bs sl0 _ En Eb).
  - rewrite <- (msc_attributes_ref total level assoc policy line) by assumption. now constructor.
Qed.

Theorem hmat_entries_are_reference md s o e :
  hmat_entry_ref o = Some e ->
  exists a, hmat_addition md s o = Some a /\ a_bytes a = e.
Proof.
  intros H. apply hmat_entry_ref_cases in H as (d & Hop & _ & Hfit & ->).
  exists (hmat_struct_addition d). split; [|reflexivity].
  exact (hmat_addition_intro md s o d (hmat_ref_op_impl md o d Hop Hfit) Hfit).
Qed.

Lemma hmat_refines_calls md ctor ops r :
  ts_image hmat_spec ctor ops = Some r -> N.of_nat (length r) < 2 ^ 32 ->
  exists s0 s, hmat_new ctor = Some s0 /\ run_adds (hmat_addition md) md s0 ops = Some s /\ tbl_image s = r /\ all_calls ops.
Proof.
  exact (plain3_accepts KHmat [72; 77; 65; 84] (hmat_addition md) hmat_entry_ref ltac:(discriminate) (hmat_addition_sound md)
           eq_refl (fun _ => eq_refl) (hmat_entries_are_reference md) md ctor ops r).
Qed.

Theorem hmat_refines md ctor ops r :
  ts_image hmat_spec ctor ops = Some r ->
  N.of_nat (length r) < 2 ^ 32 ->
  exists s0 s, hmat_new ctor = Some s0 /\ run_adds (hmat_addition md) md s0 ops = Some s /\ tbl_image s = r.
Proof. intros H Hfit. exact (accepted_refines (hmat_refines_calls md ctor ops r H Hfit)). Qed.

Corollary hmat_case_refines md ctor ops r :
  ts_image hmat_spec ctor ops = Some r ->
  N.of_nat (length r) < 2 ^ 32 ->
  exists evs, Forall is_num evs /\ hmat_case md (SL (ctor :: ops ++ [SA 1])) = evs ++ [EvBytes r].
Proof. intros H Hfit. exact (case_is_num (hmat_refines_calls md ctor ops r H Hfit)). Qed.

Print Assumptions hmat_entries_are_reference.
Print Assumptions hmat_refines.
Print Assumptions hmat_case_refines.
