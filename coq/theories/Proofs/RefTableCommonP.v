(* The header and the image of a table against the reference of Spec/Layout.v: TableHeader.as_bytes is the reference
   header, and an image with the right Length field and a zero byte sum IS the reference table, because the checksum
   byte is determined by the other bytes.  Shared by every refinement theorem (Impl model = reference image). *)
From Coq Require Import NArith List Lia Bool Arith.
From ACPI Require Import Lib.Bytes Lib.Sx Impl.Table Impl.Fields Impl.Madt Spec.Layout
  Proofs.TableP.
Import ListNotations.

Open Scope N_scope.

(* the two sides keep the constructor's (oem, table id, oem revision) in different records *)
Definition ha_of (h : hdr) : hdr_args := {| ha_oem := h_oem h; ha_tbl := h_tbl h; ha_orev := h_orev h |}.
Definition mk_hdr (sig : list N) (rev : N) (ha : hdr_args) : hdr :=
  {| h_sig := sig; h_rev := rev; h_oem := ha_oem ha; h_tbl := ha_tbl ha; h_orev := ha_orev ha |}.

Lemma hdr_bytes_ref h len cks :
  hdr_bytes h len cks = ref_header (h_sig h) len (h_rev h) cks (h_oem h) (h_tbl h) (h_orev h).
Proof. reflexivity. Qed.

Lemma sumN_ref_header sig len rev cks oem tb orev :
  sumN (ref_header sig len rev cks oem tb orev) = sumN (ref_header sig len rev 0 oem tb orev) + cks mod 256.
Proof.
  unfold ref_header. rewrite !sumN_app. cbn [sumN]. change (0 mod 256) with 0.
  (* the partial sums are atoms: without this lia spends its time on their mod and division *)
  generalize (sumN sig) (sumN (le 4 len)) (sumN oem) (sumN tb) (sumN (le 4 orev)) (sumN CREATOR) (rev mod 256) (cks mod 256).
  intros. lia.
Qed.

Lemma ref_table_unique sig rev ha len cks rest :
  len = 36 + N.of_nat (length rest) ->
  sum8 (ref_header sig len rev cks (ha_oem ha) (ha_tbl ha) (ha_orev ha) ++ rest) = 0 ->
  ref_header sig len rev cks (ha_oem ha) (ha_tbl ha) (ha_orev ha) ++ rest = ref_table sig rev ha rest.
Proof.
  intros -> Hs. unfold ref_table. f_equal.
  unfold sum8 in Hs. rewrite sumN_app, sumN_ref_header in Hs.
  set (A := sumN (ref_header sig _ rev 0 (ha_oem ha) (ha_tbl ha) (ha_orev ha))) in *.
  assert (E : cks mod 256 = ((256 - (A + sumN rest) mod 256) mod 256) mod 256).
  { clearbody A. rewrite N.mod_mod by discriminate. pose proof (N.mod_lt cks 256 ltac:(discriminate)) as Hc.
    generalize dependent (cks mod 256). intros c Hs Hc. lia. }
  unfold ref_header. rewrite E. reflexivity.
Qed.

Lemma hdr_image_ref h len cks rest :
  len = 36 + N.of_nat (length rest) -> sum8 (hdr_bytes h len cks ++ rest) = 0 ->
  hdr_bytes h len cks ++ rest = ref_table (h_sig h) (h_rev h) (ha_of h) rest.
Proof. exact (ref_table_unique (h_sig h) (h_rev h) (ha_of h) len cks rest). Qed.

Lemma length_ref_table h rest : hdr_ok h = true ->
  length (ref_table (h_sig h) (h_rev h) (ha_of h) rest) = (36 + length rest)%nat.
Proof.
  intros H. unfold ref_table. cbv zeta. rewrite app_length. f_equal.
  exact (length_hdr_bytes h _ _ H).
Qed.

Lemma length_ref_table_args sig rev ha rest : hdr_ok (mk_hdr sig rev ha) = true ->
  length (ref_table sig rev ha rest) = (36 + length rest)%nat.
Proof. destruct ha. exact (length_ref_table (mk_hdr sig rev _) rest). Qed.

(* every state of an Impl/Table.v instance that satisfies the invariant serialises to the reference table of its
   fixed part and entries *)
Lemma inv_image_ref s : Inv s ->
  tbl_image s = ref_table (h_sig (t_hdr s)) (h_rev (t_hdr s)) (ha_of (t_hdr s))
                          (mid (t_kind s) (t_pre s) (t_cnt s) ++ t_body s).
Proof.
  intros I. apply hdr_image_ref; [|exact (inv_sum8_zero s I)].
  rewrite (inv_len s I). unfold tbl_image. rewrite app_length, (length_hdr_bytes _ _ _ (inv_hdr s I)). lia.
Qed.

(* what the Spec's decoder of the constructor's header arguments accepts *)
Lemma sx_hdr_args_inv o t r ha : sx_hdr_args o t r = Some ha ->
  sx_bytes o = Some (ha_oem ha) /\ sx_bytes t = Some (ha_tbl ha) /\ sx_num r = Some (ha_orev ha) /\
  length (ha_oem ha) = 6%nat /\ length (ha_tbl ha) = 8%nat.
Proof.
  unfold sx_hdr_args.
  destruct (sx_bytes o) as [a|]; [|discriminate]. destruct (sx_bytes t) as [b|]; [|discriminate].
  destruct (sx_num r) as [c|]; [|discriminate].
  destruct (Nat.eqb (length a) 6) eqn:Ea; [|discriminate]. destruct (Nat.eqb (length b) 8) eqn:Eb; [|discriminate].
  cbn [andb]. intros [= <-]. cbn [ha_oem ha_tbl ha_orev].
  apply Nat.eqb_eq in Ea. apply Nat.eqb_eq in Eb. repeat split; assumption.
Qed.

Lemma sx_hdr_args_len o t r ha : sx_hdr_args o t r = Some ha ->
  length (ha_oem ha) = 6%nat /\ length (ha_tbl ha) = 8%nat.
Proof. intros H. exact (proj2 (proj2 (proj2 (sx_hdr_args_inv o t r ha H)))). Qed.

(* the two decoders of the constructor's header arguments agree *)
Lemma sx_hdr_of_args {sig rev o t r ha} : sx_hdr_args o t r = Some ha -> sx_hdr sig rev o t r = Some (mk_hdr sig rev ha).
Proof.
  intros H. destruct (sx_hdr_args_inv o t r ha H) as (Eo & Et & Er & Lo & Lt).
  unfold sx_hdr, sx_arr. rewrite Eo, Et, Er, Lo, Lt. reflexivity.
Qed.

Lemma sx_hdr_args_ok sig rev {o t r ha} : length sig = 4%nat -> sx_hdr_args o t r = Some ha -> hdr_ok (mk_hdr sig rev ha) = true.
Proof. intros Hs H. exact (sx_hdr_ok sig rev o t r _ (sx_hdr_of_args H) Hs). Qed.

Lemma rev_inj {A} (a b : list A) : rev a = rev b -> a = b.
Proof. intros H. rewrite <- (rev_involutive a), <- (rev_involutive b). now f_equal. Qed.
