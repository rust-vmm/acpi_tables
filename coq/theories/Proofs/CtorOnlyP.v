(* The structures with a constructor and no mutating operation (`run_steps_ctor`, Proofs/FixedP.v): BERT, SPCR, TpmClient1_2
   (tpm2.rs) and RSDP.  Checksum(s) and length of the emitted image, for every constructor argument (C01, C02).  What the
   first three constructors build is a case of `hdr_image_good` (Proofs/TableP.v); the RSDP's two checksum bytes are each a
   case of `sum8_patched` (Proofs/ChecksumP.v). *)
From Coq Require Import ZArith List Lia.
From ACPI Require Import Lib.Bytes Impl.Checksum Impl.Fields Impl.Madt Impl.Bert Impl.Spcr Impl.Tpm2 Impl.Rsdp Spec.Layout
  Proofs.ChecksumP Proofs.FixedP Proofs.BaseP Proofs.TableP.
Import ListNotations.
Open Scope N_scope.

(* C01 and C02 of an image that starts with the standard header *)
Definition image_good (bs : list N) : Prop := sum8 bs = 0 /\ field_at bs 4 4 = N.of_nat (length bs).

Lemma bert_new_good c b : bert_new c = Some b -> image_good (bert_bytes b).
Proof.
  destruct c as [|[|o [|t [|r [|[rlen|] [|[rbase|] [|]]]]]]]; try discriminate. cbn [bert_new].
  destruct (sx_hdr _ _ o t r) as [h|] eqn:Eh; [|discriminate]. intros H. apply Some_inj in H. subst b.
  unfold bert_bytes. cbn [be_hdr be_len be_cks be_rlen be_rbase].
  apply hdr_image_good; [exact (sx_hdr_ok _ _ _ _ _ _ Eh eq_refl)|apply zsum_app|reflexivity|reflexivity].
Qed.

(* every constructor argument, every sequence of operations the model accepts (there is no mutating operation) *)
Theorem bert_sum_len md c ops s0 s :
  bert_new c = Some s0 -> run_steps (bert_step md) s0 ops = Some s ->
  sum8 (bert_bytes s) = 0 /\ field_at (bert_bytes s) 4 4 = N.of_nat (length (bert_bytes s)).
Proof. apply (run_steps_ctor _ _ (fun s => image_good (bert_bytes s)) bert_new_good). discriminate. Qed.

Lemma spcr_new_good c s : spcr_new c = Some s -> image_good (spcr_bytes s).
Proof.
  destruct c as [|[|o [|t [|r [|]]]]]; try discriminate. cbn [spcr_new].
  destruct (sx_hdr _ _ o t r) as [h|] eqn:Eh; [|discriminate]. intros H. apply Some_inj in H. subst s.
  unfold spcr_bytes. cbn [sp_hdr sp_len sp_cks sp_info sp_ns]. rewrite <- !ck_append_app.
  apply hdr_image_good; [exact (sx_hdr_ok _ _ _ _ _ _ Eh eq_refl)|now rewrite !zsum_app|reflexivity|reflexivity].
Qed.

Theorem spcr_sum_len md c ops s0 s :
  spcr_new c = Some s0 -> run_steps (spcr_step md) s0 ops = Some s ->
  sum8 (spcr_bytes s) = 0 /\ field_at (spcr_bytes s) 4 4 = N.of_nat (length (spcr_bytes s)).
Proof. apply (run_steps_ctor _ _ (fun s => image_good (spcr_bytes s)) spcr_new_good). discriminate. Qed.

Lemma tpmclient_new_good c s : tpmclient_new c = Some s -> image_good (tpmclient_bytes s).
Proof.
  destruct c as [|[|o [|t [|r [|[laml|] [|[lasa|] [|]]]]]]]; try discriminate. cbn [tpmclient_new].
  destruct (sx_hdr _ _ o t r) as [h|] eqn:Eh; [|discriminate]. intros H. apply Some_inj in H. subst s.
  unfold tpmclient_bytes. cbn [tc_hdr tc_len tc_cks tc_laml tc_lasa]. rewrite <- !ck_append_app.
  (* the platform class word is not fed to the checksum: it is zero *)
  apply hdr_image_good; [exact (sx_hdr_ok _ _ _ _ _ _ Eh eq_refl)|now rewrite !zsum_app|reflexivity|reflexivity].
Qed.

Theorem tpmclient_sum_len md c ops s0 s :
  tpmclient_new c = Some s0 -> run_steps (tpmclient_step md) s0 ops = Some s ->
  sum8 (tpmclient_bytes s) = 0 /\ field_at (tpmclient_bytes s) 4 4 = N.of_nat (length (tpmclient_bytes s)).
Proof. apply (run_steps_ctor _ _ (fun s => image_good (tpmclient_bytes s)) tpmclient_new_good). discriminate. Qed.

(* the first 20 bytes of the RSDP are its ACPI 1.0 part, with a checksum of their own *)
Definition rsdp_v1 (cks : N) (oem : list N) : list N := RSDP_SIG ++ b1 cks ++ oem ++ b1 2 ++ d4 0.

Lemma rsdp_bytes_split r :
  rsdp_bytes r = (rsdp_v1 (rs_cks r) (rs_oem r) ++ d4 36 ++ q8 (rs_xsdt r)) ++ b1 (rs_ext r) ++ [0; 0; 0].
Proof. unfold rsdp_bytes, rsdp_v1. rewrite <- !app_assoc. reflexivity. Qed.

Lemma rsdp_v1_length cks oem : length oem = 6%nat -> length (rsdp_v1 cks oem) = 20%nat.
Proof. intros H. unfold rsdp_v1, RSDP_SIG, b1, d4. rewrite !app_length, !length_le, H. reflexivity. Qed.

Lemma firstn20_rsdp r : length (rs_oem r) = 6%nat -> firstn 20 (rsdp_bytes r) = rsdp_v1 (rs_cks r) (rs_oem r).
Proof.
  intros H. rewrite rsdp_bytes_split, <- app_assoc. rewrite <- (rsdp_v1_length (rs_cks r) (rs_oem r) H) at 1.
  apply firstn_app_exact.
Qed.

Lemma rsdp_len_field r : length (rs_oem r) = 6%nat -> field_at (rsdp_bytes r) 20 4 = 36 /\ length (rsdp_bytes r) = 36%nat.
Proof.
  intros H. rewrite rsdp_bytes_split, <- !app_assoc. split.
  - unfold field_at. rewrite <- (rsdp_v1_length (rs_cks r) (rs_oem r) H) at 1. rewrite skipn_app_exact.
    unfold d4. rewrite firstn_le_app. reflexivity.
  - unfold b1, d4, q8. rewrite !app_length, !length_le, rsdp_v1_length by exact H. reflexivity.
Qed.

Definition rsdp_good (r : rsdp) : Prop :=
  sum8 (rsdp_bytes r) = 0 /\ sum8 (firstn 20 (rsdp_bytes r)) = 0 /\
  field_at (rsdp_bytes r) 20 4 = 36 /\ length (rsdp_bytes r) = 36%nat.

(* each checksum byte was 0 when generate_checksum summed the bytes it covers *)
Lemma rsdp_make_good oem x : length oem = 6%nat -> rsdp_good (rsdp_make oem x).
Proof.
  intros Hl. unfold rsdp_good. split; [|split; [|exact (rsdp_len_field (rsdp_make oem x) Hl)]]; unfold rsdp_make.
  - rewrite !rsdp_bytes_split. cbn [rs_cks rs_oem rs_xsdt rs_ext]. apply sum8_patched.
  - rewrite !firstn20_rsdp by exact Hl. cbn [rs_cks rs_oem]. unfold rsdp_v1. apply sum8_patched.
Qed.

Lemma rsdp_new_good c r : rsdp_new c = Some r -> rsdp_good r.
Proof.
  destruct c as [|[|o [|[x|] [|]]]]; try discriminate. cbn [rsdp_new].
  destruct (sx_arr 6 o) as [oem|] eqn:Eo; [|discriminate]. intros [= <-].
  apply rsdp_make_good. exact (sx_arr_length _ _ _ Eo).
Qed.

Theorem rsdp_sums_len md c ops s0 s :
  rsdp_new c = Some s0 -> run_steps (rsdp_step md) s0 ops = Some s ->
  sum8 (rsdp_bytes s) = 0 /\ sum8 (firstn 20 (rsdp_bytes s)) = 0 /\
  field_at (rsdp_bytes s) 20 4 = 36 /\ length (rsdp_bytes s) = 36%nat.
Proof. apply (run_steps_ctor _ _ rsdp_good rsdp_new_good). discriminate. Qed.
