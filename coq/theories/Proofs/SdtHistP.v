(* C13 at the level of whole histories: after ANY sequence of operations the generic table of the implementation model is
   the Spec's plain byte vector subjected to the same appends and writes (Length rewritten on every append, checksum
   recomputed after every operation, refused writes leaving the table unchanged), in both build profiles.
   The single step is stated once, [sdt_step_sim]: model and Spec arrive at the same outcome, which is of one of four kinds
   ([step_kind]); it is put together from the per-primitive lemmas of Proofs/SdtP.v, and [history_invariant] iterates it. *)
From Coq Require Import NArith List Lia Bool Arith.
From ACPI Require Import Lib.Bytes Lib.Sx Lib.Machine Impl.Fields Impl.Run Impl.Sdt Spec.Layout Spec.SdtS Proofs.BaseP Proofs.SdtP.
Import ListNotations.
Open Scope N_scope.

(* an operation of the exchange vocabulary (Impl/Sdt.v) with parameters in the range of its Rust types:
   widths 1/2/4/8, usize offsets, slices below 2^62 bytes, bytes pushed through the sink are bytes.
   One constructor per conjunct of Props/C13.c13_refinement, with that conjunct's hypotheses. *)
Inductive sdt_op_ok : sx -> Prop :=
| ok_append w k x : spec_width w = Some k -> sdt_op_ok (SL [SA 1; SA w; SA x])
| ok_append_slice b bytes : sx_bytes b = Some bytes -> N.of_nat (length bytes) < 2 ^ 62 -> sdt_op_ok (SL [SA 2; b])
| ok_write_bytes off b bytes : off < 2 ^ 64 -> sx_bytes b = Some bytes -> N.of_nat (length bytes) < 2 ^ 62 ->
    sdt_op_ok (SL [SA 3; SA off; b])
| ok_write_int w k off x : off < 2 ^ 64 -> spec_width w = Some k -> sdt_op_ok (SL [SA 4; SA w; SA off; SA x])
| ok_sink_int w k x : spec_width w = Some k -> sdt_op_ok (SL [SA 5; SA w; SA x])
| ok_sink_vec b bytes : sx_bytes b = Some bytes -> bytes_ok bytes = true -> N.of_nat (length bytes) < 2 ^ 62 ->
    sdt_op_ok (SL [SA 6; b])
| ok_update_checksum : sdt_op_ok (SL [SA 7]).

Definition width_okb (w : N) : bool := match spec_width w with Some _ => true | None => false end.
Definition slice_okb (b : sx) : bool :=
  match sx_bytes b with Some bytes => N.of_nat (length bytes) <? 2 ^ 62 | None => false end.
Definition sdt_op_okb (o : sx) : bool :=
  match o with
  | SL [SA 1; SA w; SA _] | SL [SA 5; SA w; SA _] => width_okb w
  | SL [SA 2; b] => slice_okb b
  | SL [SA 3; SA off; b] => (off <? 2 ^ 64) && slice_okb b
  | SL [SA 4; SA w; SA off; SA _] => (off <? 2 ^ 64) && width_okb w
  | SL [SA 6; b] => slice_okb b && match sx_bytes b with Some bytes => bytes_ok bytes | None => false end
  | SL [SA 7] => true
  | _ => false
  end.

Lemma width_okb_spec w : width_okb w = true -> exists k, spec_width w = Some k.
Proof. unfold width_okb. destruct (spec_width w) as [k|]; [intros _; now exists k|discriminate]. Qed.

Lemma slice_okb_spec b : slice_okb b = true -> exists bytes, sx_bytes b = Some bytes /\ N.of_nat (length bytes) < 2 ^ 62.
Proof.
  unfold slice_okb. destruct (sx_bytes b) as [bytes|]; [|discriminate]. intros H. apply N.ltb_lt in H. now exists bytes.
Qed.

Lemma sdt_op_okb_sound o : sdt_op_okb o = true -> sdt_op_ok o.
Proof.
  intros H. unfold sdt_op_okb in H. break_sx H.
  (* the seven accepted shapes are left, by opcode 7 5 3 6 4 2 1 (the order in which the numeral is taken apart) *)
  - (* 7 update_checksum *) constructor.
  - (* 5 sink integer *) destruct (width_okb_spec _ H) as [k Hk]. now apply (ok_sink_int _ k).
  - (* 3 write_bytes *) apply andb_true_iff in H. destruct H as [Ho H]. apply N.ltb_lt in Ho.
    destruct (slice_okb_spec _ H) as (bytes & Hb & Hl). now apply (ok_write_bytes _ _ bytes).
  - (* 6 sink vec *) apply andb_true_iff in H. destruct H as [H Hok].
    destruct (slice_okb_spec _ H) as (bytes & Hb & Hl). rewrite Hb in Hok. now apply (ok_sink_vec _ bytes).
  - (* 4 write integer *) apply andb_true_iff in H. destruct H as [Ho H]. apply N.ltb_lt in Ho.
    destruct (width_okb_spec _ H) as [k Hk]. now apply (ok_write_int _ k).
  - (* 2 append_slice *) destruct (slice_okb_spec _ H) as (bytes & Hb & Hl). now apply (ok_append_slice _ bytes).
  - (* 1 append *) destruct (width_okb_spec _ H) as [k Hk]. now apply (ok_append _ k).
Qed.

Lemma sdt_ops_okb_sound ops : forallb sdt_op_okb ops = true -> Forall sdt_op_ok ops.
Proof.
  induction ops as [|o r IH]; intros H; [constructor|]. cbn [forallb] in H. apply andb_true_iff in H.
  destruct H as [Ho Hr]. constructor; [now apply sdt_op_okb_sound|now apply IH].
Qed.

Definition op_growth (o : sx) : N :=
  match o with
  | SL [SA 1; SA w; SA _] | SL [SA 5; SA w; SA _] => match spec_width w with Some k => N.of_nat k | None => 0 end
  | SL [SA 2; b] | SL [SA 6; b] => match sx_bytes b with Some bytes => N.of_nat (length bytes) | None => 0 end
  | _ => 0
  end.

Fixpoint ops_growth (ops : list sx) : N :=
  match ops with [] => 0 | o :: r => op_growth o + ops_growth r end.

Lemma ops_growth_app a b : ops_growth (a ++ b) = ops_growth a + ops_growth b.
Proof. induction a as [|o a IH]; cbn [app ops_growth]; [reflexivity|]. rewrite IH. lia. Qed.

(* an operation that does not itself write the Length field, bytes 4..8 (an append rewrites it, but through the code's own
   bookkeeping).  An operation of the vocabulary that the test of Judge.sdt_writes_length does not flag is one of these
   (CoherenceSdtP.keeps_of_not_writes); the converse is not proved and not used. *)
Inductive op_keeps_length : sx -> Prop :=
| kl_append w x : op_keeps_length (SL [SA 1; SA w; SA x])
| kl_append_slice b : op_keeps_length (SL [SA 2; b])
| kl_write_bytes off b bytes : sx_bytes b = Some bytes -> 8 <= off \/ off + N.of_nat (length bytes) <= 4 ->
    op_keeps_length (SL [SA 3; SA off; b])
| kl_write_int w k off x : spec_width w = Some k -> 8 <= off \/ off + N.of_nat k <= 4 ->
    op_keeps_length (SL [SA 4; SA w; SA off; SA x])
| kl_sink_int w x : op_keeps_length (SL [SA 5; SA w; SA x])
| kl_sink_vec b : op_keeps_length (SL [SA 6; b])
| kl_update_checksum : op_keeps_length (SL [SA 7]).

Fixpoint sdt_model_run (md : mode) (v : list N) (ops : list sx) : option (list N) :=
  match ops with
  | [] => Some v
  | o :: r => match sdt_step md v o with Some (v', _) => sdt_model_run md v' r | None => None end
  end.

(* the table after one operation with outcome [r] (Some v' = performed, None = refused: the table is kept) *)
Definition sdt_after (v : list N) (r : option (list N)) : list N := match r with Some v' => v' | None => v end.

Lemma sdt_model_run_cons md v o r ops : sdt_op md v o = Some r -> sdt_model_run md v (o :: ops) = sdt_model_run md (sdt_after v r) ops.
Proof. intros E. cbn [sdt_model_run]. unfold sdt_step. rewrite E. now destruct r. Qed.

Lemma sdt_spec_run_cons v o r ops : sdt_spec_op v o = Some r -> sdt_spec_run v (o :: ops) = sdt_spec_run (sdt_after v r) ops.
Proof. intros E. cbn [sdt_spec_run]. rewrite E. now destruct r. Qed.

Lemma sdt_model_run_app md a : forall v b,
  sdt_model_run md v (a ++ b) = match sdt_model_run md v a with Some v' => sdt_model_run md v' b | None => None end.
Proof.
  induction a as [|o a IH]; intros v b; [reflexivity|]. cbn [app sdt_model_run].
  destruct (sdt_step md v o) as [[v' e]|]; [apply IH|reflexivity].
Qed.

Lemma sdt_spec_run_app a : forall v b,
  sdt_spec_run v (a ++ b) = match sdt_spec_run v a with Some v' => sdt_spec_run v' b | None => None end.
Proof.
  induction a as [|o a IH]; intros v b; [reflexivity|]. cbn [app sdt_spec_run].
  destruct (sdt_spec_op v o) as [[v'|]|]; [apply IH..|reflexivity].
Qed.

(* the Spec's outcome of a write of [bs] at [off], as [sdt_spec_op] spells it for write_bytes and for the typed writes *)
Definition spec_written (v : list N) (off : N) (bs : list N) : option (option (list N)) :=
  if off + N.of_nat (length bs) <=? N.of_nat (length v)
  then Some (option_map with_checksum (vec_write v (N.to_nat off) bs)) else Some None.

Inductive step_kind (v : list N) (o : sx) : option (list N) -> Prop :=
| sk_refused : step_kind v o None
| sk_empty_push : o = SL [SA 6; SL []] -> step_kind v o (Some v)
| sk_appended bs : op_growth o = N.of_nat (length bs) -> step_kind v o (Some (sappend v bs))
| sk_written off bs : off + N.of_nat (length bs) <= N.of_nat (length v) -> op_growth o = 0 ->
    (op_keeps_length o -> 8 <= off \/ off + N.of_nat (length bs) <= 4) ->
    step_kind v o (Some (with_checksum (write_at v (N.to_nat off) bs))).

Lemma sx_bytes_nil b : sx_bytes b = Some [] -> b = SL [].
Proof.
  destruct b as [n|l]; [discriminate|]. destruct l as [|s l]; [reflexivity|].
  cbn [sx_bytes sx_nums]. destruct s; [destruct (sx_nums l); discriminate|discriminate].
Qed.

Lemma keeps_write_bytes off b bytes : op_keeps_length (SL [SA 3; SA off; b]) -> sx_bytes b = Some bytes ->
  8 <= off \/ off + N.of_nat (length bytes) <= 4.
Proof. intros Hk Hb. inversion Hk as [| |? ? bytes' Hb' Hr| | | |]; subst. rewrite Hb in Hb'. now inversion Hb'; subst. Qed.

Lemma keeps_write_int w k off x : op_keeps_length (SL [SA 4; SA w; SA off; SA x]) -> spec_width w = Some k ->
  8 <= off \/ off + N.of_nat k <= 4.
Proof. intros Hk Hw. inversion Hk as [| | |? k' ? ? Hw' Hr| | |]; subst. rewrite Hw in Hw'. now inversion Hw'; subst. Qed.

(* The two families of steps, each stated in the shape of the goals that the dispatch in [sdt_step_sim] leaves.  An appending
   operation: the model's primitive returns [sappend v bs] ([append_refines], [append_slice_refines], [sink_vec_refines]), the
   Spec appends [bs] in its own words. *)
Lemma appended_sim v o bs m : (36 <= length v)%nat -> m = Some (sappend v bs) -> op_growth o = N.of_nat (length bs) ->
  exists r, Some m = Some r /\ Some (Some (with_checksum (with_length (v ++ bs)))) = Some r /\ step_kind v o r.
Proof.
  intros H -> Hg. rewrite <- sappend_spec by exact H. exists (Some (sappend v bs)).
  split; [reflexivity|]. split; [reflexivity|]. now apply sk_appended.
Qed.

(* A write: both sides refuse it when it extends past the end. *)
Lemma written_sim md v o off bs : sdt_wf v -> off < 2 ^ 64 -> N.of_nat (length bs) < 2 ^ 62 ->
  op_growth o = 0 -> (op_keeps_length o -> 8 <= off \/ off + N.of_nat (length bs) <= 4) ->
  exists r, Some (sdt_write_bytes md v off bs) = Some r /\ spec_written v off bs = Some r /\ step_kind v o r.
Proof.
  intros Hwf Ho Hl Hg Hk. rewrite write_refines by assumption. unfold spec_written.
  destruct (N.leb_spec (off + N.of_nat (length bs)) (N.of_nat (length v))) as [Hin|Hout].
  - rewrite vec_write_fits by lia. exists (Some (with_checksum (write_at v (N.to_nat off) bs))).
    split; [reflexivity|]. split; [reflexivity|]. now apply sk_written.
  - exists None. split; [reflexivity|]. split; [reflexivity|]. apply sk_refused.
Qed.

Theorem sdt_step_sim md v o : sdt_wf v -> sdt_op_ok o ->
  exists r, sdt_op md v o = Some r /\ sdt_spec_op v o = Some r /\ step_kind v o r.
Proof.
  intros Hwf Hok. pose proof Hwf as [H Hd].
  (* both dispatchers at the opcode at hand, with the decoded width or slice put in *)
  destruct Hok as [w k x Hw|b bytes Hb Hl|off b bytes Ho Hb Hl|w k off x Ho Hw|w k x Hw|b bytes Hb Hok Hl|];
    cbn [sdt_op sdt_spec_op]; rewrite ?width_same, ?Hw, ?Hb; cbn [option_bind].
  - (* append *) pose proof (width_le8 w k Hw) as Hk.
    apply appended_sim; [exact H|apply append_refines; lia|]. cbn [op_growth]. now rewrite Hw, length_le.
  - (* append_slice *) apply appended_sim; [exact H|apply append_slice_refines; lia|]. cbn [op_growth]. now rewrite Hb.
  - (* write_bytes *) apply written_sim; [exact Hwf|exact Ho|exact Hl|reflexivity|].
    intros K. exact (keeps_write_bytes off b bytes K Hb).
  - (* write_u8/16/32/64 *) pose proof (width_le8 w k Hw) as Hk.
    replace (N.of_nat k) with (N.of_nat (length (le k x))) by now rewrite length_le.
    apply written_sim; [exact Hwf|exact Ho|rewrite length_le; lia|reflexivity|].
    intros K. rewrite length_le. exact (keeps_write_int w k off x K Hw).
  - (* sink byte/word/dword/qword: the k bytes of x, pushed one at a time *) pose proof (width_le8 w k Hw) as Hk.
    apply appended_sim; [exact H| |cbn [op_growth]; now rewrite Hw, length_le].
    apply sink_vec_refines; [apply le_bytes_ok|exact H|rewrite length_le; lia|].
    intros E. apply (f_equal (@length N)) in E. rewrite length_le in E. cbn [length] in E. lia.
  - (* sink vec: nothing happens when no byte is pushed *) destruct bytes as [|b0 bytes].
    + exists (Some v). split; [reflexivity|]. split; [reflexivity|]. apply sk_empty_push. now rewrite (sx_bytes_nil b Hb).
    + apply appended_sim; [exact H| |cbn [op_growth]; now rewrite Hb].
      apply sink_vec_refines; [exact Hok|exact H|lia|discriminate].
  - (* update_checksum: the empty write at offset 0 *)
    exists (Some (with_checksum v)). split; [now rewrite update_checksum_spec by lia|]. split; [reflexivity|].
    pose proof (sk_written v (SL [SA 7]) 0 []) as K. change (N.to_nat 0) with 0%nat in K. rewrite write_at_nil in K.
    apply K; [cbn [length]; lia|reflexivity|]. intros _. right. cbn [length]. lia.
Qed.

Lemma op_refines md v o : sdt_wf v -> sdt_op_ok o -> sdt_op md v o = sdt_spec_op v o.
Proof. intros Hwf Hok. destruct (sdt_step_sim md v o Hwf Hok) as (r & -> & -> & _). reflexivity. Qed.

Lemma written_props v off bs : (36 <= length v)%nat -> off + N.of_nat (length bs) <= N.of_nat (length v) ->
  sum8 (with_checksum (write_at v (N.to_nat off) bs)) = 0 /\ length (with_checksum (write_at v (N.to_nat off) bs)) = length v.
Proof.
  intros H Hin. pose proof (length_write_at v (N.to_nat off) bs ltac:(lia)) as Hlen.
  destruct (with_checksum_props (write_at v (N.to_nat off) bs)) as [Hs Hl]; [rewrite Hlen; lia|]. split; [exact Hs|congruence].
Qed.

Lemma step_kind_wf v o r : sdt_wf v -> N.of_nat (length v) + op_growth o < 2 ^ 62 -> step_kind v o r ->
  sdt_wf (sdt_after v r) /\ N.of_nat (length (sdt_after v r)) <= N.of_nat (length v) + op_growth o.
Proof.
  intros [H H62] Hsz K. unfold sdt_wf. destruct K as [|_|bs Hg|off bs Hin _ _]; cbn [sdt_after].
  - lia. - lia.
  - rewrite length_sappend by lia. lia.
  - rewrite (proj2 (written_props v off bs H Hin)). lia.
Qed.

(* the exception: a sink push of no byte at all performs nothing, so it does not recompute the checksum either *)
Lemma step_kind_sum v o v' : (36 <= length v)%nat -> step_kind v o (Some v') -> sum8 v' = 0 \/ (v' = v /\ o = SL [SA 6; SL []]).
Proof.
  intros H K. inversion K as [|Ho|bs _|off bs Hin _ _]; subst.
  - now right.
  - left. now apply sum8_sappend.
  - left. now apply written_props.
Qed.

(* The model and the Spec walk through the same tables, the tables stay well-formed, and every property [Inv] of tables that
   each single step preserves (for operations satisfying [P], below the size bound [B]) holds at the end. *)
Section History.
  Variable Inv : list N -> Prop.
  Variable P : sx -> Prop.
  Variable B : N.
  Hypothesis HB : B <= 2 ^ 62.
  Hypothesis Hstep : forall v o r, sdt_wf v -> sdt_op_ok o -> P o -> N.of_nat (length v) + op_growth o < B ->
                                   Inv v -> step_kind v o r -> Inv (sdt_after v r).

  Lemma history_invariant md ops : forall v,
    sdt_wf v -> Forall sdt_op_ok ops -> Forall P ops -> N.of_nat (length v) + ops_growth ops < B -> Inv v ->
    exists v', sdt_model_run md v ops = Some v' /\ sdt_spec_run v ops = Some v' /\ sdt_wf v' /\ Inv v' /\
               N.of_nat (length v') <= N.of_nat (length v) + ops_growth ops.
  Proof.
    induction ops as [|o ops IH]; intros v Hwf Hok HP Hsz Hi.
    - exists v. cbn [ops_growth]. repeat split; try assumption; try apply Hwf. lia.
    - inversion Hok as [|? ? Hok1 Hokr]; subst. inversion HP as [|? ? HP1 HPr]; subst. cbn [ops_growth] in Hsz.
      destruct (sdt_step_sim md v o Hwf Hok1) as (r & Em & Es & K).
      destruct (step_kind_wf v o r Hwf ltac:(lia) K) as [Hwf1 Hl2].
      destruct (IH (sdt_after v r) Hwf1 Hokr HPr) as (v' & Hm & Hs & Hwf' & Hi' & Hl); [lia|apply (Hstep v o); assumption || lia|].
      exists v'. rewrite (sdt_model_run_cons md v o r ops Em), (sdt_spec_run_cons v o r ops Es).
      cbn [ops_growth]. repeat split; try assumption; try apply Hwf'. lia.
  Qed.
End History.

Theorem sdt_history_refines : forall md ops v,
  sdt_wf v -> Forall sdt_op_ok ops -> N.of_nat (length v) + ops_growth ops < 2 ^ 62 ->
  exists v', sdt_model_run md v ops = Some v' /\ sdt_spec_run v ops = Some v' /\ sdt_wf v'.
Proof.
  intros md ops v Hwf Hok Hsz.
  destruct (history_invariant (fun _ => True) (fun _ => True) (2 ^ 62) (N.le_refl _) (fun _ _ _ _ _ _ _ _ _ => I)
              md ops v Hwf Hok) as (v' & Hm & Hs & Hwf' & _); [now apply Forall_forall|exact Hsz|exact I|].
  now exists v'.
Qed.

Corollary sdt_history_profile_independent ops v :
  sdt_wf v -> Forall sdt_op_ok ops -> N.of_nat (length v) + ops_growth ops < 2 ^ 62 ->
  sdt_model_run Checked v ops = sdt_model_run Wrapping v ops.
Proof.
  intros Hwf Hok Hsz.
  destruct (sdt_history_refines Checked ops v Hwf Hok Hsz) as (a & Ha & Hsa & _).
  destruct (sdt_history_refines Wrapping ops v Hwf Hok Hsz) as (b & Hb & Hsb & _). congruence.
Qed.

Theorem sdt_performed_sums_to_zero : forall md v o v',
  sdt_wf v -> sdt_op_ok o -> sdt_op md v o = Some (Some v') -> sum8 v' = 0 \/ (v' = v /\ o = SL [SA 6; SL []]).
Proof.
  intros md v o v' Hwf Hok Hop. destruct (sdt_step_sim md v o Hwf Hok) as (r & Em & _ & K).
  rewrite Hop in Em. inversion Em; subst r. exact (step_kind_sum v o v' (proj1 Hwf) K).
Qed.

Theorem sdt_history_sums_to_zero : forall md ops v,
  sdt_wf v -> sum8 v = 0 -> Forall sdt_op_ok ops -> N.of_nat (length v) + ops_growth ops < 2 ^ 62 ->
  exists v', sdt_model_run md v ops = Some v' /\ sdt_spec_run v ops = Some v' /\ sdt_wf v' /\ sum8 v' = 0.
Proof.
  intros md ops v Hwf Hs Hok Hsz.
  destruct (history_invariant (fun x => sum8 x = 0) (fun _ => True) (2 ^ 62) (N.le_refl _)) with (md := md) (ops := ops) (v := v)
    as (v' & Hm & Hsp & Hwf' & Hs' & _); try assumption.
  - intros x o [x'|] [H36 _] _ _ _ Hx K; [|exact Hx]. destruct (step_kind_sum x o x' H36 K) as [S|[-> _]]; assumption.
  - now apply Forall_forall.
  - now exists v'.
Qed.

Lemma length_hdr36 (sig oem tb : list N) len rev orev :
  length sig = 4%nat -> length oem = 6%nat -> length tb = 8%nat ->
  length (sig ++ le 4 len ++ [rev; 0] ++ oem ++ tb ++ le 4 orev ++ CREATOR) = 36%nat.
Proof. intros H1 H2 H3. rewrite !app_length, !length_le, H1, H2, H3. reflexivity. Qed.

Lemma sx_arr_spec k s b : sx_arr k s = Some b <-> sx_bytes s = Some b /\ length b = k.
Proof.
  unfold sx_arr. destruct (sx_bytes s) as [b'|]; [|split; [discriminate|intros [H _]; discriminate]].
  destruct (Nat.eqb_spec (length b') k) as [E|E]; split.
  - intros H; inversion H; subst; auto.
  - intros [H _]; exact H.
  - discriminate.
  - intros [H1 H2]. inversion H1; subst. contradiction.
Qed.

(* a 36-byte header that carries [len] behind the four bytes of the signature, then [n] zeros, with the checksum set *)
Lemma new_image_props sig len rest n v :
  length sig = 4%nat -> length (sig ++ le 4 len ++ rest) = 36%nat ->
  v = sdt_update_checksum ((sig ++ le 4 len ++ rest) ++ repeatN 0 n) ->
  sum8 v = 0 /\ length v = (36 + n)%nat /\ field_at v 4 4 = len mod 2 ^ 32.
Proof.
  intros L1 Hh ->.
  assert (Hl : length ((sig ++ le 4 len ++ rest) ++ repeatN 0 n) = (36 + n)%nat) by (rewrite app_length, Hh, length_repeatN; reflexivity).
  split; [apply update_checksum_sums; lia|]. split; [now rewrite length_update_checksum|].
  rewrite length_field_update_checksum by lia. unfold field_at.
  rewrite <- !app_assoc. pose proof (skipn_app_exact sig) as Hsk. rewrite L1 in Hsk. rewrite Hsk, firstn_le_app. apply unle_le.
Qed.

Lemma ctor_shape c :
  sdt_new c = None /\ sdt_spec_new c = None \/ exists sg len rev o t orev, c = SL [sg; SA len; SA rev; o; t; SA orev].
Proof.
  destruct c as [|[|sg [|[len|] [|[rev|] [|o [|t [|[orev|] [|]]]]]]]]; try (left; split; reflexivity).
  right. now exists sg, len, rev, o, t, orev.
Qed.

(* the Spec's domain: 4/6/8-byte identifiers, 36 <= len < 2^32 *)
Lemma sdt_spec_new_model c v : sdt_spec_new c = Some v ->
  sdt_new c = Some v /\ sdt_wf v /\ sum8 v = 0 /\ field_at v 4 4 = N.of_nat (length v) /\ N.of_nat (length v) < 2 ^ 32.
Proof.
  destruct (ctor_shape c) as [[_ ->]|(sg & len & rev & o & t & orev & ->)]; [discriminate|].
  cbn [sdt_spec_new sdt_new]. unfold sx_arr.
  destruct (sx_bytes sg) as [sig|]; [|discriminate]. destruct (sx_bytes o) as [oem|]; [|discriminate].
  destruct (sx_bytes t) as [tb|]; [|discriminate].
  destruct (Nat.eqb_spec (length sig) 4) as [L1|]; [|discriminate].
  destruct (Nat.eqb_spec (length oem) 6) as [L2|]; [|discriminate].
  destruct (Nat.eqb_spec (length tb) 8) as [L3|]; [|discriminate].
  destruct (N.leb_spec 36 len) as [Hlo|]; [|discriminate]. destruct (N.ltb_spec len (2 ^ 32)) as [Hhi|]; [|discriminate].
  cbn [andb option_bind assert]. unfold cast, U32. rewrite (N.mod_small len) by exact Hhi.
  pose proof (length_hdr36 sig oem tb len (rev mod 256) orev L1 L2 L3) as Hh.
  (* the Spec writes the same bytes as one flat concatenation *)
  replace (with_checksum _) with
    (sdt_update_checksum ((sig ++ le 4 len ++ [rev mod 256; 0] ++ oem ++ tb ++ le 4 orev ++ CREATOR) ++ repeatN 0 (N.to_nat len - 36))).
  - intros E. apply Some_inj in E. destruct (new_image_props sig len _ (N.to_nat len - 36) v L1 Hh (eq_sym E)) as (Hs & Hl & Hf).
    rewrite (N.mod_small len) in Hf by exact Hhi. split; [now rewrite <- E|]. unfold sdt_wf. rewrite Hl, Hf. repeat split; lia.
  - rewrite update_checksum_spec by (rewrite app_length, Hh; lia). now rewrite <- !app_assoc.
Qed.

Theorem sdt_new_refines : forall c v, sdt_spec_new c = Some v -> sdt_new c = Some v.
Proof. intros c v H. apply (sdt_spec_new_model c v H). Qed.

Lemma sdt_spec_new_props c v : sdt_spec_new c = Some v ->
  sdt_wf v /\ sum8 v = 0 /\ field_at v 4 4 = N.of_nat (length v) /\ N.of_nat (length v) < 2 ^ 32.
Proof. intros H. apply (sdt_spec_new_model c v H). Qed.

(* also outside the Spec's domain, where `length as u32` truncates *)
Theorem sdt_new_sums_to_zero : forall c v, sdt_new c = Some v -> sum8 v = 0 /\ sdt_wf v.
Proof.
  intros c v. destruct (ctor_shape c) as [[-> _]|(sg & len & rev & o & t & orev & ->)]; [discriminate|]. cbn [sdt_new].
  destruct (sx_arr 4 sg) as [sig|] eqn:L1; [|discriminate]. destruct (sx_arr 6 o) as [oem|] eqn:L2; [|discriminate].
  destruct (sx_arr 8 t) as [tb|] eqn:L3; [|discriminate]. cbn [option_bind]. destruct (36 <=? len); [|discriminate].
  cbn [assert option_bind]. intros [= <-]. apply sx_arr_spec in L1, L2, L3. set (v := sdt_update_checksum _).
  destruct (new_image_props sig len _ (N.to_nat (cast U32 len) - 36) v (proj2 L1)
              (length_hdr36 sig oem tb len (cast U8 rev) orev (proj2 L1) (proj2 L2) (proj2 L3)) eq_refl) as (Hs & Hl & _).
  split; [exact Hs|]. unfold sdt_wf. rewrite Hl. clear. unfold cast, U32.
  pose proof (N.mod_lt len (2 ^ 32) ltac:(lia)) as Hc. generalize dependent (len mod 2 ^ 32). intros m Hm. lia.
Qed.

Theorem sdt_every_prefix_sums_to_zero : forall md c v0 pre post,
  sdt_new c = Some v0 -> Forall sdt_op_ok (pre ++ post) -> N.of_nat (length v0) + ops_growth (pre ++ post) < 2 ^ 62 ->
  exists v, sdt_model_run md v0 pre = Some v /\ sdt_spec_run v0 pre = Some v /\ sdt_wf v /\ sum8 v = 0.
Proof.
  intros md c v0 pre post Hnew Hok Hsz. destruct (sdt_new_sums_to_zero c v0 Hnew) as [Hs Hwf].
  apply Forall_app in Hok. destruct Hok as [Hpre _]. rewrite ops_growth_app in Hsz.
  apply sdt_history_sums_to_zero; try assumption. lia.
Qed.

Definition length_field_ok (v : list N) : Prop := field_at v 4 4 = N.of_nat (length v).

Lemma length_field_written v off bs : (36 <= length v)%nat -> off + N.of_nat (length bs) <= N.of_nat (length v) ->
  8 <= off \/ off + N.of_nat (length bs) <= 4 ->
  field_at (with_checksum (write_at v (N.to_nat off) bs)) 4 4 = field_at v 4 4.
Proof.
  intros H Hin Hout. assert (Hfit : (N.to_nat off + length bs <= length v)%nat) by lia.
  pose proof (length_write_at v (N.to_nat off) bs Hfit) as Hlen.
  rewrite <- update_checksum_spec, length_field_update_checksum by (rewrite Hlen; lia).
  apply length_field_ext; [exact Hlen|]. intros i Hi. rewrite nth_write_at by exact Hfit.
  destruct (Nat.leb_spec (N.to_nat off) i) as [Ha|Ha]; cbn [andb]; [|reflexivity].
  destruct (Nat.ltb_spec i (N.to_nat off + length bs)) as [Hb|Hb]; [lia|reflexivity].
Qed.

Lemma step_keeps_length_field v o r :
  sdt_wf v -> sdt_op_ok o -> op_keeps_length o -> N.of_nat (length v) + op_growth o < 2 ^ 32 ->
  length_field_ok v -> step_kind v o r -> length_field_ok (sdt_after v r).
Proof.
  intros [H36 _] _ Hk Hsz Hv K. destruct K as [|_|bs Hg|off bs Hin _ Hr]; cbn [sdt_after]; try exact Hv.
  - apply length_field_sappend_size; [exact H36|lia].
  - unfold length_field_ok. rewrite (proj2 (written_props v off bs H36 Hin)), <- Hv. now apply length_field_written; auto.
Qed.

Theorem sdt_length_field_tracks_size : forall md ops v,
  sdt_wf v -> length_field_ok v -> Forall sdt_op_ok ops -> Forall op_keeps_length ops ->
  N.of_nat (length v) + ops_growth ops < 2 ^ 32 ->
  exists v', sdt_model_run md v ops = Some v' /\ sdt_spec_run v ops = Some v' /\
             field_at v' 4 4 = N.of_nat (length v') /\ N.of_nat (length v') < 2 ^ 32.
Proof.
  intros md ops v Hwf Hv Hok Hk Hsz.
  assert (HB : 2 ^ 32 <= 2 ^ 62) by lia.
  destruct (history_invariant length_field_ok op_keeps_length (2 ^ 32) HB step_keeps_length_field md ops v Hwf Hok Hk Hsz Hv)
    as (v' & Hm & Hs & _ & Hf & Hl).
  exists v'. repeat split; try assumption. lia.
Qed.

Theorem sdt_new_length_field_tracks_size : forall md c v0 pre post,
  sdt_spec_new c = Some v0 -> Forall sdt_op_ok (pre ++ post) -> Forall op_keeps_length (pre ++ post) ->
  N.of_nat (length v0) + ops_growth (pre ++ post) < 2 ^ 32 ->
  sdt_new c = Some v0 /\
  exists v, sdt_model_run md v0 pre = Some v /\ sdt_spec_run v0 pre = Some v /\
            field_at v 4 4 = N.of_nat (length v) /\ sum8 v = 0.
Proof.
  intros md c v0 pre post Hnew Hok Hk Hsz. split; [now apply sdt_new_refines|].
  destruct (sdt_spec_new_props c v0 Hnew) as (Hwf & Hs & Hf & _).
  apply Forall_app in Hok. destruct Hok as [Hok _]. apply Forall_app in Hk. destruct Hk as [Hk _].
  rewrite ops_growth_app in Hsz.
  destruct (sdt_length_field_tracks_size md pre v0 Hwf Hf Hok Hk) as (v & Hm & Hsp & Hfv & _); [lia|].
  exists v. repeat split; try assumption.
  destruct (sdt_history_sums_to_zero md pre v0 Hwf Hs Hok) as (v2 & Hm2 & _ & _ & Hs2); [lia|]. congruence.
Qed.

Theorem sdt_refused_history_unchanged : forall md ops v,
  Forall (fun o => sdt_op md v o = Some None) ops -> sdt_model_run md v ops = Some v.
Proof.
  intros md ops v H. induction H as [|o r Ho _ IH]; [reflexivity|].
  cbn [sdt_model_run]. unfold sdt_step. rewrite Ho. exact IH.
Qed.

Theorem sdt_refused_op_is_noop : forall md pre o post v v1,
  sdt_model_run md v pre = Some v1 -> sdt_op md v1 o = Some None ->
  sdt_model_run md v (pre ++ o :: post) = sdt_model_run md v (pre ++ post).
Proof.
  intros md pre o post v v1 Hpre Ho. rewrite !sdt_model_run_app, Hpre. cbn [sdt_model_run]. unfold sdt_step. now rewrite Ho.
Qed.

Lemma sdt_step_one md s o s' evs : sdt_step md s o = Some (s', evs) -> exists h, evs = [EvNum h].
Proof.
  unfold sdt_step. destruct (sdt_op md s o) as [[d|]|]; intros H; inversion H; subst; eexists; reflexivity.
Qed.

Lemma sdt_op_ok_shape o : sdt_op_ok o -> exists l, o = SL l.
Proof. intros H. destruct H; eexists; reflexivity. Qed.

(* [sdt_case] (what the correspondence harness compares with the crate) observes, at the end of such a history, exactly
   the table of [sdt_model_run]: one status number per operation, then the image (Props/C13.v,
   c13_model_run_is_the_judged_model, unfolds [sdt_case] to this) *)
Lemma run_ops_acc_model md ops : forall v acc v',
  Forall sdt_op_ok ops -> sdt_model_run md v ops = Some v' ->
  exists nums, length nums = length ops /\
    run_ops_acc (fun d => Some d) (sdt_step md) v (ops ++ [SA 1]) acc = frev (EvBytes v' :: nums ++ acc).
Proof.
  induction ops as [|o r IH]; intros v acc v' Hok Hrun.
  - inversion Hrun; subst. exists []. split; [reflexivity|]. reflexivity.
  - inversion Hok as [|? ? Hok1 Hokr]; subst. cbn [sdt_model_run] in Hrun.
    destruct (sdt_step md v o) as [[v1 e]|] eqn:Es; [|discriminate]. destruct (sdt_step_one md v o v1 e Es) as [n ->].
    destruct (IH v1 (EvNum n :: acc) v' Hokr Hrun) as (nums & Hlen & Hr).
    exists (nums ++ [EvNum n]). split; [rewrite app_length; cbn [length]; lia|]. destruct (sdt_op_ok_shape o Hok1) as [l ->].
    cbn [app run_ops_acc]. rewrite Es. cbn [rev_append]. rewrite Hr, <- app_assoc. reflexivity.
Qed.
