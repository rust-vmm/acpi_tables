(* C11, HEST PCIe AER sources (root port / endpoint / bridge): the options are constructor alternatives and no setter touches
   the Flags byte.  The theorems about the emitted bytes are c11_hest_* in Props/C11.v. *)
From Coq Require Import NArith List.
From ACPI Require Import Lib.Sx Impl.Fields Impl.Hest Spec.OptionsS Proofs.FadtP Proofs.C11CommonP.
Import ListNotations.
Open Scope N_scope.

Definition aer_ws (ty : N) : list nat := widths (aer_common ty 0 0 0 0 ++ aer_tail ty).
(* The size of an AER source as the model emits it: 44 bytes plus the tail of `aer_tail`, which is empty for every type other
   than 6 and 8.  This is NOT Spec.HestS.aer_size (same name; the size `aer_ref` lays out), which lists 6 and 7 and sends every
   other type to 56: the two agree on the structure types 6, 7, 8 and differ elsewhere.  c11_hest_aer uses this one, and only at
   those three types. *)
Definition aer_size (ty : N) : nat := match ty with 6 => 48%nat | 8 => 56%nat | _ => 44%nat end.

Lemma aer_new_spec ty c f0 : aer_new ty c = Some f0 ->
  widths f0 = aer_ws ty /\ fget f0 3 = aer_ctor_flags c.
Proof.
  revert f0. apply opt_case. unfold aer_new. dmatch_goal; try (destruct (pci_ok _ _); [|exact I]); split; reflexivity.
Qed.

(* no setter touches the Flags byte *)
Lemma aer_step ty f o f' : aer_setter ty f o = Some f' ->
  exists b, writes 3 (fun k => In (fld_range (aer_ws ty) k) (aer_call_ranges o)) f b f' /\ b = 0.
Proof.
  revert f'. apply opt_case. unfold aer_setter.
  dmatch_goal; cbv beta iota; cbn [aer_call_ranges]; eexists; (split; [writes_tac|reflexivity]).
Qed.

(* k = 1, 2, 3: add_structure(PcieAerRootPort / PcieAerDevice / PcieAerBridge); structure type 6 / 7 / 8 *)
Definition aer_type (k : N) : N := match k with 1 => 6 | 2 => 7 | _ => 8 end.

(* the two constructor options of the enumeration: firmware first (bit 0, only through new_root_port/new_bridge with
   FirmwareFirst::Enabled), global (bit 1, only through new_global); distinct single bits *)
Lemma aer_options_distinct : distinct_single_bits aer_option_table && below (2 ^ 8) aer_option_table = true /\
  aer_ctor_flags (SL [SA 0]) = 2 /\ (forall b d f, aer_ctor_flags (SL [SA 1; SA 1; b; d; f]) = 1) /\
  (forall b d f, aer_ctor_flags (SL [SA 1; SA 0; b; d; f]) = 0).
Proof. repeat split; reflexivity. Qed.

