(* PPTT: the node an add_* call receives (pptt.rs `ProcessorNode`, and `CacheNode` field by field), as a value between the
   operation and the bytes.  The model's `pptt_addition` is "run the builder chain to a node, check that it fits the length
   byte, serialise it" (`pptt_addition_cases` / `_intro`, over `pptt_op`).  The Spec's `pptt_entry_ref` reaches a node too,
   but not by the same chain: it folds `proc_builders` over its own state and reads a cache node off summaries of the setter
   list (`pptt_entry_ref_cases`, over `pptt_ref_op`); that a node of the Spec is a node of the model is the simulation of
   Proofs/PpttRefP.v.  The layout of a node is stated once (`pptt_node_lay`); its size, fields and self-description are read
   off it.  Every other PPTT file starts from these. *)
From Coq Require Import NArith List Lia Bool Arith.
From ACPI Require Import Lib.Bytes Lib.Sx Lib.Machine Impl.Table Impl.Fields Impl.Pptt Spec.Layout Spec.MadtS Spec.HmatS Spec.PpttS
  Proofs.BaseP Proofs.WalkP Proofs.WalkRefCommon2P.
Import ListNotations.
Open Scope N_scope.

Inductive pptt_node : Type :=
| NProc (p : pnode)
| NCache (flags next size sets assoc attrs line id : N).

(* the packed struct CacheNode: [cache_default] with the eight fields that the setters write *)
Definition pptt_cache_flds (flags next size sets assoc attrs line id : N) : flds :=
  [F 1 1; F 1 28; F 2 0; F 4 flags; F 4 next; F 4 size; F 4 sets; F 1 assoc; F 1 attrs; F 2 line; F 4 id].

(* what to_aml_bytes emits once its assert has passed *)
Definition pptt_node_bytes (d : pptt_node) : list N :=
  match d with
  | NProc p => b1 0 ++ b1 (pnode_len p) ++ w2 0 ++ d4 (pn_flags p) ++ d4 (pn_parent p) ++ d4 (pn_uid p) ++
               d4 (N.of_nat (length (pn_rres p))) ++ pp_dwords (frev (pn_rres p))
  | NCache fl nl sz sets asso attr ls id => ser_flds (pptt_cache_flds fl nl sz sets asso attr ls id)
  end.

(* the hand-written len() *)
Definition pptt_node_claimed (d : pptt_node) : N := match d with NProc p => pnode_len p | NCache _ _ _ _ _ _ _ _ => 28 end.

Definition pptt_node_size (d : pptt_node) : nat :=
  match d with NProc p => 20 + 4 * length (pn_rres p) | NCache _ _ _ _ _ _ _ _ => 28 end.

Definition pptt_node_addition (d : pptt_node) : addition :=
  {| a_style := SumAdd; a_claimed := pptt_node_claimed d; a_bytes := pptt_node_bytes d; a_returns := true; a_flag := false |}.

(* the fixed head of a node, as Spec/PpttS.v tabulates it; behind it a processor node has its private resources *)
Definition pptt_node_head (d : pptt_node) : layout :=
  match d with
  | NProc p =>
      [L 0 1 0; L 1 1 (N.of_nat (20 + 4 * length (pn_rres p))); L 2 2 0; L 4 4 (pn_flags p); L 8 4 (pn_parent p); L 12 4 (pn_uid p);
       L 16 4 (N.of_nat (length (pn_rres p)))]
  | NCache fl nl sz sets asso attr ls id =>
      [L 0 1 1; L 1 1 28; L 2 2 0; L 4 4 fl; L 8 4 nl; L 12 4 sz; L 16 4 sets; L 20 1 asso; L 21 1 attr; L 22 2 ls; L 24 4 id]
  end.

Definition pptt_node_head_size (d : pptt_node) : nat := match d with NProc _ => 20 | NCache _ _ _ _ _ _ _ _ => 28 end.

Definition pptt_node_tail (d : pptt_node) : list N :=
  match d with NProc p => arr 4 (frev (pn_rres p)) | NCache _ _ _ _ _ _ _ _ => [] end.

Lemma pptt_node_claimed_size d : pptt_node_claimed d = N.of_nat (pptt_node_size d).
Proof. destruct d; unfold pptt_node_claimed, pptt_node_size, pnode_len; lia. Qed.

Lemma pptt_cache_lay fl nl sz sets asso attr ls id :
  lay 28 (pptt_node_head (NCache fl nl sz sets asso attr ls id)) = Some (ser_flds (pptt_cache_flds fl nl sz sets asso attr ls id)).
Proof. reflexivity. Qed.

(* the one place where the serialisers of pptt.rs and the field tables of the specification meet: with the lengths as
   variables both sides compute to the same list *)
Lemma pptt_node_lay d : lay_then (pptt_node_head_size d) (pptt_node_head d) (pptt_node_tail d) = Some (pptt_node_bytes d).
Proof.
  destruct d as [p|fl nl sz sets asso attr ls id].
  - unfold pptt_node_bytes, pptt_node_head, pptt_node_tail, pptt_node_head_size, pnode_len.
    replace (20 + N.of_nat (length (pn_rres p)) * 4) with (N.of_nat (20 + 4 * length (pn_rres p))) by lia.
    generalize (N.of_nat (20 + 4 * length (pn_rres p))) (N.of_nat (length (pn_rres p))). intros len n. reflexivity.
  - unfold lay_then, pptt_node_head_size. rewrite pptt_cache_lay. cbn [pptt_node_tail pptt_node_bytes]. now rewrite app_nil_r.
Qed.

Lemma pptt_node_length d : length (pptt_node_bytes d) = pptt_node_size d.
Proof.
  rewrite (proj1 (lay_then_fields _ _ _ _ (pptt_node_lay d))).
  destruct d; cbn [pptt_node_head_size pptt_node_tail pptt_node_size]; [|reflexivity].
  rewrite length_arr, frev_rev, rev_length. reflexivity.
Qed.

Lemma pptt_node_field d o w v : layout_get (pptt_node_head d) o w = Some v ->
  field_at (pptt_node_bytes d) o w = v mod 2 ^ (8 * N.of_nat w).
Proof. exact (lay_then_get o w v (pptt_node_lay d)). Qed.

Lemma pptt_node_field_below d o w v b : layout_get (pptt_node_head d) o w = Some v -> b = 2 ^ (8 * N.of_nat w) -> v < b ->
  field_at (pptt_node_bytes d) o w = v.
Proof. exact (lay_then_get_below o w v b (pptt_node_lay d)). Qed.

Lemma pptt_node_ty d : sp_ty (pptt_node_bytes d) = match d with NProc _ => 0 | NCache _ _ _ _ _ _ _ _ => 1 end.
Proof. destruct d; reflexivity. Qed.

(* private resource j of a processor node, in the order of the add_cache calls *)
Lemma pptt_node_resource p j c : nth_error (rev (pn_rres p)) j = Some c ->
  field_at (pptt_node_bytes (NProc p)) (20 + 4 * j) 4 = c mod 2 ^ (8 * N.of_nat 4).
Proof.
  intros H. pose proof (pptt_node_lay (NProc p)) as Hlay. cbn [pptt_node_tail] in Hlay. rewrite frev_rev in Hlay.
  exact (proj2 (lay_then_arr_field _ _ _ _ _ Hlay) j c H).
Qed.

Lemma pptt_node_len_field d : layout_get (pptt_node_head d) 1 1 = Some (N.of_nat (pptt_node_size d)).
Proof. destruct d; reflexivity. Qed.

Lemma pptt_node_self d : (pptt_node_size d <= 255)%nat ->
  self_describing H_u8_u8 (pptt_node_bytes d) (sp_ty (pptt_node_bytes d)).
Proof.
  intros Hfit.
  apply self_describing_sp_ty, (lay_then_self H_u8_u8 1 0 1 _ _ _ _ _ 256 eq_refl (pptt_node_lay d) (pptt_node_len_field d)
                                  (pptt_node_length d)); [destruct d; cbn [pptt_node_size]; lia|reflexivity|lia].
Qed.

Lemma pnode_bytes_eq p : pnode_bytes p = if pnode_len p <=? 255 then Some (pptt_node_bytes (NProc p)) else None.
Proof. unfold pnode_bytes. destruct (pnode_len p <=? 255); reflexivity. Qed.

(* ProcessorNode::new: no flags, no resources; the parent is 0 for (), else what the argument refers to *)
Definition pnode_parent (s : tbl) (x : sx) : option N := match x with SL [] => Some 0 | _ => handle_ref s x end.

Lemma pnode_new_cases s parent uid p0 : pnode_new s parent uid = Some p0 ->
  exists par, pnode_parent s parent = Some par /\ p0 = {| pn_flags := 0; pn_parent := par; pn_uid := uid; pn_rres := [] |}.
Proof.
  unfold pnode_new. fold (pnode_parent s parent). intros H. apply bind_Some in H as (par & Ep & H).
  exists par. split; [exact Ep|symmetry; exact (Some_inj _ _ H)].
Qed.

Lemma pnode_new_intro s parent uid pv : pnode_parent s parent = Some pv ->
  pnode_new s parent uid = Some {| pn_flags := 0; pn_parent := pv; pn_uid := uid; pn_rres := [] |}.
Proof. intros H. unfold pnode_new. fold (pnode_parent s parent). rewrite H. reflexivity. Qed.

(* every setter maps a CacheNode to a CacheNode *)
Definition is_cache_node (f : flds) : Prop :=
  exists fl nl sz sets asso attr ls id, f = pptt_cache_flds fl nl sz sets asso attr ls id.

Lemma cache_default_node : is_cache_node cache_default.
Proof. now exists 0, 0, 0, 0, 0, 0, 0, 0. Qed.

Lemma cache_setter_node s f o f' : is_cache_node f -> cache_setter s f o = Some f' -> is_cache_node f'.
Proof.
  intros (fl & nl & sz & sets & asso & attr & ls & id & ->) H. unfold cache_setter in H.
  break_sx H; try (destruct (handle_ref s _); [|discriminate H]; cbn [option_bind] in H);
    apply Some_inj in H; subst f'; do 8 eexists; reflexivity.
Qed.

Lemma cache_setters_node s l : forall f f', is_cache_node f -> cache_setters s f l = Some f' -> is_cache_node f'.
Proof.
  induction l as [|o l IH]; intros f f' Hf H; cbn [cache_setters] in H.
  - apply Some_inj in H. subst f'. exact Hf.
  - destruct (cache_setter s f o) as [f1|] eqn:E; [|discriminate H]. exact (IH f1 f' (cache_setter_node s f o f1 Hf E) H).
Qed.

Inductive pptt_op (s : tbl) : sx -> pptt_node -> Prop :=
| PpOpProc parent uid bs p0 p : pnode_new s parent uid = Some p0 -> pnode_builders s p0 bs = Some p ->
    pptt_op s (SL [SA 1; parent; SA uid; SL bs]) (NProc p)
| PpOpCache st fl nl sz sets asso attr ls id :
    cache_setters s cache_default st = Some (pptt_cache_flds fl nl sz sets asso attr ls id) ->
    pptt_op s (SL [SA 2; SL st]) (NCache fl nl sz sets asso attr ls id).

Lemma pptt_addition_cases s o e : pptt_addition s o = Some e ->
  exists d, pptt_op s o d /\ (pptt_node_size d <= 255)%nat /\ e = pptt_node_addition d.
Proof.
  intros H. unfold pptt_addition in H. break_sx H.
  - (* add_cache *)
    apply bind_Some in H as (f & Ef & H).
    destruct (cache_setters_node s _ _ f cache_default_node Ef) as (fl & nl & sz & sets & asso & attr & ls & id & ->).
    exists (NCache fl nl sz sets asso attr ls id). split; [constructor; exact Ef|]. split; [cbn [pptt_node_size]; lia|].
    symmetry. exact (Some_inj _ _ H).
  - (* add_processor *)
    apply bind_Some in H as (p0 & E0 & H). apply bind_Some in H as (p & E1 & H). apply bind_Some in H as (b & Eb & H).
    rewrite pnode_bytes_eq in Eb. apply if_Some in Eb as [Hle Eb]. apply N.leb_le in Hle.
    exists (NProc p). split; [exact (PpOpProc s _ _ _ p0 p E0 E1)|]. split; [unfold pnode_len in Hle; cbn [pptt_node_size]; lia|].
    apply Some_inj in Eb, H. subst b e. reflexivity.
Qed.

Lemma pptt_addition_intro s o d : pptt_op s o d -> (pptt_node_size d <= 255)%nat ->
  pptt_addition s o = Some (pptt_node_addition d).
Proof.
  intros [parent uid bs p0 p E0 E1|st fl nl sz sets asso attr ls id E] Hfit; cbn [pptt_addition].
  - rewrite E0. cbn [option_bind]. rewrite E1. cbn [option_bind]. rewrite pnode_bytes_eq.
    rewrite (proj2 (N.leb_le (pnode_len p) 255)); [reflexivity|]. unfold pnode_len. cbn [pptt_node_size] in Hfit. lia.
  - rewrite E. reflexivity.
Qed.

Definition pn_of (st : pstate) : pnode :=
  match st with (flags, parent, uid, rres) => {| pn_flags := flags; pn_parent := parent; pn_uid := uid; pn_rres := rres |} end.

(* the parent argument of ProcessorNode::new: () = no parent (0), otherwise a raw number or a handle reference *)
Definition pptt_par_val (p : placed) (x : sx) : option N :=
  match x with SL [] => Some 0 | _ => resolve_or_raw p 0 x end.

(* a builder (8 x) takes the same values, () excepted *)
Lemma pptt_par_val_raw p x v : resolve_or_raw p 0 x = Some v -> pptt_par_val p x = Some v.
Proof. destruct x as [n|[|y l]]; [exact (fun H => H)|discriminate|exact (fun H => H)]. Qed.

(* a cache node of the Spec: a valid bit for every setter that was called, the union of the attribute sub-fields *)
Definition pptt_cache_valid (st : list sx) : N :=
  bit (called 1 st) 1 + bit (called 2 st) 2 + bit (called 3 st) 4 + bit (called 4 st) 8 + bit (called 5 st) 16
  + bit (called 6 st) 32 + bit (called 7 st) 64 + bit (called 8 st) 128.
Definition pptt_cache_attrs (st : list sx) : N := N.lor (N.lor (or_args 4 1 st) (or_args 5 4 st)) (or_args 6 16 st).

Inductive proc_step (p : placed) (fl par uid : N) (rres : list N) : sx -> pstate -> Prop :=
| StepPhysical : proc_step p fl par uid rres (SL [SA 1]) (N.lor fl 1, par, uid, rres)
| StepValid : proc_step p fl par uid rres (SL [SA 2]) (N.lor fl 2, par, uid, rres)
| StepThread : proc_step p fl par uid rres (SL [SA 3]) (N.lor fl 4, par, uid, rres)
| StepLeaf : proc_step p fl par uid rres (SL [SA 4]) (N.lor fl 8, par, uid, rres)
| StepIdentical : proc_step p fl par uid rres (SL [SA 5]) (N.lor fl 16, par, uid, rres)
| StepAddCache h c : resolve p 1 h = Some c -> proc_step p fl par uid rres (SL [SA 6; h]) (fl, par, uid, c :: rres)
| StepFlags v : v < 2 ^ 32 -> proc_step p fl par uid rres (SL [SA 7; SA v]) (v, par, uid, rres)
| StepParent x v : resolve_or_raw p 0 x = Some v -> proc_step p fl par uid rres (SL [SA 8; x]) (fl, v, uid, rres)
| StepUid v : v < 2 ^ 32 -> proc_step p fl par uid rres (SL [SA 9; SA v]) (fl, par, v, rres).

Lemma proc_builder_cases p fl par uid rres b st' :
  proc_builder p (fl, par, uid, rres) b = Some st' -> proc_step p fl par uid rres b st'.
Proof.
  intros H. unfold proc_builder in H. break_sx H.
  (* (7 v) and (9 v) check a bound, (6 h) and (8 x) resolve their argument *)
  all: try (apply if_Some in H as [Hv H]; apply N.ltb_lt in Hv).
  all: try (apply bind_Some in H as (c & Ec & H)).
  all: apply Some_inj in H; subst st'; constructor; assumption.
Qed.

(* the node [d] that the Spec lays out for operation [o]; of the Spec's guard, what the refinement needs *)
Inductive pptt_ref_op (p : placed) : sx -> pptt_node -> Prop :=
| PpRefProc parent uid bs par0 st : pptt_par_val p parent = Some par0 ->
    proc_builders p (0, par0, uid, []) bs = Some st -> pptt_ref_op p (SL [SA 1; parent; SA uid; SL bs]) (NProc (pn_of st))
| PpRefCache st next : forallb cache_setter_ok st = true -> last_next_level p st 0 = Some next ->
    pptt_ref_op p (SL [SA 2; SL st])
      (NCache (pptt_cache_valid st) next (arg0 1 st) (arg0 2 st) (arg0 3 st) (pptt_cache_attrs st) (arg0 7 st) (arg0 8 st)).

Lemma pptt_entry_ref_cases p o e : pptt_entry_ref p o = Some e ->
  exists d, pptt_ref_op p o d /\ (pptt_node_size d <= 255)%nat /\ e = pptt_node_bytes d.
Proof.
  intros H. op_cases H o l of pptt_entry_ref.
  - (* 2: cache *)
    arg_list H l st. arg_end H l. apply if_Some in H as [Hok H]. apply bind_Some in H as (next & Enl & H). cbv zeta in H.
    eexists. split; [exact (PpRefCache p st next Hok Enl)|]. split; [cbn [pptt_node_size]; lia|].
    exact (Some_inj _ _ (eq_trans (eq_sym H) (pptt_cache_lay _ _ _ _ _ _ _ _))).
  - (* 1: processor *)
    arg_any H l parent. arg_num H l uid. arg_list H l bs. arg_end H l. fold (pptt_par_val p parent) in H.
    apply bind_Some in H as (par0 & Epar & H). apply if_Some in H as [Hu H].
    apply bind_Some in H as ([[[flags par] id] rres] & Eb & H). cbv zeta in H. apply if_Some in H as [Hn H].
    exists (NProc (pn_of (flags, par, id, rres))). split; [exact (PpRefProc p parent uid bs par0 _ Epar Eb)|].
    split; [apply Nat.leb_le; exact Hn|].
    exact (Some_inj _ _ (eq_trans (eq_sym H) (pptt_node_lay (NProc (pn_of (flags, par, id, rres)))))).
Qed.

(* [pptt_entries_from] of Spec/PpttS.v is the [placed]-threading fold [pl_entries_from] of Proofs/WalkRefCommon2P.v *)
Lemma pptt_entries_from_pl ops : forall p next racc,
  pptt_entries_from ops p next racc = pl_entries_from pptt_entry_ref sp_ty ops p next racc.
Proof.
  induction ops as [|o ops IH]; intros p next racc; unfold pl_entries_from; cbn [pptt_entries_from bk_entries]; [reflexivity|].
  destruct (pptt_entry_ref p o) as [e|]; [|reflexivity]. apply IH.
Qed.
