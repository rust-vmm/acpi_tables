(* RIMT: walk instance (C03) and the count / length sites inside its devices (C18).
   Every device starts with type u8, revision u8, length u16 (H_u8_x_u16).  The sites:
     device length (u16 at offset 2 of every device),
     IOMMU: number of interrupt wires (u16 at offset 28),
     PCIe root complex: number of ID mappings (u16 at offset 14),
     platform device: ID mapping array offset (u16 at offset 8) and number of ID mappings (u16 at offset 10).
   The table's device count (header area, offset 36) is a u32 written from t_cnt, which `rimt_tiles` shows to be the number of
   devices; no lemma here reads that field back from the image. *)
From Coq Require Import NArith List Lia.
From ACPI Require Import Lib.Bytes Lib.Sx Lib.Machine Impl.Table Impl.Rimt Spec.Layout Proofs.TableP Proofs.WalkP
  Proofs.Tables Proofs.RimtP Proofs.WalkW3Common Proofs.BaseP Proofs.RimtStructP.
Import ListNotations.
Open Scope N_scope.

(* Option<Vec<..>> argument: () = None (no elements), ((x ...)) = Some(vec) *)
Definition opt_list_count (x : sx) : nat := match x with SL [SL l] => length l | _ => 0%nat end.

Definition iommu_true_len (wires : sx) : nat := (32 + 8 * opt_list_count wires)%nat.
Definition pcierc_true_len (maps : sx) : nat := (16 + 20 * opt_list_count maps)%nat.
Definition platform_true_moff (nm : list N) : nat := (12 + length nm + 1)%nat.        (* fixed part, name, NUL *)
Definition platform_true_len (nm : list N) (maps : sx) : nat := (platform_true_moff nm + 20 * opt_list_count maps)%nat.

Lemma rimt_wires_count x ws : rimt_wires x = Some ws -> length ws = opt_list_count x.
Proof.
  unfold rimt_wires. intros H. split_matches H.
  - apply Some_inj in H. subst ws. reflexivity.
  - cbn [opt_list_count]. eapply sx_list_all_length; exact H.
Qed.

Lemma rimt_maps_count s x ms : rimt_maps s x = Some ms -> length ms = opt_list_count x.
Proof.
  unfold rimt_maps. intros H. split_matches H.
  - apply Some_inj in H. subst ms. reflexivity.
  - cbn [opt_list_count]. eapply sx_list_all_length; exact H.
Qed.

Lemma rimt_new_empty c s0 : rimt_new c = Some s0 -> t_ents s0 = [].
Proof. exact (plain_new_empty KRimt _ _ c s0). Qed.

(* every accepted addition is a device whose own u16 length field is its size (the serialiser's
   assert!(self.len() <= u16::MAX) has passed): in particular the model refuses whenever that size does not fit 16 bits *)
Lemma rimt_addition_self s o e : rimt_addition s o = Some e -> exists ty, self_describing H_u8_x_u16 (a_bytes e) ty.
Proof. intros H. apply rimt_addition_cases in H as (d & _ & Hel & Hfit & ->). eexists. exact (rimt_dev_self d Hel Hfit). Qed.

Definition rimt_walk : walktable :=
  {| wt_table := rimt_table; wt_ehdr := H_u8_x_u16; wt_self := rimt_addition_self; wt_new_empty := rimt_new_empty |}.

(* device length (every device kind): u16 at offset 2 = the number of bytes the device occupies *)
Lemma rimt_device_length_exact s o e : rimt_addition s o = Some e ->
  field_at (a_bytes e) 2 2 = N.of_nat (length (a_bytes e)).
Proof. exact (walktable_entry_len_field rimt_walk 1 1 2 s o e eq_refl). Qed.

Lemma rimt_device_length_fits s o e : rimt_addition s o = Some e -> N.of_nat (length (a_bytes e)) < 2 ^ 16.
Proof.
  intros H. apply rimt_addition_cases in H as (d & _ & Hel & Hfit & ->). cbn [rimt_dev_addition a_bytes].
  rewrite (rimt_dev_length d Hel). change (2 ^ 16) with 65536. lia.
Qed.

Lemma rimt_iommu_exact s id base pci prox wires e :
  rimt_addition s (SL [SA 1; SA id; base; pci; prox; wires]) = Some e ->
  field_at (a_bytes e) 2 2 = N.of_nat (iommu_true_len wires) /\ length (a_bytes e) = iommu_true_len wires /\
  field_at (a_bytes e) 28 2 = N.of_nat (opt_list_count wires).
Proof.
  intros H. rewrite (rimt_device_length_exact _ _ _ H).
  apply rimt_addition_cases in H as (d & Hop & Hel & Hfit & ->). cbn [rimt_dev_addition a_bytes].
  inversion Hop as [? ? ? ? ? b p px ws _ _ _ Ew| |]; subst. rewrite (rimt_dev_length _ Hel).
  unfold iommu_true_len. rewrite <- (rimt_wires_count _ _ Ew). split; [reflexivity|]. split; [reflexivity|].
  apply (rimt_dev_field16 _ 28 _ Hfit eq_refl). cbn [rimt_dev_size]. lia.
Qed.

Lemma rimt_iommu_length_refuses s id base pci prox wires :
  2 ^ 16 <= N.of_nat (iommu_true_len wires) -> rimt_addition s (SL [SA 1; SA id; base; pci; prox; wires]) = None.
Proof.
  apply refused_by_size; intros e He.
  - exact (f_equal N.of_nat (proj1 (proj2 (rimt_iommu_exact _ _ _ _ _ _ e He)))).
  - exact (rimt_device_length_fits _ _ e He).
Qed.

Lemma rimt_iommu_count_refuses s id base pci prox wires :
  2 ^ 16 <= N.of_nat (opt_list_count wires) -> rimt_addition s (SL [SA 1; SA id; base; pci; prox; wires]) = None.
Proof.
  intros Hbig. apply rimt_iommu_length_refuses. change (2 ^ 16) with 65536 in *. unfold iommu_true_len. lia.
Qed.

Lemma rimt_pcierc_exact s id seg ats pri maps e :
  rimt_addition s (SL [SA 2; SA id; SA seg; SA ats; SA pri; maps]) = Some e ->
  field_at (a_bytes e) 2 2 = N.of_nat (pcierc_true_len maps) /\ length (a_bytes e) = pcierc_true_len maps /\
  field_at (a_bytes e) 14 2 = N.of_nat (opt_list_count maps).
Proof.
  intros H. rewrite (rimt_device_length_exact _ _ _ H).
  apply rimt_addition_cases in H as (d & Hop & Hel & Hfit & ->). cbn [rimt_dev_addition a_bytes].
  inversion Hop as [|? ? ? ? ? ms Em|]; subst. rewrite (rimt_dev_length _ Hel).
  unfold pcierc_true_len. rewrite <- (rimt_maps_count _ _ _ Em). split; [reflexivity|]. split; [reflexivity|].
  apply (rimt_dev_field16 _ 14 _ Hfit eq_refl). cbn [rimt_dev_size]. lia.
Qed.

Lemma rimt_pcierc_length_refuses s id seg ats pri maps :
  2 ^ 16 <= N.of_nat (pcierc_true_len maps) -> rimt_addition s (SL [SA 2; SA id; SA seg; SA ats; SA pri; maps]) = None.
Proof.
  apply refused_by_size; intros e He.
  - exact (f_equal N.of_nat (proj1 (proj2 (rimt_pcierc_exact _ _ _ _ _ _ e He)))).
  - exact (rimt_device_length_fits _ _ e He).
Qed.

Lemma rimt_pcierc_count_refuses s id seg ats pri maps :
  2 ^ 16 <= N.of_nat (opt_list_count maps) -> rimt_addition s (SL [SA 2; SA id; SA seg; SA ats; SA pri; maps]) = None.
Proof.
  intros Hbig. apply rimt_pcierc_length_refuses. change (2 ^ 16) with 65536 in *. unfold pcierc_true_len. lia.
Qed.

Lemma rimt_platform_exact s id name nm maps e : sx_bytes name = Some nm ->
  rimt_addition s (SL [SA 3; SA id; name; maps]) = Some e ->
  field_at (a_bytes e) 2 2 = N.of_nat (platform_true_len nm maps) /\ length (a_bytes e) = platform_true_len nm maps /\
  field_at (a_bytes e) 8 2 = N.of_nat (platform_true_moff nm) /\
  field_at (a_bytes e) 10 2 = N.of_nat (opt_list_count maps).
Proof.
  intros Hnm H. rewrite (rimt_device_length_exact _ _ _ H).
  apply rimt_addition_cases in H as (d & Hop & Hel & Hfit & ->). cbn [rimt_dev_addition a_bytes].
  inversion Hop as [| |? ? ? nm' ms En Em]; subst. rewrite Hnm in En. apply Some_inj in En. subst nm'.
  rewrite (rimt_dev_length _ Hel). unfold platform_true_len, platform_true_moff. rewrite <- (rimt_maps_count _ _ _ Em).
  split; [reflexivity|]. split; [reflexivity|].
  split; [apply (rimt_dev_field16 _ 8 _ Hfit eq_refl)|apply (rimt_dev_field16 _ 10 _ Hfit eq_refl)]; cbn [rimt_dev_size]; lia.
Qed.

Lemma rimt_platform_length_refuses s id name nm maps : sx_bytes name = Some nm ->
  2 ^ 16 <= N.of_nat (platform_true_len nm maps) -> rimt_addition s (SL [SA 3; SA id; name; maps]) = None.
Proof.
  intros Hnm. apply refused_by_size; intros e He.
  - exact (f_equal N.of_nat (proj1 (proj2 (rimt_platform_exact _ _ _ _ _ e Hnm He)))).
  - exact (rimt_device_length_fits _ _ e He).
Qed.

Lemma rimt_platform_moff_refuses s id name nm maps : sx_bytes name = Some nm ->
  2 ^ 16 <= N.of_nat (platform_true_moff nm) -> rimt_addition s (SL [SA 3; SA id; name; maps]) = None.
Proof.
  intros Hnm Hbig. apply (rimt_platform_length_refuses s id name nm maps Hnm).
  change (2 ^ 16) with 65536 in *. unfold platform_true_len. lia.
Qed.

Lemma rimt_platform_count_refuses s id name nm maps : sx_bytes name = Some nm ->
  2 ^ 16 <= N.of_nat (opt_list_count maps) -> rimt_addition s (SL [SA 3; SA id; name; maps]) = None.
Proof.
  intros Hnm Hbig. apply (rimt_platform_length_refuses s id name nm maps Hnm).
  change (2 ^ 16) with 65536 in *. unfold platform_true_len. lia.
Qed.

(* the refusals as refusals of the public operation, in both build modes *)
Corollary rimt_refused_both_modes md s o : rimt_addition s o = None -> rimt_step md s o = None.
Proof. apply add_step_refused. Qed.

(* C03 for this table: the walk over the emitted image finds exactly the devices, and the count field's source t_cnt is their number *)
Corollary rimt_tiles md c ops s0 s :
  rimt_new c = Some s0 -> run_adds rimt_addition md s0 ops = Some s -> N.of_nat (length (tbl_image s)) < 2 ^ 32 ->
  let first := (36 + length (mid (t_kind s) (t_pre s) 0))%nat in
  exists tys,
    Forall2 (self_describing H_u8_x_u16) (t_ents s) tys /\
    walk (length (t_ents s)) H_u8_x_u16 first (skipn first (tbl_image s)) = Some (walk_result first (t_ents s) tys) /\
    concat (t_ents s) = skipn first (tbl_image s) /\
    t_cnt s = N.of_nat (length (t_ents s)).
Proof. exact (walktable_tiles rimt_walk md c ops s0 s). Qed.

Corollary rimt_history_device_lengths md c ops s0 s :
  rimt_new c = Some s0 -> run_adds rimt_addition md s0 ops = Some s -> N.of_nat (length (tbl_image s)) < 2 ^ 32 ->
  Forall (fun e => field_at e 2 2 = N.of_nat (length e)) (t_ents s).
Proof. exact (walktable_history_len_fields rimt_walk 1 1 2 md c ops s0 s eq_refl). Qed.

Print Assumptions rimt_walk.
Print Assumptions rimt_device_length_exact.
Print Assumptions rimt_device_length_fits.
Print Assumptions rimt_iommu_exact.
Print Assumptions rimt_iommu_length_refuses.
Print Assumptions rimt_iommu_count_refuses.
Print Assumptions rimt_pcierc_exact.
Print Assumptions rimt_pcierc_length_refuses.
Print Assumptions rimt_pcierc_count_refuses.
Print Assumptions rimt_platform_exact.
Print Assumptions rimt_platform_length_refuses.
Print Assumptions rimt_platform_moff_refuses.
Print Assumptions rimt_platform_count_refuses.
Print Assumptions rimt_refused_both_modes.
Print Assumptions rimt_tiles.
Print Assumptions rimt_history_device_lengths.
