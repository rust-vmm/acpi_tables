(* What a table must provide to come under the generic theorems, and those theorems: `addtable` (constructor and additions with
   their obligations; every history keeps the invariant, so the image sums to 0 and declares its size: C01, C02; handles are
   offsets: C05) and `walktable` (every addition describes itself and the constructor leaves no entry; the walk finds exactly the
   entries: C03; every entry's own length field holds its size: C18).  The MADT's two records are here because `addtable` is
   defined after Proofs/MadtP.v; the other tables' records are in their own files, and Proofs/Registry.v lists them all. *)
From Coq Require Import ZArith List Lia.
From ACPI Require Import Lib.Bytes Lib.Sx Impl.Table Impl.Madt Spec.Layout Proofs.TableP Proofs.MadtP Proofs.WalkP
  Proofs.WalkW3Common Proofs.BaseP.
Import ListNotations.
Open Scope N_scope.

Record addtable := {
  at_name : list N;
  at_kind : tkind;
  at_new : sx -> option tbl;
  at_entry : tbl -> sx -> option addition;
  at_new_inv : forall c s0, at_new c = Some s0 -> Inv2 at_kind s0;
  at_sound : forall s o e, t_kind s = at_kind -> at_entry s o = Some e ->
    a_claimed e = N.of_nat (length (a_bytes e)) /\
    (needs_pos (t_kind s) = true -> (1 <= length (a_bytes e))%nat /\ a_claimed e < 2 ^ 16)
}.

Definition madt_table : addtable :=
  {| at_name := [77; 65; 68; 84]; at_kind := KMadt; at_new := madt_new; at_entry := madt_addition;
     at_new_inv := madt_new_inv; at_sound := madt_addition_sound |}.

Definition add_tables_core : list addtable := [madt_table].

Lemma addtable_reach (T : addtable) md c ops s0 s :
  at_new T c = Some s0 -> run_adds (at_entry T) md s0 ops = Some s ->
  N.of_nat (length (tbl_image s)) < 2 ^ 32 -> Inv2 (at_kind T) s.
Proof.
  intros Hn Hr Hfit.
  exact (run_adds_inv (at_kind T) (at_entry T) (at_sound T) md ops s0 s (at_new_inv T c s0 Hn) Hr Hfit).
Qed.

(* C01 and C02 for every `addtable`, every constructor argument and every history *)
Theorem addtable_sum_len (T : addtable) md c ops s0 s :
  at_new T c = Some s0 -> run_adds (at_entry T) md s0 ops = Some s -> N.of_nat (length (tbl_image s)) < 2 ^ 32 ->
  sum8 (tbl_image s) = 0 /\ field_at (tbl_image s) 4 4 = N.of_nat (length (tbl_image s)).
Proof.
  intros Hn Hr Hfit. destruct (addtable_reach T md c ops s0 s Hn Hr Hfit) as [I _].
  split; [exact (inv_sum8_zero s I)|exact (image_len_field s I Hfit)].
Qed.

Record walktable := {
  wt_table : addtable;
  wt_ehdr : ehdr;
  wt_self : forall s o e, at_entry wt_table s o = Some e -> exists ty, self_describing wt_ehdr (a_bytes e) ty;
  wt_new_empty : forall c s0, at_new wt_table c = Some s0 -> t_ents s0 = []
}.

Definition madt_walk : walktable :=
  {| wt_table := madt_table; wt_ehdr := H_u8_u8; wt_self := madt_addition_self; wt_new_empty := madt_new_empty |}.

Lemma forall_self_tys h (es : list (list N)) :
  Forall (fun e => exists ty, self_describing h e ty) es -> exists tys, Forall2 (self_describing h) es tys.
Proof.
  induction es as [|e es IH]; intros H; [exists []; constructor|].
  inversion H as [|? ? [ty Hty] Hr]; subst. destruct (IH Hr) as [tys Htys]. exists (ty :: tys). now constructor.
Qed.

Lemma tiles_of_entries h s : Inv s -> N.of_nat (length (tbl_image s)) < 2 ^ 32 ->
  Forall (fun e => exists ty, self_describing h e ty) (t_ents s) ->
  let first := (36 + length (mid (t_kind s) (t_pre s) 0))%nat in
  exists tys,
    Forall2 (self_describing h) (t_ents s) tys /\
    walk (length (t_ents s)) h first (skipn first (tbl_image s)) = Some (walk_result first (t_ents s) tys) /\
    concat (t_ents s) = skipn first (tbl_image s) /\
    t_cnt s = N.of_nat (length (t_ents s)).
Proof.
  intros I Hfit HF first. destruct (forall_self_tys _ _ HF) as [tys Htys].
  destruct (image_split s (inv_hdr s I)) as (pre & Hs & Hl).
  exists tys. split; [exact Htys|].
  assert (Hsk : skipn first (tbl_image s) = t_body s).
  { rewrite Hs. unfold first. rewrite <- Hl. apply skipn_app_exact. }
  rewrite Hsk. split; [|split; [reflexivity|exact (inv_cnt s I)]].
  apply walk_concat; [exact Htys|lia].
Qed.

Lemma walktable_entries (W : walktable) md c ops s0 s :
  at_new (wt_table W) c = Some s0 -> run_adds (at_entry (wt_table W)) md s0 ops = Some s ->
  N.of_nat (length (tbl_image s)) < 2 ^ 32 ->
  Forall (fun e => exists ty, self_describing (wt_ehdr W) e ty) (t_ents s).
Proof.
  intros Hn Hr Hfit.
  apply (run_adds_forall (at_kind (wt_table W)) (at_entry (wt_table W)) (at_sound (wt_table W)) _ md ops s0 s);
    [exact (wt_self W)|exact (at_new_inv (wt_table W) c s0 Hn)|exact Hr|exact Hfit|].
  rewrite (wt_new_empty W c s0 Hn). constructor.
Qed.

(* C03 for every `walktable` *)
Lemma walktable_tiles (W : walktable) md c ops s0 s :
  at_new (wt_table W) c = Some s0 -> run_adds (at_entry (wt_table W)) md s0 ops = Some s ->
  N.of_nat (length (tbl_image s)) < 2 ^ 32 ->
  let first := (36 + length (mid (t_kind s) (t_pre s) 0))%nat in
  exists tys,
    Forall2 (self_describing (wt_ehdr W)) (t_ents s) tys /\
    walk (length (t_ents s)) (wt_ehdr W) first (skipn first (tbl_image s)) = Some (walk_result first (t_ents s) tys) /\
    concat (t_ents s) = skipn first (tbl_image s) /\
    t_cnt s = N.of_nat (length (t_ents s)).
Proof.
  intros Hn Hr Hfit.
  exact (tiles_of_entries _ s (proj1 (addtable_reach (wt_table W) md c ops s0 s Hn Hr Hfit)) Hfit
           (walktable_entries W md c ops s0 s Hn Hr Hfit)).
Qed.

Section Walktable.
  Variable W : walktable.

  (* C18 for the entry's own length field *)
  Lemma walktable_entry_len_field tw p lw s o e : hdr_fmt (wt_ehdr W) = Some (tw, p, lw) ->
    at_entry (wt_table W) s o = Some e -> field_at (a_bytes e) (tw + p) lw = N.of_nat (length (a_bytes e)).
  Proof. intros Hf H. destruct (wt_self W s o e H) as [ty Hty]. exact (self_len_field _ _ _ _ _ _ Hf Hty). Qed.

  Lemma walktable_history_len_fields tw p lw md c ops s0 s : hdr_fmt (wt_ehdr W) = Some (tw, p, lw) ->
    at_new (wt_table W) c = Some s0 -> run_adds (at_entry (wt_table W)) md s0 ops = Some s ->
    N.of_nat (length (tbl_image s)) < 2 ^ 32 ->
    Forall (fun e => field_at e (tw + p) lw = N.of_nat (length e)) (t_ents s).
  Proof.
    intros Hf Hn Hr Hfit. eapply Forall_impl; [|exact (walktable_entries W md c ops s0 s Hn Hr Hfit)].
    intros e [ty Hty]. exact (self_len_field _ _ _ _ _ _ Hf Hty).
  Qed.

  Lemma walktable_fixed_body_size n md c ops s0 s : wt_ehdr W = H_fixed n ->
    at_new (wt_table W) c = Some s0 -> run_adds (at_entry (wt_table W)) md s0 ops = Some s ->
    N.of_nat (length (tbl_image s)) < 2 ^ 32 ->
    Forall (fun e => length e = n) (t_ents s) /\
    length (tbl_image s) = (36 + length (mid (at_kind (wt_table W)) (t_pre s) 0) + n * length (t_ents s))%nat.
  Proof.
    intros Hh Hn Hr Hfit.
    assert (HF : Forall (fun e => length e = n) (t_ents s)).
    { eapply Forall_impl; [|exact (walktable_entries W md c ops s0 s Hn Hr Hfit)].
      rewrite Hh. intros e [ty Hty]. exact (fixed_self_length _ _ _ Hty). }
    split; [exact HF|].
    destruct (addtable_reach (wt_table W) md c ops s0 s Hn Hr Hfit) as (I & Hk & _).
    rewrite (length_image s (inv_hdr s I)), Hk. unfold t_body. rewrite (length_concat_const n _ HF). lia.
  Qed.
End Walktable.

(* C05, from the constructor: handles are offsets in every later image *)
Lemma handle_offset_from_ctor (T : addtable) md c pre s0 s o s1 evs ops s' :
    at_new T c = Some s0 -> run_adds (at_entry T) md s0 pre = Some s ->
    add_step (at_entry T) md s o = Some (s1, evs) -> run_adds (at_entry T) md s1 ops = Some s' ->
    N.of_nat (length (tbl_image s')) < 2 ^ 32 ->
    exists e tail, at_entry T s o = Some e /\
      evs = [EvNum (if a_returns e then N.of_nat (length (tbl_image s)) else 0)] /\
      skipn (length (tbl_image s)) (tbl_image s') = a_bytes e ++ concat tail /\
      skipn (length (tbl_image s)) (tbl_image s1) = a_bytes e.
Proof.
  intros Hn Hpre Hstep Hrun Hfit.
  assert (I0 : Inv2 (at_kind T) s0) by (eapply at_new_inv; eauto).
  pose proof (inv_hdr s0 (proj1 I0)) as Hh0.
  pose proof (proj1 (run_adds_hdr_grows (at_entry T) md pre s0 s Hh0 Hpre)) as Hh.
  destruct (add_step_grows (at_entry T) md s o s1 evs Hh Hstep) as [Hh1 Hg1].
  pose proof (proj2 (run_adds_hdr_grows (at_entry T) md ops s1 s' Hh1 Hrun)) as Hg2.
  assert (I : Inv2 (at_kind T) s) by (eapply addtable_reach; eauto; lia).
  exact (handle_is_offset (at_kind T) (at_entry T) (at_sound T) md s o s1 evs ops s' I Hstep Hrun Hfit).
Qed.
