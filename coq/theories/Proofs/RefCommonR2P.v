(* What a case reports when its history is observed once at the end (one number per operation, then the image), for
   any state machine run by Impl/Run.v; and lists described index by index as the [map] / row-major [flat_map] the
   specifications write (HMAT, SLIT). *)
From Coq Require Import NArith List Lia Arith.
From ACPI Require Import Lib.Bytes Lib.Sx Impl.Run Spec.HmatS Proofs.FixedP Proofs.BaseP.
Import ListNotations.
Open Scope N_scope.

Definition is_num (e : ev) : Prop := exists n, e = EvNum n.

(* a history of calls, without observation markers *)
Definition all_calls (ops : list sx) : Prop := Forall (fun o => match o with SL _ => True | SA _ => False end) ops.

Section CaseEvents.
  Context {S : Type}.
  Variable image : S -> option (list N).
  Variable step : S -> sx -> option (S * list ev).
  Variable P : N -> Prop.
  Hypothesis step_num : forall s o s1 e, step s o = Some (s1, e) -> exists n, e = [EvNum n] /\ P n.

  Lemma run_ops_acc_end ops : forall s acc s' r,
    all_calls ops -> run_steps step s ops = Some s' -> image s' = Some r ->
    exists ns, Forall P ns /\ length ns = length ops /\
      run_ops_acc image step s (ops ++ [SA 1]) acc = rev acc ++ map EvNum ns ++ [EvBytes r].
  Proof.
    induction ops as [|o ops IH]; intros s acc s' r Hl Hr Hi.
    - injection Hr as <-. exists []. cbn [app run_ops_acc map]. rewrite Hi, frev_rev. auto.
    - inversion Hl as [|x y Ho Hl']; subst. destruct o as [|l]; [contradiction|]. cbn [run_steps] in Hr.
      destruct (step s (SL l)) as [[s1 e]|] eqn:E; [|discriminate].
      destruct (step_num _ _ _ _ E) as (n & -> & Hn).
      destruct (IH s1 (EvNum n :: acc) s' r Hl' Hr Hi) as (ns & HP & Hlen & Hrun).
      exists (n :: ns). split; [now constructor|]. split; [cbn [length]; now rewrite Hlen|].
      cbn [app run_ops_acc]. rewrite E. cbn [rev_append]. rewrite Hrun. cbn [rev map]. now rewrite <- app_assoc.
  Qed.

  Lemma run_history_end new ctor ops s0 s r :
    all_calls ops -> new ctor = Some s0 -> run_steps step s0 ops = Some s -> image s = Some r ->
    exists ns, Forall P ns /\ length ns = length ops /\
      run_history image step new (SL (ctor :: ops ++ [SA 1])) = map EvNum ns ++ [EvBytes r].
  Proof. intros Hl Hn Hr Hi. cbn [run_history]. rewrite Hn. exact (run_ops_acc_end ops s0 [] s r Hl Hr Hi). Qed.
End CaseEvents.

Lemma nums_are_num ns : Forall is_num (map EvNum ns).
Proof. apply Forall_forall. intros e He. apply in_map_iff in He. destruct He as (n & <- & _). now exists n. Qed.

(* a list described index by index is the [map] the specification writes *)
Lemma list_is_map (f : N -> N) n (l : list N) : length l = N.to_nat n ->
  (forall i, i < n -> nth (N.to_nat i) l 0 = f i) -> l = map f (seqN n).
Proof.
  intros Hl H. apply (nth_ext _ _ 0 0).
  - rewrite map_length, length_seqN. exact Hl.
  - intros k Hk. rewrite nth_seqN_map by lia. rewrite <- (H (N.of_nat k)) by lia. rewrite Nat2N.id. reflexivity.
Qed.

Lemma nth_flat_map_rows (g : nat -> list N) T : (forall r, length (g r) = T) ->
  forall n a i j, (i < n)%nat -> (j < T)%nat ->
  nth (i * T + j) (flat_map g (seq a n)) 0 = nth j (g (a + i)%nat) 0.
Proof.
  intros Hg. induction n as [|n IH]; intros a i j Hi Hj; [lia|].
  cbn [seq flat_map]. destruct i as [|i].
  - cbn [Nat.mul Nat.add]. rewrite app_nth1 by (rewrite Hg; exact Hj). rewrite Nat.add_0_r. reflexivity.
  - rewrite app_nth2 by (rewrite Hg; lia). rewrite Hg.
    replace (S i * T + j - T)%nat with (i * T + j)%nat by lia.
    rewrite IH by lia. f_equal. f_equal. lia.
Qed.

(* a list of I * T values described cell by cell, cell (i, j) at index i * T + j, is the matrix the specification writes *)
Lemma list_is_matrix (c : N -> N -> N) nI nT (l : list N) : N.of_nat (length l) = nI * nT ->
  (forall i j, i < nI -> j < nT -> nth (N.to_nat (i * nT + j)) l 0 = c i j) ->
  l = flat_map (fun i => map (fun j => c i j) (seqN nT)) (seqN nI).
Proof.
  intros Hl H.
  set (g := fun r : nat => map (fun j => c (N.of_nat r) j) (seqN nT)).
  assert (Hg : forall r, length (g r) = N.to_nat nT) by (intros r; unfold g; rewrite map_length, length_seqN; reflexivity).
  assert (Efm : flat_map (fun i => map (fun j => c i j) (seqN nT)) (seqN nI) = flat_map g (seq 0 (N.to_nat nI))).
  { unfold seqN at 2. rewrite flat_map_concat_map, map_map, <- flat_map_concat_map. reflexivity. }
  rewrite Efm. apply (nth_ext _ _ 0 0).
  - rewrite (length_flat_map_const g (N.to_nat nT)) by exact Hg. rewrite seq_length. lia.
  - intros k Hk.
    assert (HT : nT <> 0) by (intros ->; lia).
    set (i := (k / N.to_nat nT)%nat). set (j := (k mod N.to_nat nT)%nat).
    assert (HTn : N.to_nat nT <> 0%nat) by lia.
    assert (Hk2 : k = (i * N.to_nat nT + j)%nat).
    { unfold i, j. rewrite Nat.mul_comm. apply Nat.div_mod. exact HTn. }
    assert (Hj : (j < N.to_nat nT)%nat) by (unfold j; apply Nat.mod_upper_bound; exact HTn).
    assert (Hi : (i < N.to_nat nI)%nat).
    { assert (Hk3 : (k < N.to_nat nI * N.to_nat nT)%nat) by lia.
      unfold i. apply Nat.div_lt_upper_bound; [exact HTn|]. lia. }
    rewrite Hk2 at 2. rewrite (nth_flat_map_rows g (N.to_nat nT) Hg) by assumption.
    cbn [Nat.add]. unfold g. rewrite nth_seqN_map by exact Hj.
    rewrite <- (H (N.of_nat i) (N.of_nat j)) by lia. f_equal. lia.
Qed.
