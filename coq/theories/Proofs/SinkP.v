(* Only the concatenation of the bytes matters to a sink, never how they are chunked (C14). *)
From Coq Require Import NArith List Lia.
From ACPI Require Import Lib.Bytes Impl.Checksum Impl.Sink Proofs.ChecksumP.
Import ListNotations.
Open Scope N_scope.

(* the typed entry points (word, dword, qword) can only deliver bytes; `byte` and `vec` deliver what the caller hands them *)
Lemma byte_in_range_call c : bytes_ok (call_bytes c) = true \/ (exists b, c = SByte b) \/ (exists l, c = SVec l).
Proof. destruct c; cbn [call_bytes]; auto using le_bytes_ok; right; [left|right]; eauto. Qed.

Lemma flatten_bytes l : flatten (map SByte l) = l.
Proof. induction l as [|b l IH]; [reflexivity|]. unfold flatten in *. cbn [map concat call_bytes app]. now rewrite IH. Qed.

Section Default.
  Context {S : Type}.
  Variable bytef : S -> N -> S.

  Lemma d_call_flat s c : d_call bytef s c = fold_left bytef (call_bytes c) s.
  Proof. destruct c; reflexivity. Qed.

  Lemma run_default_flat t : forall s, run_default bytef s t = fold_left bytef (flatten t) s.
  Proof.
    induction t as [|c t IH]; intros s; [reflexivity|].
    unfold run_default, flatten in *. cbn [fold_left map concat]. rewrite fold_left_app, IH, d_call_flat. reflexivity.
  Qed.
End Default.

Lemma run_vec_flat t : forall s, run_vec s t = s ++ flatten t.
Proof.
  induction t as [|c t IH]; intros s; unfold run_vec, flatten in *; cbn [fold_left map concat]; [now rewrite app_nil_r|].
  rewrite IH. destruct c; cbn [vec_call call_bytes]; now rewrite <- app_assoc.
Qed.

Lemma run_cksum_flat t s : run_cksum s t = ck_append s (flatten t).
Proof. unfold run_cksum. rewrite run_default_flat. reflexivity. Qed.

(* u8sum(x) = Checksum::default() fed with x's trace = the arithmetic sum of the serialised bytes mod 256 *)
Lemma u8sum_is_sum8 t : run_cksum 0 t = sum8 (flatten t).
Proof. rewrite run_cksum_flat. rewrite ck_append_sum8 by lia. rewrite N.add_0_l. reflexivity. Qed.
