(* EISA id compression and ToUUID byte order. *)
From Coq Require Import NArith List Lia Bool Arith.
From ACPI Require Import Lib.Bytes Lib.Machine Impl.AmlCore Spec.AmlCoreS Proofs.BitsP Proofs.BaseP.
Import ListNotations.
Open Scope N_scope.

Lemma hex_upper_digit h : is_hex_upper h = true ->
  exists d, hex_digit h = Some d /\ d < 16 /\ hex_char d = h.
Proof.
  unfold is_hex_upper, hex_digit, hex_char.
  destruct (range_spec 48 57 h), (range_spec 65 70 h), (range_spec 97 102 h); try discriminate; try lia; intros _;
    eexists; (split; [reflexivity|]); (split; [lia|]);
    match goal with |- context [?d <? 10] => destruct (N.ltb_spec d 10) end; lia.
Qed.

Lemma hex_digit_lt c d : hex_digit c = Some d -> d < 16.
Proof.
  unfold hex_digit.
  destruct (range_spec 48 57 c); [|destruct (range_spec 97 102 c); [|destruct (range_spec 65 70 c); [|discriminate]]];
    intros E; injection E as <-; lia.
Qed.

Lemma upper_letter c : is_upper c = true -> exists a, sub_c c 0x40 = Some a /\ 1 <= a <= 26 /\ 0x40 + a = c.
Proof.
  unfold is_upper, sub_c. destruct (range_spec 65 90 c); [|discriminate]. intros _.
  exists (c - 64). destruct (N.leb_spec 64 c); [|lia]. repeat split; lia.
Qed.

Lemma rev_le_bytes_ok w x : bytes_ok (rev (le w x)) = true.
Proof.
  unfold bytes_ok. rewrite forallb_forall. intros y Hy. apply in_rev in Hy.
  exact (proj1 (forallb_forall _ _) (le_bytes_ok w x) y Hy).
Qed.

Lemma swap_bytes32_invol x : x < 2 ^ 32 -> unle (rev (le 4 (swap_bytes32 x))) = x.
Proof.
  intros H. unfold swap_bytes32.
  pose proof (le_unle _ (rev_le_bytes_ok 4 x)) as E. rewrite rev_length, length_le in E. rewrite E.
  rewrite rev_involutive. apply unle_le_small. exact H.
Qed.

Lemma swap_bytes32_lt x : swap_bytes32 x < 2 ^ 32.
Proof.
  pose proof (unle_bound _ (rev_le_bytes_ok 4 x)) as B. rewrite rev_length, length_le in B. exact B.
Qed.

Lemma eisa_value_lt s v : eisa_value s = Some v -> v < 2 ^ 32.
Proof.
  destruct s as [|c0 [|c1 [|c2 [|h3 [|h4 [|h5 [|h6 [|x s]]]]]]]]; try discriminate. cbn [eisa_value]. intros H.
  repeat (apply bind_Some in H; destruct H as (? & _ & H)). injection H as <-. apply swap_bytes32_lt.
Qed.

Definition eisa_pack (a0 a1 a2 d3 d4 d5 d6 : N) : N :=
  a0 * 2 ^ 26 + a1 * 2 ^ 21 + a2 * 2 ^ 16 + d3 * 2 ^ 12 + d4 * 2 ^ 8 + d5 * 2 ^ 4 + d6.

Lemma eisa_pack_horner a0 a1 a2 d3 d4 d5 d6 :
  eisa_pack a0 a1 a2 d3 d4 d5 d6 = (((((a0 * 32 + a1) * 32 + a2) * 16 + d3) * 16 + d4) * 16 + d5) * 16 + d6.
Proof. unfold eisa_pack. lia. Qed.

Lemma eisa_lors a0 a1 a2 d3 d4 d5 d6 :
  a0 < 32 -> a1 < 32 -> a2 < 32 -> d3 < 16 -> d4 < 16 -> d5 < 16 -> d6 < 16 ->
  N.lor (N.lor (N.lor (N.lor (N.lor (N.lor
     (cast U32 (N.shiftl a0 26)) (cast U32 (N.shiftl a1 21))) (cast U32 (N.shiftl a2 16)))
     (N.shiftl d3 12)) (N.shiftl d4 8)) (N.shiftl d5 4)) d6 = eisa_pack a0 a1 a2 d3 d4 d5 d6.
Proof.
  intros. unfold cast, U32, eisa_pack. rewrite !shiftl_mul, !N.mod_small by lia.
  rewrite (lor_field a0 26 _ (a1 * 2 ^ 21)), (lor_field (a0 * 32 + a1) 21 _ (a2 * 2 ^ 16)),
    (lor_field ((a0 * 32 + a1) * 32 + a2) 16 _ (d3 * 2 ^ 12)),
    (lor_field (((a0 * 32 + a1) * 32 + a2) * 16 + d3) 12 _ (d4 * 2 ^ 8)),
    (lor_field ((((a0 * 32 + a1) * 32 + a2) * 16 + d3) * 16 + d4) 8 _ (d5 * 2 ^ 4)),
    (lor_field (((((a0 * 32 + a1) * 32 + a2) * 16 + d3) * 16 + d4) * 16 + d5) 4 _ d6); lia.
Qed.

Lemma last_field h d b : b <> 0 -> d < b -> (h * b + d) / b = h /\ (h * b + d) mod b = d.
Proof.
  intros Hb Hd. split.
  - rewrite N.div_add_l, N.div_small by assumption. apply N.add_0_r.
  - rewrite N.add_comm, N.mod_add by assumption. now apply N.mod_small.
Qed.

Lemma eisa_unpack a0 a1 a2 d3 d4 d5 d6 :
  a0 < 32 -> a1 < 32 -> a2 < 32 -> d3 < 16 -> d4 < 16 -> d5 < 16 -> d6 < 16 ->
  let x := eisa_pack a0 a1 a2 d3 d4 d5 d6 in
  x < 2 ^ 32 /\ (x / 2 ^ 26) mod 32 = a0 /\ (x / 2 ^ 21) mod 32 = a1 /\ (x / 2 ^ 16) mod 32 = a2 /\
  (x / 2 ^ 12) mod 16 = d3 /\ (x / 2 ^ 8) mod 16 = d4 /\ (x / 2 ^ 4) mod 16 = d5 /\ x mod 16 = d6.
Proof.
  intros A0 A1 A2 D3 D4 D5 D6 x. split.
  { unfold x, eisa_pack. lia. }
  unfold x. rewrite eisa_pack_horner.
  (* peel the fields off one by one: 2^4, 2^8, ... are the products of the widths peeled so far *)
  change (2 ^ 26) with (16 * 16 * 16 * 16 * 32 * 32). change (2 ^ 21) with (16 * 16 * 16 * 16 * 32).
  change (2 ^ 16) with (16 * 16 * 16 * 16). change (2 ^ 12) with (16 * 16 * 16). change (2 ^ 8) with (16 * 16). change (2 ^ 4) with 16.
  rewrite <- !N.div_div by discriminate.
  destruct (last_field (((((a0 * 32 + a1) * 32 + a2) * 16 + d3) * 16 + d4) * 16 + d5) d6 16) as [Q6 R6]; [discriminate|exact D6|].
  destruct (last_field ((((a0 * 32 + a1) * 32 + a2) * 16 + d3) * 16 + d4) d5 16) as [Q5 R5]; [discriminate|exact D5|].
  destruct (last_field (((a0 * 32 + a1) * 32 + a2) * 16 + d3) d4 16) as [Q4 R4]; [discriminate|exact D4|].
  destruct (last_field ((a0 * 32 + a1) * 32 + a2) d3 16) as [Q3 R3]; [discriminate|exact D3|].
  destruct (last_field (a0 * 32 + a1) a2 32) as [Q2 R2]; [discriminate|exact A2|].
  destruct (last_field a0 a1 32) as [Q1 R1]; [discriminate|exact A1|].
  rewrite Q6, Q5, Q4, Q3, Q2, Q1, (N.mod_small a0 32) by exact A0. auto 8.
Qed.

Lemma eisa_value_pack c0 c1 c2 h3 h4 h5 h6 d3 d4 d5 d6 :
  is_upper c0 = true -> is_upper c1 = true -> is_upper c2 = true ->
  hex_digit h3 = Some d3 -> hex_digit h4 = Some d4 -> hex_digit h5 = Some d5 -> hex_digit h6 = Some d6 ->
  1 <= c0 - 64 < 32 /\ 1 <= c1 - 64 < 32 /\ 1 <= c2 - 64 < 32 /\
  eisa_value [c0; c1; c2; h3; h4; h5; h6] = Some (swap_bytes32 (eisa_pack (c0 - 64) (c1 - 64) (c2 - 64) d3 d4 d5 d6)).
Proof.
  intros G0 G1 G2 F3 F4 F5 F6.
  destruct (upper_letter c0 G0) as (a0 & E0 & B0 & R0).
  destruct (upper_letter c1 G1) as (a1 & E1 & B1 & R1).
  destruct (upper_letter c2 G2) as (a2 & E2 & B2 & R2).
  pose proof (hex_digit_lt _ _ F3). pose proof (hex_digit_lt _ _ F4). pose proof (hex_digit_lt _ _ F5). pose proof (hex_digit_lt _ _ F6).
  unfold eisa_value. rewrite E0, E1, E2, F3, F4, F5, F6. cbn [option_bind]. rewrite eisa_lors by lia.
  replace (c0 - 64) with a0 by lia. replace (c1 - 64) with a1 by lia. replace (c2 - 64) with a2 by lia.
  repeat split; lia.
Qed.

Lemma eisa_roundtrip s :
  valid_eisa s = true ->
  exists v, eisa_value s = Some v /\ v < 2 ^ 32 /\ eisa_decompress v = s.
Proof.
  destruct s as [|c0 [|c1 [|c2 [|h3 [|h4 [|h5 [|h6 [|x s]]]]]]]]; cbn [valid_eisa]; try discriminate.
  intros H.
  apply andb_true_iff in H; destruct H as [H G6]. apply andb_true_iff in H; destruct H as [H G5].
  apply andb_true_iff in H; destruct H as [H G4]. apply andb_true_iff in H; destruct H as [H G3].
  apply andb_true_iff in H; destruct H as [H G2]. apply andb_true_iff in H; destruct H as [G0 G1].
  destruct (hex_upper_digit h3 G3) as (d3 & F3 & L3 & C3).
  destruct (hex_upper_digit h4 G4) as (d4 & F4 & L4 & C4).
  destruct (hex_upper_digit h5 G5) as (d5 & F5 & L5 & C5).
  destruct (hex_upper_digit h6 G6) as (d6 & F6 & L6 & C6).
  destruct (eisa_value_pack c0 c1 c2 h3 h4 h5 h6 d3 d4 d5 d6 G0 G1 G2 F3 F4 F5 F6) as (A0 & A1 & A2 & ->).
  destruct (eisa_unpack _ _ _ d3 d4 d5 d6 (proj2 A0) (proj2 A1) (proj2 A2) L3 L4 L5 L6) as (Hx & U0 & U1 & U2 & U3 & U4 & U5 & U6).
  eexists. split; [reflexivity|]. split; [apply swap_bytes32_lt|].
  unfold eisa_decompress. rewrite swap_bytes32_invol by exact Hx.
  rewrite U0, U1, U2, U3, U4, U5, U6, C3, C4, C5, C6.
  replace (0x40 + (c0 - 64)) with c0 by (clear - A0; lia). replace (0x40 + (c1 - 64)) with c1 by (clear - A1; lia).
  replace (0x40 + (c2 - 64)) with c2 by (clear - A2; lia).
  reflexivity.
Qed.

Lemma eisa_emitted s v : eisa_value s = Some v -> eisa_enc s = Some (enc_u32 v).
Proof. intros H. unfold eisa_enc. now rewrite H. Qed.

Lemma eisa_refuse_length s : length s <> 7%nat -> eisa_value s = None.
Proof.
  destruct s as [|c0 [|c1 [|c2 [|h3 [|h4 [|h5 [|h6 [|x s]]]]]]]]; cbn [length]; try reflexivity. lia.
Qed.

Lemma eisa_refuse_digit c0 c1 c2 h3 h4 h5 h6 :
  hex_digit h3 = None \/ hex_digit h4 = None \/ hex_digit h5 = None \/ hex_digit h6 = None ->
  eisa_value [c0; c1; c2; h3; h4; h5; h6] = None.
Proof.
  intros H. unfold eisa_value.
  destruct (sub_c c0 64); [|reflexivity]. destruct (sub_c c1 64); [|reflexivity]. destruct (sub_c c2 64); [|reflexivity].
  cbn [option_bind].
  destruct (hex_digit h3); [|reflexivity]. destruct (hex_digit h4); [|reflexivity].
  destruct (hex_digit h5); [|reflexivity]. destruct (hex_digit h6); [|reflexivity].
  destruct H as [H|[H|[H|H]]]; discriminate.
Qed.

Definition hexv (c : N) : N := match hex_digit c with Some d => d | None => 0 end.

Lemma hex_any_digit c : is_hex_any c = true ->
  hex_digit c = Some (hexv c) /\ hexv c < 16 /\ hex_char_lower (hexv c) = to_lower c.
Proof.
  unfold is_hex_any, hexv, hex_digit, hex_char_lower, to_lower.
  destruct (range_spec 48 57 c); [|destruct (range_spec 97 102 c); [|destruct (range_spec 65 70 c); [|discriminate]]];
    intros _; (destruct (range_spec 65 90 c); [try lia|try lia]); (split; [reflexivity|]); (split; [lia|]);
    match goal with |- context [?d <? 10] => destruct (N.ltb_spec d 10) end; lia.
Qed.

Lemma hex2byte_ok c1 c2 : is_hex_any c1 = true -> is_hex_any c2 = true ->
  hex2byte c1 c2 = Some (16 * hexv c1 + hexv c2) /\ byte_hex (16 * hexv c1 + hexv c2) = [to_lower c1; to_lower c2].
Proof.
  intros H1 H2. destruct (hex_any_digit c1 H1) as (E1 & L1 & R1). destruct (hex_any_digit c2 H2) as (E2 & L2 & R2).
  unfold hex2byte. rewrite E1, E2. cbn [option_bind]. split.
  - f_equal. rewrite shiftl_mul. change (2 ^ 4) with 16. unfold cast, U8.
    rewrite N.mod_small by lia. rewrite (lor_add_low (hexv c1 * 16) (hexv c2) 4); lia.
  - unfold byte_hex. replace ((16 * hexv c1 + hexv c2) / 16) with (hexv c1) by lia.
    replace ((16 * hexv c1 + hexv c2) mod 16) with (hexv c2) by lia. congruence.
Qed.

Lemma byte_hex_app a b l l' : is_hex_any a = true -> is_hex_any b = true -> l = l' ->
  byte_hex (16 * hexv a + hexv b) ++ l = to_lower a :: to_lower b :: l'.
Proof. intros Ha Hb ->. now rewrite (proj2 (hex2byte_ok a b Ha Hb)). Qed.

Lemma dash_app x l l' : x = 45 -> l = l' -> [45] ++ l = to_lower x :: l'.
Proof. intros -> ->. reflexivity. Qed.

Lemma hex_pairs (c : nat -> N) ps :
  Forall (fun ij => is_hex_any (c (fst ij)) = true /\ is_hex_any (c (snd ij)) = true) ps ->
  opt_all (map (fun '(i, j) => hex2byte (c i) (c j)) ps) = Some (map (fun '(i, j) => 16 * hexv (c i) + hexv (c j)) ps).
Proof.
  intros H. apply opt_all_map_some. intros [i j] Hin. destruct (proj1 (Forall_forall _ _) H _ Hin) as [Hi Hj].
  exact (proj1 (hex2byte_ok _ _ Hi Hj)).
Qed.

Lemma list_nth_seq (s : list N) : s = map (fun i => nth i s 0) (seq 0 (length s)).
Proof.
  induction s as [|a s IH]; [reflexivity|]. cbn [length seq map nth]. rewrite <- seq_shift, map_map. cbn [nth].
  now rewrite <- IH.
Qed.

Lemma canonical_uuid_spec s :
  canonical_uuid s = true ->
  length s = 36%nat /\
  (forall i, Nat.ltb i 36 = true -> existsb (Nat.eqb i) [8; 13; 18; 23]%nat = true -> nth i s 0 = 45) /\
  (forall i, Nat.ltb i 36 = true -> existsb (Nat.eqb i) [8; 13; 18; 23]%nat = false -> is_hex_any (nth i s 0) = true) /\
  uuid_bytes s = Some (map (fun '(i, j) => 16 * hexv (nth i s 0) + hexv (nth j s 0)) uuid_order).
Proof.
  unfold canonical_uuid. intros H. apply andb_true_iff in H. destruct H as [Hlen Hall]. apply Nat.eqb_eq in Hlen.
  assert (Hc : forall i, Nat.ltb i 36 = true ->
                 (if existsb (Nat.eqb i) [8; 13; 18; 23]%nat then nth i s 0 =? 45 else is_hex_any (nth i s 0)) = true).
  { intros i Hi. apply Nat.ltb_lt in Hi. apply (proj1 (forallb_forall _ _) Hall). apply in_seq. lia. }
  assert (Hd : forall i, Nat.ltb i 36 = true -> existsb (Nat.eqb i) [8; 13; 18; 23]%nat = true -> nth i s 0 = 45).
  { intros i Hi E. specialize (Hc i Hi). rewrite E in Hc. now apply N.eqb_eq. }
  assert (Hh : forall i, Nat.ltb i 36 = true -> existsb (Nat.eqb i) [8; 13; 18; 23]%nat = false -> is_hex_any (nth i s 0) = true).
  { intros i Hi E. specialize (Hc i Hi). rewrite E in Hc. exact Hc. }
  repeat split; try assumption.
  unfold uuid_bytes. rewrite Hlen, !Hd by reflexivity. cbn [Nat.eqb N.eqb Pos.eqb andb assert option_bind].
  apply (hex_pairs (fun i => nth i s 0)). repeat constructor; cbn [fst snd]; apply Hh; reflexivity.
Qed.

(* the ToUUID order of the model ([uuid_order]) and the specification's reading ([uuid_to_string]) are inverse:
   each of the groups 8-4-4-4-12 of the text comes back from the bytes it was packed into, a byte ([byte_hex_app]) or a dash
   ([dash_app]) at a time *)
Lemma uuid_roundtrip s :
  canonical_uuid s = true ->
  exists b, uuid_bytes s = Some b /\ length b = 16%nat /\ uuid_to_string b = map to_lower s.
Proof.
  intros H. destruct (canonical_uuid_spec s H) as (Hlen & Hd & Hh & Hb).
  eexists. split; [exact Hb|split; [reflexivity|]].
  rewrite (list_nth_seq s) at 1. rewrite Hlen.
  cbn [uuid_order map seq]. unfold uuid_to_string. cbn [nth].
  rewrite <- (app_nil_r (byte_hex (16 * hexv (nth 34 s 0) + hexv (nth 35 s 0)))).
  repeat first [ apply byte_hex_app; [apply Hh; reflexivity..|]
               | apply dash_app; [apply Hd; reflexivity|] ].
  reflexivity.
Qed.

Lemma uuid_bytes_length s u : uuid_bytes s = Some u -> length u = 16%nat.
Proof.
  unfold uuid_bytes. intros H. do 2 (apply bind_Some in H; destruct H as (? & _ & H)).
  apply opt_all_length in H. rewrite H, map_length. reflexivity.
Qed.

(* a 16-byte BufferData: BufferOp, PkgLength 19, BufferSize = BytePrefix 16, then the bytes *)
Lemma buffer16 md b r : length b = 16%nat ->
  buffer_data md b = Some ([0x11; 19; 0x0A; 16] ++ b) /\
  buffer_decode (([0x11; 19; 0x0A; 16] ++ b) ++ r) = Some (16, b, r).
Proof.
  intros H. do 16 (destruct b as [|? b]; [discriminate|]). destruct b; [|discriminate].
  split; reflexivity.
Qed.

Lemma uuid_refuse_length s : length s <> 36%nat -> uuid_bytes s = None.
Proof.
  intros H. unfold uuid_bytes. destruct (Nat.eqb_spec (length s) 36); [contradiction|]. reflexivity.
Qed.

Lemma uuid_refuse_dash s i : In i [8; 13; 18; 23]%nat -> nth i s 0 <> 45 -> uuid_bytes s = None.
Proof.
  intros Hi Hn. unfold uuid_bytes. destruct (Nat.eqb (length s) 36); [|reflexivity]. cbn [assert option_bind].
  apply N.eqb_neq in Hn.
  cbn in Hi. destruct Hi as [<-|[<-|[<-|[<-|[]]]]]; rewrite Hn; rewrite ?andb_false_r; reflexivity.
Qed.

Lemma uuid_refuse_digit s i j :
  In (i, j) uuid_order -> hex_digit (nth i s 0) = None \/ hex_digit (nth j s 0) = None -> uuid_bytes s = None.
Proof.
  intros Hin Hbad. unfold uuid_bytes.
  destruct (assert (Nat.eqb (length s) 36)); [|reflexivity]. cbn [option_bind].
  destruct (assert _); [|reflexivity]. cbn [option_bind].
  apply opt_all_none. apply in_map_iff. exists (i, j). split; [|exact Hin].
  unfold hex2byte. destruct Hbad as [-> | Hb]; [reflexivity|]. destruct (hex_digit (nth i s 0)); [|reflexivity].
  cbn [option_bind]. rewrite Hb. reflexivity.
Qed.
