(* Consequences of the per-component coherence theorems that are the same for every table component:
   (1) the other properties judged by the same oracle functions (C11 = C04's judgement, C12 = C04 and C01);
   (2) no false alarm: an implementation stream that the correspondence check K accepts is accepted by the oracle.  For
       C04 / C11 / C12 K compares whole streams; for C01 and C02 K compares the projections of Judge.v ([project]), and
       the oracles of C01 and C02 depend on a stream only through that projection;
   (3) the well-formedness condition [markers_ok] cannot be dropped (a machine-checked witness);
   and two lemmas that shape the non-vacuity examples of the Props files ([and_use], [both_profiles]). *)
From Coq Require Import NArith List Bool Lia Arith.
From ACPI Require Import Lib.Sx Judge Proofs.CoherenceTablesP.
Import ListNotations.
Open Scope N_scope.

(* the three judgements of a table component on the model's own observation stream *)
Definition coherent (comp : N) (md : mode) (c : sx) : Prop :=
  oracle 4 comp c (run_case md comp c) = true /\
  oracle 1 comp c (run_case md comp c) = true /\
  oracle 2 comp c (run_case md comp c) = true.

Definition table_comps : list N := [10; 11; 12; 13; 14; 15; 16; 17; 18; 19; 20; 21; 22; 23; 24; 25; 26; 27; 28; 29; 30].

Ltac each_comp H := unfold table_comps in H; cbn [In] in H; repeat (destruct H as [<-|H]; [|]); [..|destruct H].

(* on these components [oracle] takes its table branch *)
Lemma table_comp comp : In comp table_comps -> (100 <=? comp) = false /\ is_table comp = true.
Proof. intros Hin. each_comp Hin; split; reflexivity. Qed.

Lemma coherent_c11_c12 comp md c : In comp table_comps -> coherent comp md c ->
  oracle 11 comp c (run_case md comp c) = true /\ oracle 12 comp c (run_case md comp c) = true.
Proof.
  intros Hin (H4 & H1 & _). destruct (table_comp comp Hin) as [H100 Ht]. unfold oracle in *. rewrite H100, Ht in *.
  rewrite H4, H1. auto.
Qed.

(* K, as the driver computes it: evs_eqb (project prop comp model) (project prop comp impl) *)
Definition g_len_k (k : N) (e : ev) : bool := match e with EvBytes [x; y] => (x =? k) && (y =? k) | _ => true end.

Lemma nat_eqb_N n k : Nat.eqb n k = (N.of_nat n =? N.of_nat k).
Proof. destruct (Nat.eqb_spec n k), (N.eqb_spec (N.of_nat n) (N.of_nat k)); try reflexivity; lia. Qed.

(* Why K on the projections is enough for C01 and C02.  On a table component [project] maps [project_ev] over the stream and
   the oracle is a [forallb] of a test of the single event, and that test reads the event only through [project_ev]: the sums
   (C01), the Length field and the size (C02).  The tests on the projected event are [g_sum2] and [g_len]
   (CoherenceTablesP.v) but for FACS 29 (no checksum: the oracle of C01 is constantly true; Length 64) and RSDP 30 (two sums;
   Length 36 at offset 20). *)
Lemma oracle1_through_projection comp c a b : In comp table_comps ->
  project 1 comp a = project 1 comp b -> oracle 1 comp c a = oracle 1 comp c b.
Proof.
  intros Hin. each_comp Hin; try reflexivity;
    (apply (forallb_proj _ (project_ev 1 _) g_sum2); intros [img|n|]; try reflexivity;
     (* all but RSDP 30 test one sum, and the projection carries a second, constant 0 *)
     cbv beta iota delta [g_sum2 project_ev N.eqb Pos.eqb]; now rewrite ?andb_true_r).
Qed.

Lemma oracle2_through_projection comp c a b : In comp table_comps ->
  project 2 comp a = project 2 comp b -> oracle 2 comp c a = oracle 2 comp c b.
Proof.
  intros Hin. each_comp Hin.
  all: try (apply (forallb_proj _ (project_ev 2 _) g_len); intros [img|n|]; reflexivity).
  - (* FACS 29 *) apply (forallb_proj _ (project_ev 2 29) (g_len_k 64)). intros [img|n|]; try reflexivity.
    cbv beta iota delta [g_len_k project_ev N.eqb Pos.eqb]. now rewrite (nat_eqb_N (length img) 64).
  - (* RSDP 30 *) apply (forallb_proj _ (project_ev 2 30) (g_len_k 36)). intros [img|n|]; try reflexivity.
    cbv beta iota delta [g_len_k project_ev N.eqb Pos.eqb]. now rewrite (nat_eqb_N (length img) 36).
Qed.

(* no false alarm: whenever K holds on a case inside the coherence theorem's domain, the oracle accepts the implementation *)
Theorem no_false_alarm comp md c impl : In comp table_comps -> coherent comp md c ->
  (evs_eqb (project 4 comp (run_case md comp c)) (project 4 comp impl) = true -> oracle 4 comp c impl = true) /\
  (evs_eqb (project 1 comp (run_case md comp c)) (project 1 comp impl) = true -> oracle 1 comp c impl = true) /\
  (evs_eqb (project 2 comp (run_case md comp c)) (project 2 comp impl) = true -> oracle 2 comp c impl = true).
Proof.
  intros Hin (H4 & H1 & H2). split; [|split]; intros E; apply evs_eqb_eq in E.
  - unfold project in E. rewrite (proj2 (table_comp comp Hin)) in E. change (run_case md comp c = impl) in E.
    subst impl. exact H4.
  - rewrite <- (oracle1_through_projection comp c _ _ Hin E). exact H1.
  - rewrite <- (oracle2_through_projection comp c _ _ Hin E). exact H2.
Qed.

(* the two facts that put an example inside a coherence theorem's domain, then what follows from them *)
Lemma and_use {A B C : Prop} : A -> B -> (A -> B -> C) -> A /\ B /\ C.
Proof. auto. Qed.

(* what the non-vacuity examples of Props/CoherenceTables.v show of a case: both profiles, and that something is observed *)
Lemma both_profiles comp c :
  (forall md, coherent comp md c) ->
  existsb (fun e => match e with EvBytes _ => true | _ => false end) (run_case Wrapping comp c) = true ->
  oracle 4 comp c (run_case Wrapping comp c) = true /\ oracle 4 comp c (run_case Checked comp c) = true /\
  oracle 1 comp c (run_case Wrapping comp c) = true /\ oracle 2 comp c (run_case Wrapping comp c) = true /\
  existsb (fun e => match e with EvBytes _ => true | _ => false end) (run_case Wrapping comp c) = true.
Proof. intros H E. destruct (H Wrapping) as (W4 & W1 & W2). destruct (H Checked) as (C4 & _). auto. Qed.

(* [markers_ok] is needed: an atom other than 1 among the operations is not an operation for [real_ops] (the history
   (ctor) is in the XSDT Spec's domain, and `judged` says so), the model refuses it, and [refused_at] then reports a refusal
   of an in-domain prefix: the oracle rejects the model's own stream.  The generators never emit such an atom. *)
Definition stray_ctor : sx := SL [SL [SA 0; SA 0; SA 0; SA 0; SA 0; SA 0]; SL [SA 0; SA 0; SA 0; SA 0; SA 0; SA 0; SA 0; SA 0]; SA 0].
Example markers_ok_needed :
  let c := SL [stray_ctor; SA 2] in
  markers_ok [SA 2] = false /\ judged 4 10 c = true /\ run_case Wrapping 10 c = [EvPanic] /\
  oracle 4 10 c (run_case Wrapping 10 c) = false.
Proof. vm_compute. repeat split. Qed.
