(* MCFG: the body is tiled by fixed 16-byte ECAM entries (no entry header) -- the walk instance for C03.  No count or
   length field narrower than 32 bits is emitted (the entry count is implied by the table Length). *)
From Coq Require Import NArith List Lia.
From ACPI Require Import Impl.Table Impl.Mcfg Spec.Layout Proofs.TableP Proofs.Tables Proofs.FixedP
  Proofs.McfgP Proofs.WalkP Proofs.WalkW3Common Proofs.BaseP.
Import ListNotations.
Open Scope N_scope.

Lemma mcfg_addition_self s o e : mcfg_addition s o = Some e -> exists ty, self_describing (H_fixed 16) (a_bytes e) ty.
Proof.
  intros H. unfold mcfg_addition in H. split_matches H. apply Some_inj in H. subst e. cbn [a_bytes]. exists 0.
  apply fixed_self; [rewrite ser_flds_length; reflexivity|lia].
Qed.

Lemma mcfg_new_empty c s0 : mcfg_new c = Some s0 -> t_ents s0 = [].
Proof. exact (plain_new_empty KMcfg _ _ c s0). Qed.

Definition mcfg_walk : walktable :=
  {| wt_table := mcfg_table; wt_ehdr := H_fixed 16; wt_self := mcfg_addition_self; wt_new_empty := mcfg_new_empty |}.

(* the body of the emitted table is 16 bytes per added entry, after the 8 reserved bytes *)
Corollary mcfg_history_body_size md c ops s0 s :
  mcfg_new c = Some s0 -> run_adds mcfg_addition md s0 ops = Some s -> N.of_nat (length (tbl_image s)) < 2 ^ 32 ->
  Forall (fun e => length e = 16%nat) (t_ents s) /\ length (tbl_image s) = (44 + 16 * length (t_ents s))%nat.
Proof. exact (walktable_fixed_body_size mcfg_walk 16 md c ops s0 s eq_refl). Qed.

Print Assumptions mcfg_walk.
Print Assumptions mcfg_history_body_size.
