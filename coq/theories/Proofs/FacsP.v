(* FACS: length field and size of the emitted structure (C02; the FACS has no checksum), for every sequence of direct
   assignments of its public fields. *)
From Coq Require Import ZArith List Lia Bool.
From ACPI Require Import Impl.Fields Impl.Facs Spec.Layout Proofs.FixedP Proofs.FlagsP Proofs.FadtP Proofs.BaseP.
Import ListNotations.
Open Scope N_scope.

(* the widths of the 39 fields of FACS *)
Definition FACS_WIDTHS : list nat := Eval vm_compute in widths facs_new_flds.

Definition FACS_I_LENGTH := 4%nat.

Definition facs_shape (s : flds) : Prop := widths s = FACS_WIDTHS /\ fget s FACS_I_LENGTH = 64.

Definition facs_good (s : flds) : Prop :=
  field_at (ser_flds s) 4 4 = 64 /\ length (ser_flds s) = 64%nat.

Lemma facs_shape_good s : facs_shape s -> facs_good s.
Proof.
  intros [Hw Hl]. split.
  - assert (Hi : (FACS_I_LENGTH < length s)%nat) by (rewrite <- widths_length, Hw; vm_compute; lia).
    pose proof (field_at_ser_flds s FACS_I_LENGTH Hi) as H. rewrite Hw, Hl in H.
    change (wsum (firstn FACS_I_LENGTH FACS_WIDTHS)) with 4%nat in H. change (nth FACS_I_LENGTH FACS_WIDTHS 0%nat) with 4%nat in H.
    rewrite H. reflexivity.
  - rewrite length_ser_flds_w, Hw. reflexivity.
Qed.

Lemma facs_new_flds_good : facs_good facs_new_flds.
Proof. split; vm_compute; reflexivity. Qed.

Lemma facs_new_shape c s : facs_new c = Some s -> facs_shape s.
Proof.
  intros H. unfold facs_new in H. break_sx H. apply Some_inj in H. subst s. split; reflexivity.
Qed.

Lemma facs_new_good c s : facs_new c = Some s -> facs_good s.
Proof. intros H. apply facs_shape_good. eapply facs_new_shape; eauto. Qed.

Lemma facs_assignable_spec : forall n i w, nth_error FACS_ASSIGNABLE n = Some (i, w) -> i <> FACS_I_LENGTH.
Proof.
  intros n i w Hn. apply Nat.eqb_neq, negb_true_iff.
  exact (checki_nth (fun _ x => negb (fst x =? FACS_I_LENGTH))%nat FACS_ASSIGNABLE 0 eq_refl n (i, w) Hn).
Qed.

Lemma facs_step_shape md s o s' e : facs_shape s -> facs_step md s o = Some (s', e) -> facs_shape s'.
Proof.
  intros [Hw Hl] H. unfold facs_step in H.
  break_sx H.
  apply bind_Some in H as (s1 & Ea & H). inversion H; subst s1 e; clear H.
  unfold facs_assign_m in Ea. destruct (nth_error FACS_ASSIGNABLE _) as [[i w]|] eqn:En; [|discriminate].
  inversion Ea; subst s'; clear Ea. pose proof (facs_assignable_spec _ _ _ En) as Hi.
  split; [now rewrite widths_fset|]. rewrite fget_fset_other by exact Hi. exact Hl.
Qed.

(* C02 for the FACS *)
Theorem facs_len md c ops s0 s :
  facs_new c = Some s0 -> run_steps (facs_step md) s0 ops = Some s ->
  field_at (ser_flds s) 4 4 = 64 /\ length (ser_flds s) = 64%nat.
Proof.
  intros Hn Hr. apply facs_shape_good.
  exact (run_steps_ctor _ _ facs_shape facs_new_shape (facs_step_shape md) c ops s0 s Hn Hr).
Qed.
