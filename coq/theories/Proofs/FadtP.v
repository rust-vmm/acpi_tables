(* FADT: for every constructor argument and every finite sequence of builder calls and direct assignments of the public body
   fields (ops 10 / 11 of Spec/FadtS.v), the finalized image sums to 0 and its Length field (offset 4) is its size, 276;
   the flag law (`fadt_flag_law`, `fadt_flags_in_image`; used by Proofs/FadtRefP.v for C11): the Flags field (offset 112 of the
   image) is the value of the LAST direct assignment of `flags` (0 when the field was never assigned) OR-ed with the bits of the
   flag() calls made AFTER that assignment, whatever other calls and assignments are interleaved.  Its readings
   (`fadt_flag_law_no_assign`, `_after_assign`, `fadt_flags_order`, `fadt_flag_frame`) are stated for their own sake.
   The file starts with the general lemmas on field widths and positions (`widths`, `field_at_ser_flds`) that Proofs/FacsP.v and
   the C11 files also use (the byte ranges of Proofs/C11CommonP.v are defined with `wsum`). *)
From Coq Require Import NArith ZArith List Lia Bool.
From ACPI Require Import Lib.Bytes Lib.Sx Impl.Checksum Impl.Fields Impl.Gas Impl.Fadt Spec.Layout Proofs.ChecksumP
  Proofs.FixedP Proofs.BaseP.
From ACPI Require Export Proofs.FlagsP.
Import ListNotations.

Open Scope N_scope.

Definition wsum (l : list nat) : nat := fold_right Nat.add 0%nat l.
Definition widths (f : flds) : list nat := map fst f.

Lemma flds_len_widths f : flds_len f = wsum (widths f).
Proof. induction f as [|[w v] f IH]; [reflexivity|]. cbn [flds_len widths map fst wsum fold_right]. f_equal. exact IH. Qed.

Lemma length_ser_flds_w f : length (ser_flds f) = wsum (widths f).
Proof. now rewrite ser_flds_length, flds_len_widths. Qed.

Lemma widths_fset f i v : widths (fset f i v) = widths f.
Proof.
  revert i; induction f as [|[w x] f IH]; intros [|i]; cbn [fset widths map fst]; try reflexivity. f_equal. apply IH.
Qed.

Lemma widths_f_or f i b : widths (f_or f i b) = widths f.
Proof. rewrite f_or_fset. apply widths_fset. Qed.

Lemma widths_length f : length (widths f) = length f.
Proof. apply map_length. Qed.

Lemma skipn_le_plus w v k X : skipn (w + k) (le w v ++ X) = skipn k X.
Proof.
  rewrite skipn_app, length_le. replace (w + k - w)%nat with k by lia.
  rewrite (skipn_all2 (n := (w + k)%nat) (le w v)) by (rewrite length_le; lia). reflexivity.
Qed.

Lemma field_at_ser_flds f : forall i, (i < length f)%nat ->
  field_at (ser_flds f) (wsum (firstn i (widths f))) (nth i (widths f) 0%nat) =
  fget f i mod 2 ^ (8 * N.of_nat (nth i (widths f) 0%nat)).
Proof.
  induction f as [|[w v] f IH]; intros [|i] H; cbn [length] in H; try lia.
  - unfold field_at, fget, ser_flds. cbn [widths map fst snd firstn wsum fold_right nth concat skipn].
    rewrite firstn_le_app. apply unle_le.
  - specialize (IH i ltac:(lia)). unfold field_at, fget, ser_flds in *.
    cbn [widths map fst snd firstn wsum fold_right nth concat]. fold (widths f).
    change (fold_right Nat.add 0%nat (firstn i (widths f))) with (wsum (firstn i (widths f))).
    rewrite skipn_le_plus. exact IH.
Qed.

Lemma ser_flds_fset_byte f : forall i, (i < length f)%nat -> nth i (widths f) 0%nat = 1%nat ->
  exists a b, forall v, ser_flds (fset f i v) = a ++ b1 v ++ b.
Proof.
  induction f as [|[w x] f IH]; intros [|i] H Hw; cbn [length] in H; try lia; cbn [widths map fst nth] in Hw.
  - subst w. exists [], (ser_flds f). reflexivity.
  - destruct (IH i ltac:(lia) Hw) as (a & b & E). exists (le w x ++ a), b. intros v.
    unfold ser_flds in *. cbn [fset map concat fst snd]. rewrite E, app_assoc. reflexivity.
Qed.

(* the widths of the 129 fields of FADTBuilder *)
Definition FADT_WIDTHS : list nat := Eval vm_compute in widths (fadt_new_flds (repeatN 0 6) (repeatN 0 8) 0).

Lemma fadt_new_spec c f : fadt_new c = Some f ->
  widths f = FADT_WIDTHS /\ fget f I_LENGTH = FADT_LEN /\ fget f I_FLAGS = 0.
Proof.
  destruct c as [|[|o [|t [|r [|]]]]]; try discriminate. cbn [fadt_new].
  destruct (sx_arr 6 o) as [oem|] eqn:Eo; [|discriminate]. destruct (sx_arr 8 t) as [tb|] eqn:Et; [|discriminate].
  destruct (sx_num r); [|discriminate]. intros [= <-].
  apply sx_arr_length in Eo, Et.
  destruct oem as [|o0 [|o1 [|o2 [|o3 [|o4 [|o5 [|]]]]]]]; try discriminate.
  destruct tb as [|t0 [|t1 [|t2 [|t3 [|t4 [|t5 [|t6 [|t7 [|]]]]]]]]]; try discriminate.
  repeat split.
Qed.

(* the table of directly assignable scalar fields: entry 35 is `flags` (a dword), no entry is `length` *)
Lemma assignable_spec : forall n i w, nth_error FADT_ASSIGNABLE n = Some (i, w) ->
  (n = 35%nat /\ i = I_FLAGS /\ w = 4%nat) \/ (n <> 35%nat /\ i <> I_LENGTH /\ i <> I_FLAGS).
Proof.
  intros n i w Hn.
  pose proof (checki_nth (fun n x => if n =? 35 then (fst x =? I_FLAGS) && (snd x =? 4)
                                     else negb (fst x =? I_LENGTH) && negb (fst x =? I_FLAGS))%nat
                FADT_ASSIGNABLE 0 eq_refl n (i, w) Hn) as H.
  cbn [Nat.add fst snd] in H. destruct (Nat.eqb_spec n 35) as [E|E]; apply andb_true_iff in H as [H1 H2]; [left|right].
  - apply Nat.eqb_eq in H1, H2. auto.
  - apply negb_true_iff, Nat.eqb_neq in H1, H2. auto.
Qed.

(* the GAS-typed fields start after `flags` *)
Lemma gas_fields_spec : forall n i, nth_error FADT_GAS_FIELDS n = Some i -> (68 <= i)%nat.
Proof.
  intros n i Hn. apply Nat.leb_le. exact (checki_nth (fun _ i => 68 <=? i)%nat FADT_GAS_FIELDS 0 eq_refl n i Hn).
Qed.

(* the bits of a flag(i) call (op (7 i)); [flag_calls]: those of a history, in call order *)
Definition flag_call (o : sx) : list N :=
  match o with
  | SL [SA 7; SA i] => match flag_bits i with Some b => [b] | None => [] end
  | _ => []
  end.

Definition flag_calls (ops : list sx) : list N := concat (map flag_call ops).

(* the value a direct assignment of the `flags` field (op (10 35 v)) gives it *)
Definition flags_assigned (o : sx) : option N :=
  match o with
  | SL [SA 10; SA 35; SA v] => Some v
  | _ => None
  end.

Lemma flags_assigned_other k v : N.to_nat k <> 35%nat -> flags_assigned (SL [SA 10; SA k; SA v]) = None.
Proof.
  intros H. cbn [flags_assigned].
  repeat match goal with |- match ?x with _ => _ end = _ => destruct x; try reflexivity end.
  now destruct H.
Qed.

(* one call: `b.flags = v` stores v as a u32, flag(i) ors its bits in, every other call or assignment is a few fset's away
   from `length` and `flags` *)
Lemma fadt_builder_spec f o f' : fadt_builder f o = Some f' ->
  widths f' = widths f /\ fget f' I_LENGTH = fget f I_LENGTH /\
  ((I_FLAGS < length f)%nat ->
   fget f' I_FLAGS = match flags_assigned o with
                     | Some v => v mod 2 ^ 32
                     | None => fold_left N.lor (flag_call o) (fget f I_FLAGS)
                     end).
Proof.
  unfold fadt_builder. intros H.
  repeat match type of H with match ?x with _ => _ end = Some _ => destruct x; try discriminate end;
    try (apply Some_inj in H; subst f'; rewrite ?widths_fset, ?fget_fset_other by discriminate; repeat split; reflexivity).
  - (* b.<gas g> = GAS::new(..) *)
    unfold fadt_assign_gas_m in H. destruct (nth_error FADT_GAS_FIELDS _) as [i|] eqn:En; [|discriminate].
    apply Some_inj in H. subst f'. pose proof (gas_fields_spec _ _ En) as Hi.
    cbn [gas_new gas_mk fvals map snd F fset_seq].
    rewrite !widths_fset, !fget_fset_other by (unfold I_LENGTH, I_FLAGS; lia). repeat split.
  - (* flag(i) *)
    apply bind_Some in H as (b & Eb & H). apply Some_inj in H. subst f'. cbn [flag_call flags_assigned]. rewrite Eb.
    rewrite widths_f_or, fget_f_or_other by discriminate. repeat split. intros Hl. now apply fget_f_or_same.
  - (* b.<field k> = v *)
    unfold fadt_assign_m in H. destruct (nth_error FADT_ASSIGNABLE _) as [[i w]|] eqn:En; [|discriminate].
    apply Some_inj in H. subst f'. rewrite widths_fset.
    destruct (assignable_spec _ _ _ En) as [(Hn & -> & ->)|(Hn & H1 & H2)].
    + apply (f_equal N.of_nat) in Hn. rewrite N2Nat.id in Hn. subst. cbn [flags_assigned].
      rewrite fget_fset_other by discriminate. repeat split. intros Hl. now apply fget_fset_same.
    + rewrite (flags_assigned_other _ _ Hn), !fget_fset_other by congruence. repeat split.
Qed.

Fixpoint fadt_run (md : mode) (f : flds) (ops : list sx) : option flds :=
  match ops with
  | [] => Some f
  | SA _ :: r => fadt_run md f r
  | o :: r => match fadt_step md f o with Some (f', _) => fadt_run md f' r | None => None end
  end.

Lemma fadt_run_steps md : forall ops f, fadt_run md f ops = run_steps (fadt_step md) f ops.
Proof. apply run_steps_unique. intros f [|o r]; reflexivity. Qed.

Lemma fadt_step_builder md f o f' evs : fadt_step md f o = Some (f', evs) -> fadt_builder f o = Some f'.
Proof.
  unfold fadt_step. destruct (fadt_builder f o); [|discriminate]. cbn [option_bind]. intros H; inversion H; reflexivity.
Qed.

Lemma fadt_run_shape md ops f f' : fadt_run md f ops = Some f' ->
  widths f' = widths f /\ fget f' I_LENGTH = fget f I_LENGTH.
Proof.
  rewrite fadt_run_steps.
  apply (run_steps_inv _ (fun g => widths g = widths f /\ fget g I_LENGTH = fget f I_LENGTH)); [|now split].
  intros g o g' e [H1 H2] E. apply fadt_step_builder in E. destruct (fadt_builder_spec _ _ _ E) as (Hw & Hl & _).
  split; congruence.
Qed.

Lemma fadt_finalize_eq f : fadt_finalize f = fset f I_CHECKSUM (generate_checksum (ser_flds (fset f I_CHECKSUM 0))).
Proof. unfold fadt_finalize. apply fset_fset. Qed.

Lemma fadt_image_sum f : widths f = FADT_WIDTHS -> sum8 (fadt_image f) = 0.
Proof.
  intros Hw. unfold fadt_image. rewrite fadt_finalize_eq.
  destruct (ser_flds_fset_byte f I_CHECKSUM) as (a & b & E).
  - rewrite <- widths_length, Hw. vm_compute; lia.
  - rewrite Hw. reflexivity.
  - rewrite !E. apply sum8_patched.
Qed.

Lemma fadt_image_length f : widths f = FADT_WIDTHS -> length (fadt_image f) = 276%nat.
Proof.
  intros Hw. unfold fadt_image. rewrite length_ser_flds_w, fadt_finalize_eq, widths_fset, Hw. reflexivity.
Qed.

Lemma fadt_image_field f i : widths f = FADT_WIDTHS -> (i < length FADT_WIDTHS)%nat -> i <> I_CHECKSUM ->
  field_at (fadt_image f) (wsum (firstn i FADT_WIDTHS)) (nth i FADT_WIDTHS 0%nat) =
  fget f i mod 2 ^ (8 * N.of_nat (nth i FADT_WIDTHS 0%nat)).
Proof.
  intros Hw Hi Hne. unfold fadt_image. rewrite fadt_finalize_eq.
  set (g := fset f I_CHECKSUM _).
  assert (Hwg : widths g = FADT_WIDTHS) by (unfold g; now rewrite widths_fset).
  pose proof (field_at_ser_flds g i) as H. rewrite Hwg in H. rewrite H.
  - unfold g. rewrite fget_fset_other by congruence. reflexivity.
  - rewrite <- widths_length, Hwg. exact Hi.
Qed.

(* C01 + C02 for the FADT: any constructor arguments, any finite sequence of builder calls *)
Theorem fadt_history md c ops f0 f :
  fadt_new c = Some f0 -> fadt_run md f0 ops = Some f ->
  sum8 (fadt_image f) = 0 /\ field_at (fadt_image f) 4 4 = N.of_nat (length (fadt_image f)).
Proof.
  intros Hn Hr. destruct (fadt_run_shape md ops f0 f Hr) as [Hw Hl].
  destruct (fadt_new_spec _ _ Hn) as (Hw0 & Hl0 & _). rewrite Hw0 in Hw. rewrite Hl0 in Hl.
  split; [now apply fadt_image_sum|].
  rewrite (fadt_image_length f Hw).
  pose proof (fadt_image_field f I_LENGTH Hw ltac:(vm_compute; lia) ltac:(discriminate)) as H.
  change (wsum (firstn I_LENGTH FADT_WIDTHS)) with 4%nat in H. change (nth I_LENGTH FADT_WIDTHS 0%nat) with 4%nat in H.
  rewrite H, Hl. reflexivity.
Qed.

(* a history seen from the Flags field: (the value of the LAST direct assignment of `flags`, if there is one;
   the operations made after that assignment -- all of them when there is none) *)
Fixpoint flags_cut (ops : list sx) : option N * list sx :=
  match ops with
  | [] => (None, [])
  | o :: r =>
      match flags_cut r with
      | (Some v, post) => (Some v, post)
      | (None, _) => match flags_assigned o with Some v => (Some v, r) | None => (None, o :: r) end
      end
  end.

Definition no_flags_assignment (ops : list sx) : Prop := forall o, In o ops -> flags_assigned o = None.

Lemma flags_cut_none ops : no_flags_assignment ops -> flags_cut ops = (None, ops).
Proof.
  induction ops as [|o ops IH]; intros H; [reflexivity|]. cbn [flags_cut].
  rewrite IH by (intros x Hx; apply H; now right). rewrite (H o) by now left. reflexivity.
Qed.

Lemma flags_cut_none_inv ops post : flags_cut ops = (None, post) -> post = ops /\ no_flags_assignment ops.
Proof.
  revert post. induction ops as [|o ops IH]; intros post H; cbn [flags_cut] in H.
  - inversion H. split; [reflexivity|]. intros x [].
  - destruct (flags_cut ops) as [[v|] p] eqn:E; [discriminate|].
    destruct (flags_assigned o) as [v|] eqn:Ea; [discriminate|]. inversion H; subst post.
    destruct (IH p eq_refl) as [_ Hn]. split; [reflexivity|].
    intros x [<-|Hx]; [exact Ea|now apply Hn].
Qed.

Lemma flags_cut_last pre v post : no_flags_assignment post ->
  flags_cut (pre ++ SL [SA 10; SA 35; SA v] :: post) = (Some v, post).
Proof.
  intros Hp. induction pre as [|o pre IH]; cbn [app flags_cut].
  - rewrite (flags_cut_none post Hp). reflexivity.
  - rewrite IH. reflexivity.
Qed.

Theorem fadt_flag_frame f i f' : fadt_builder f (SL [SA 7; SA i]) = Some f' ->
  widths f' = widths f /\ forall j, j <> I_FLAGS -> fget f' j = fget f j.
Proof.
  intros H. split; [exact (proj1 (fadt_builder_spec _ _ _ H))|]. intros j Hj.
  cbn [fadt_builder] in H. apply bind_Some in H as (b & _ & H).
  inversion H; subst. rewrite f_or_fset. apply fget_fset_other. congruence.
Qed.

Theorem fadt_flag_law md ops : forall f f', (I_FLAGS < length f)%nat -> fadt_run md f ops = Some f' ->
  fget f' I_FLAGS = fold_left N.lor (flag_calls (snd (flags_cut ops)))
                              (match fst (flags_cut ops) with Some v => v mod 2 ^ 32 | None => fget f I_FLAGS end).
Proof.
  induction ops as [|o ops IH]; intros f f' Hlen H; cbn [fadt_run] in H.
  - inversion H; subst. reflexivity.
  - assert (Hstep : exists f1, fadt_run md f1 ops = Some f' /\ (I_FLAGS < length f1)%nat /\
                      fget f1 I_FLAGS = match flags_assigned o with
                                        | Some v => v mod 2 ^ 32
                                        | None => fold_left N.lor (flag_call o) (fget f I_FLAGS)
                                        end).
    { destruct o as [n|l]; [exists f; cbn [flags_assigned flag_call fold_left]; auto|].
      destruct (fadt_step md f (SL l)) as [[f1 evs]|] eqn:E; [|discriminate].
      apply fadt_step_builder in E. destruct (fadt_builder_spec _ _ _ E) as (Hw & _ & Hf). exists f1. split; [exact H|]. split.
      - rewrite <- !widths_length, Hw, widths_length. exact Hlen.
      - exact (Hf Hlen). }
    destruct Hstep as (f1 & Hr & Hlen1 & Hf1). specialize (IH f1 f' Hlen1 Hr).
    cbn [flags_cut]. destruct (flags_cut ops) as [[v|] post] eqn:Ec; cbn [fst snd] in *.
    + exact IH.
    + destruct (flags_cut_none_inv _ _ Ec) as [-> _].
      destruct (flags_assigned o) as [v|]; cbn [fst snd].
      * rewrite IH, Hf1. reflexivity.
      * rewrite IH, Hf1. unfold flag_calls. cbn [map concat]. rewrite fold_left_app. reflexivity.
Qed.

Corollary fadt_flag_law_no_assign md ops f f' : (I_FLAGS < length f)%nat -> fadt_run md f ops = Some f' ->
  no_flags_assignment ops ->
  fget f' I_FLAGS = fold_left N.lor (flag_calls ops) (fget f I_FLAGS).
Proof. intros Hlen Hr Hn. rewrite (fadt_flag_law md ops f f' Hlen Hr), (flags_cut_none ops Hn). reflexivity. Qed.

Corollary fadt_flag_law_after_assign md pre v post f f' : (I_FLAGS < length f)%nat ->
  fadt_run md f (pre ++ SL [SA 10; SA 35; SA v] :: post) = Some f' -> no_flags_assignment post ->
  fget f' I_FLAGS = fold_left N.lor (flag_calls post) (v mod 2 ^ 32).
Proof. intros Hlen Hr Hn. rewrite (fadt_flag_law md _ f f' Hlen Hr), (flags_cut_last pre v post Hn). reflexivity. Qed.

Lemma lor_fold_mod32 l a : fold_left N.lor l (a mod 2 ^ 32) mod 2 ^ 32 = fold_left N.lor l a mod 2 ^ 32.
Proof.
  apply N.bits_inj. intros n. destruct (N.lt_ge_cases n 32) as [Hn|Hn].
  - rewrite !N.mod_pow2_bits_low by exact Hn. rewrite !fold_lor_testbit, N.mod_pow2_bits_low by exact Hn. reflexivity.
  - rewrite !N.mod_pow2_bits_high by exact Hn. reflexivity.
Qed.

(* C11 for the FADT in terms of the emitted bytes: the dword at offset 112 of the finalized image *)
Theorem fadt_flags_in_image md c ops f0 f :
  fadt_new c = Some f0 -> fadt_run md f0 ops = Some f ->
  field_at (fadt_image f) 112 4 =
  fold_left N.lor (flag_calls (snd (flags_cut ops))) (match fst (flags_cut ops) with Some v => v | None => 0 end) mod 2 ^ 32.
Proof.
  intros Hn Hr. destruct (fadt_run_shape md ops f0 f Hr) as [Hw _].
  destruct (fadt_new_spec _ _ Hn) as (Hw0 & _ & Hf0). rewrite Hw0 in Hw.
  pose proof (fadt_image_field f I_FLAGS Hw ltac:(vm_compute; lia) ltac:(discriminate)) as H.
  change (wsum (firstn I_FLAGS FADT_WIDTHS)) with 112%nat in H. change (nth I_FLAGS FADT_WIDTHS 0%nat) with 4%nat in H.
  rewrite H. change (8 * N.of_nat 4) with 32.
  assert (Hlen : (I_FLAGS < length f0)%nat) by (rewrite <- widths_length, Hw0; vm_compute; lia).
  rewrite (fadt_flag_law md ops f0 f Hlen Hr), Hf0.
  destruct (fst (flags_cut ops)) as [v|]; [apply lor_fold_mod32|reflexivity].
Qed.

(* two histories over the same constructor with the same last direct assignment of `flags` (or none) whose flag() calls after
   it cover the same set of bits end with the same Flags field, whatever the order, the repetitions and the other calls *)
Corollary fadt_flags_order md c ops ops' f0 f f' :
  fadt_new c = Some f0 -> fadt_run md f0 ops = Some f -> fadt_run md f0 ops' = Some f' ->
  fst (flags_cut ops) = fst (flags_cut ops') ->
  (forall b, In b (flag_calls (snd (flags_cut ops))) <-> In b (flag_calls (snd (flags_cut ops')))) ->
  fget f I_FLAGS = fget f' I_FLAGS.
Proof.
  intros Hn Hr Hr' Hb Hs.
  assert (Hlen : (I_FLAGS < length f0)%nat) by (rewrite <- widths_length, (proj1 (fadt_new_spec _ _ Hn)); vm_compute; lia).
  rewrite (fadt_flag_law md ops f0 f Hlen Hr), (fadt_flag_law md ops' f0 f' Hlen Hr'), Hb. now apply lor_fold_set.
Qed.
