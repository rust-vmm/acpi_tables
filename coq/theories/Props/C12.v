(* C12 -- locality matrices hold, per cell, the last value assigned to that cell. *)
From Coq Require Import NArith List.
From ACPI Require Import Lib.Bytes Lib.Machine Impl.Slit Impl.Hmat Spec.Layout Proofs.SlitP Proofs.HmatP.
Import ListNotations.
Open Scope N_scope.

(* SLIT: for every constructor argument, both build profiles and every sequence of set_distance calls the model accepts:
   the image sums to 0, its Length field is its size, every accepted call had both domains in range, and the byte for the
   ordered pair (i, j) and its mirror (j, i) both hold the last distance assigned to the unordered pair {i, j}
   (10 if never assigned) -- read from the emitted image. *)
Theorem c12_slit :
  forall md c ops s0 s,
    slit_new c = Some s0 -> slit_run md s0 ops = Some s ->
    sum8 (slit_image s) = 0 /\
    field_at (slit_image s) 4 4 = N.of_nat (length (slit_image s)) /\
    Forall (op_in_range (st_loc s0)) ops /\
    forall i j, i < st_loc s0 -> j < st_loc s0 ->
      image_cell s i j = slit_last i j ops 10 /\ image_cell s j i = slit_last i j ops 10.
Proof. exact slit_correct_all. Qed.

(* every in-range pair is accepted, in both profiles *)
Theorem c12_slit_accepts :
  forall md c ops s0,
    slit_new c = Some s0 -> Forall (op_in_range (st_loc s0)) ops -> exists s, slit_run md s0 ops = Some s.
Proof. intros md c ops s0 Hn. exact (slit_sim_total md _ _ ops _ s0 (slit_sim_new c s0 Hn)). Qed.

(* HMAT system locality structure of I initiators and T targets: every sequence of in-range assignments is accepted, the
   row-major cell i*T + j (stride = number of targets) holds the last value assigned to (i, j), 0xFFFF if never assigned.
   (That the initiator/target lists and the flags are untouched is said by the general form, Proofs/HmatP.v [sysloc_cells].) *)
Theorem c12_hmat_cells :
  forall md lt dt mts unit ni nt s ops,
    sysloc_new md lt dt mts unit ni nt = Some s -> ni * nt < U64 ->
    Forall (fun o => fst (fst o) < ni /\ snd (fst o) < nt) ops ->
    exists s', set_entries s ops = Some s' /\
      forall i j, i < ni -> j < nt -> cell s' i j = last_assigned i j ops 0xFFFF.
Proof. exact sysloc_fresh_cells. Qed.

(* the same cell, read from the serialised structure with the independent field decoder *)
Theorem c12_hmat_cell_in_image :
  forall s k, (k < length (sl_entries s))%nat ->
    field_at (sysloc_bytes s) (32 + 4 * length (sl_inits s) + 4 * length (sl_targets s) + 2 * k) 2
    = nth k (sl_entries s) 0 mod 2 ^ 16.
Proof. exact sysloc_bytes_cell. Qed.

Print Assumptions c12_slit.
Print Assumptions c12_slit_accepts.
Print Assumptions c12_hmat_cells.
Print Assumptions c12_hmat_cell_in_image.
