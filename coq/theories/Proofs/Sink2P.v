(* C14 for the sinks of Impl/Sink2.v (Sdt, PackageBuilder), and raw form = serialised form. *)
From Coq Require Import NArith List Lia Bool.
From ACPI Require Import Lib.Bytes Lib.Machine Impl.Checksum Impl.Fields Impl.Sink Impl.Sdt Impl.Gas Impl.Sink2
  Spec.Layout Proofs.SinkP Proofs.SdtP Proofs.BitsP Proofs.BaseP.
Import ListNotations.
Open Scope N_scope.

(* the trait's default `vec`, instantiated at Sdt, is the loop Impl/Sdt.v has for its ops 5 and 6 *)
Lemma sdt_sink_bytes_vec md l : forall s, sdt_sink_bytes md s l = sdt_sink_vec md s l.
Proof.
  induction l as [|b r IH]; intros s; [reflexivity|]. cbn [sdt_sink_bytes sdt_sink_vec]. unfold sdt_sink_byte.
  destruct (sdt_append md s 1 b); cbn [option_bind]; [apply IH|reflexivity].
Qed.

Lemma sdt_sink_call_flat md s c : sdt_sink_call md s c = sdt_sink_bytes md s (call_bytes c).
Proof.
  destruct c; cbn [sdt_sink_call call_bytes sdt_sink_bytes]; try reflexivity.
  destruct (sdt_sink_byte md s b); reflexivity.
Qed.

Lemma fold_append_byte_none md l : fold_left (sdt_append_byte md) l None = None.
Proof. induction l as [|b r IH]; [reflexivity|exact IH]. Qed.

Lemma sdt_sink_bytes_fold md l : forall s, sdt_sink_bytes md s l = fold_left (sdt_append_byte md) l (Some s).
Proof.
  induction l as [|b r IH]; intros s; [reflexivity|]. cbn [sdt_sink_bytes fold_left]. unfold sdt_append_byte at 2. cbn [option_bind].
  destruct (sdt_sink_byte md s b); cbn [option_bind]; [apply IH|now rewrite fold_append_byte_none].
Qed.

Lemma run_sdt_default md t s : run_sdt md s t = run_default (sdt_append_byte md) (Some s) t.
Proof.
  revert s; induction t as [|c t IH]; intros s; [reflexivity|]. unfold run_default. cbn [run_sdt fold_left].
  rewrite d_call_flat, <- sdt_sink_bytes_fold, <- sdt_sink_call_flat.
  destruct (sdt_sink_call md s c) as [d|]; cbn [option_bind]; [apply IH|].
  symmetry. etransitivity; [exact (run_default_flat (sdt_append_byte md) t None)|apply fold_append_byte_none].
Qed.

Lemma run_sdt_flat md t s : run_sdt md s t = fold_left (sdt_append_byte md) (flatten t) (Some s).
Proof. rewrite run_sdt_default. apply run_default_flat. Qed.

Lemma run_sdt_chunking md t1 t2 s : flatten t1 = flatten t2 -> run_sdt md s t1 = run_sdt md s t2.
Proof. intros H. now rewrite !run_sdt_flat, H. Qed.

Lemma run_sdt_vec md t s : run_sdt md s t = sdt_sink_vec md s (flatten t).
Proof. now rewrite run_sdt_flat, <- sdt_sink_bytes_fold, sdt_sink_bytes_vec. Qed.

(* the table one obtains by appending `bs` to `v`: the bytes of v ++ bs outside Length and Checksum, Length = size, sum 0 *)
Definition appended_image (v bs img : list N) : Prop :=
  length img = (length v + length bs)%nat /\
  (forall i, i <> 9%nat -> ~ (4 <= i < 8)%nat -> nth i img 0 = nth i (v ++ bs) 0) /\
  field_at img 4 4 = N.of_nat (length img) /\
  sum8 img = 0.

Lemma sappend_appended_image v bs : (36 <= length v)%nat -> N.of_nat (length v + length bs) < 2 ^ 32 ->
  appended_image v bs (sappend v bs).
Proof.
  intros Hv Hsz. unfold appended_image. repeat split.
  - apply length_sappend. lia.
  - intros i H9 H48. now apply nth_sappend.
  - now apply length_field_sappend_size.
  - now apply sum8_sappend.
Qed.

(* a table whose header is already up to date: re-deriving Length and Checksum changes nothing *)
Definition sdt_canon (v : list N) : Prop := sappend v [] = v.

Lemma run_sdt_sappend md v t :
  (36 <= length v)%nat -> bytes_ok (flatten t) = true -> N.of_nat (length v + length (flatten t)) < 2 ^ 64 ->
  flatten t <> [] -> run_sdt md v t = Some (sappend v (flatten t)).
Proof.
  intros Hv Hb Hsz Hne. rewrite run_sdt_vec. now apply sink_vec_refines.
Qed.

(* A trace that delivers no byte leaves v as it is, while append_slice of [] rewrites Length and Checksum: for such a trace
   the header has to be up to date already ([sdt_canon]). *)
Lemma run_sdt_is_append_slice md v t :
  (36 <= length v)%nat -> bytes_ok (flatten t) = true -> N.of_nat (length v + length (flatten t)) < 2 ^ 32 ->
  flatten t <> [] \/ sdt_canon v -> run_sdt md v t = sdt_append_slice md v (flatten t).
Proof.
  intros Hv Hb Hsz Hne. rewrite append_slice_refines by (exact Hv || lia).
  destruct (flatten t) as [|b0 r] eqn:E.
  - destruct Hne as [Hne|Hc]; [now elim Hne|]. rewrite run_sdt_vec, E. cbn [sdt_sink_vec]. now rewrite Hc.
  - rewrite <- E in *. apply run_sdt_sappend; [exact Hv|exact Hb|lia|]. rewrite E. discriminate.
Qed.

Definition call_ok (c : scall) : bool :=
  match c with SByte b => is_byte b | SVec l => bytes_ok l | _ => true end.
Definition trace_ok (t : list scall) : bool := forallb call_ok t.

Lemma trace_ok_flat t : trace_ok t = true -> bytes_ok (flatten t) = true.
Proof.
  induction t as [|c t IH]; intros H; [reflexivity|]. unfold flatten in *. cbn [trace_ok forallb map concat] in *.
  apply andb_true_iff in H. destruct H as [Hc Ht]. rewrite bytes_ok_app, (IH Ht), andb_true_r.
  destruct c; cbn [call_ok call_bytes] in *; try apply le_bytes_ok; [|exact Hc].
  unfold bytes_ok. cbn [forallb]. now rewrite Hc.
Qed.

Lemma pkgb_call_flat s c : pkgb_call s c = mk_pkgb (pb_data s ++ call_bytes c) (pb_elements s).
Proof. destruct c; reflexivity. Qed.

Lemma run_pkgb_flat t : forall s, run_pkgb s t = mk_pkgb (pb_data s ++ flatten t) (pb_elements s).
Proof.
  induction t as [|c t IH]; intros s; unfold run_pkgb, flatten in *; cbn [fold_left map concat].
  - rewrite app_nil_r. now destruct s.
  - rewrite IH, pkgb_call_flat. cbn [pb_data pb_elements]. now rewrite <- app_assoc.
Qed.

Lemma run_pkgb_chunking t1 t2 s : flatten t1 = flatten t2 -> run_pkgb s t1 = run_pkgb s t2.
Proof. intros H. now rewrite !run_pkgb_flat, H. Qed.

Lemma run_pkgb_vec t s : pb_data (run_pkgb s t) = run_vec (pb_data s) t.
Proof. now rewrite run_pkgb_flat, run_vec_flat. Qed.

Lemma pkgb_add_element_spec s t :
  pkgb_add_element s t = mk_pkgb (pb_data s ++ flatten t) (pb_elements s + 1).
Proof. unfold pkgb_add_element. now rewrite run_pkgb_flat. Qed.

Lemma pkgb_add_elements ts : forall s,
  fold_left pkgb_add_element ts s = mk_pkgb (pb_data s ++ concat (map flatten ts)) (pb_elements s + N.of_nat (length ts)).
Proof.
  induction ts as [|t ts IH]; intros s; cbn [fold_left map concat length].
  - rewrite app_nil_r, N.add_0_r. now destruct s.
  - rewrite IH, pkgb_add_element_spec. cbn [pb_data pb_elements]. rewrite <- app_assoc. f_equal. lia.
Qed.

(* aml_as_bytes!: the serialiser is one slice call carrying the raw form *)
Lemma as_bytes_ser_flat raw : flatten (as_bytes_ser raw) = raw.
Proof. unfold flatten, as_bytes_ser. cbn [map concat call_bytes]. apply app_nil_r. Qed.

Lemma le1 x : le 1 x = [x mod 256].
Proof. reflexivity. Qed.

(* GAS: derive and hand-written serialiser agree for every field value (register_bit_width / _offset are u8 fields) *)
Lemma gas_raw_is_serialised sp w o a addr : w < 256 -> o < 256 ->
  flatten (gas_ser sp w o a addr) = gas_raw sp w o a addr.
Proof.
  intros Hw Ho. unfold gas_raw, gas_ser, gas_mk, ser_flds, flatten, F.
  cbn [map concat call_bytes fst snd]. rewrite !le1. unfold cast, U8. change (2 ^ 8) with 256.
  rewrite (N.mod_small w 256), (N.mod_small o 256) by assumption. reflexivity.
Qed.

Lemma gas_raw_is_serialised_mod sp w o a addr :
  map (fun b => b mod 256) (flatten (gas_ser sp w o a addr)) = gas_raw sp w o a addr.
Proof.
  unfold gas_raw, gas_ser, gas_mk, ser_flds, flatten, F.
  cbn [map concat call_bytes fst snd app]. rewrite !le1. unfold cast, U8. change (2 ^ 8) with 256.
  rewrite !app_nil_r. cbn [map app]. rewrite !N.mod_mod by lia. repeat f_equal.
  assert (H : bytes_ok (le 8 addr) = true) by apply le_bytes_ok.
  revert H. generalize (le 8 addr). intros l. induction l as [|x l IH]; intros H; [reflexivity|].
  cbn [bytes_ok forallb] in H. apply andb_true_iff in H. destruct H as [Hx Hl]. unfold is_byte in Hx. apply N.ltb_lt in Hx.
  cbn [map]. rewrite N.mod_small by exact Hx. f_equal. now apply IH.
Qed.

Lemma length_gas_raw sp w o a addr : length (gas_raw sp w o a addr) = 12%nat.
Proof. reflexivity. Qed.

Lemma gas_into_vec s sp w o a addr : w < 256 -> o < 256 -> run_vec s (gas_ser sp w o a addr) = s ++ gas_raw sp w o a addr.
Proof. intros Hw Ho. now rewrite run_vec_flat, gas_raw_is_serialised. Qed.

Lemma gas_into_pkgb s sp w o a addr : w < 256 -> o < 256 ->
  run_pkgb s (gas_ser sp w o a addr) = mk_pkgb (pb_data s ++ gas_raw sp w o a addr) (pb_elements s).
Proof. intros Hw Ho. now rewrite run_pkgb_flat, gas_raw_is_serialised. Qed.

Lemma gas_into_sdt md v sp w o a addr : w < 256 -> o < 256 -> (36 <= length v)%nat -> N.of_nat (length v + 12) < 2 ^ 32 ->
  run_sdt md v (gas_ser sp w o a addr) = sdt_append_slice md v (gas_raw sp w o a addr).
Proof.
  intros Hw Ho Hv Hsz. pose proof (gas_raw_is_serialised sp w o a addr Hw Ho) as E. rewrite <- E.
  apply run_sdt_is_append_slice; rewrite ?E; [exact Hv| |exact Hsz|left; discriminate].
  unfold gas_raw, gas_mk, ser_flds, F. cbn [map concat fst snd]. now rewrite !bytes_ok_app, !le_bytes_ok.
Qed.

(* the same structure delivered as ONE dword + one qword (header packed with the right shifts) is indistinguishable;
   with a wrong shift it is not -- the equalities above are not vacuous *)
Definition gas_ser_packed (sh : N) (sp w o a addr : N) : list scall :=
  [SDword (N.lor (N.lor (N.lor sp (N.shiftl w 8)) (N.shiftl o 16)) (N.shiftl a sh)); SQword addr].

Example gas_packed_right_shift : flatten (gas_ser_packed 24 0x7F 0x40 0x03 0x04 0x1122334455667788)
                               = gas_raw 0x7F 0x40 0x03 0x04 0x1122334455667788.
Proof. vm_compute. reflexivity. Qed.

Example gas_packed_wrong_shift_refuted : flatten (gas_ser_packed 16 0x7F 0x40 0x03 0x04 0x1122334455667788)
                                      <> gas_raw 0x7F 0x40 0x03 0x04 0x1122334455667788.
Proof. vm_compute. discriminate. Qed.

Lemma gas_packed_is_raw sp w o a addr : sp < 256 -> w < 256 -> o < 256 -> a < 256 ->
  flatten (gas_ser_packed 24 sp w o a addr) = gas_raw sp w o a addr.
Proof.
  intros Hs Hw Ho Ha. unfold gas_ser_packed, gas_raw, gas_mk, ser_flds, flatten, F. cbn [map concat call_bytes fst snd].
  rewrite !le1, !N.mod_small by assumption. rewrite app_nil_r. cbn [app]. 
  assert (E : N.lor (N.lor (N.lor sp (N.shiftl w 8)) (N.shiftl o 16)) (N.shiftl a 24) = unle [sp; w; o; a]).
  { rewrite !shiftl_mul. rewrite (lor_disjoint' sp w 8) by exact Hs.
    rewrite (lor_disjoint' (w * 2 ^ 8 + sp) o 16) by lia.
    rewrite (lor_disjoint' _ a 24) by lia.
    cbn [unle]. lia. }
  rewrite E. change 4%nat with (length [sp; w; o; a]). rewrite le_unle; [reflexivity|].
  unfold bytes_ok, is_byte. cbn [forallb]. 
  apply N.ltb_lt in Hs, Hw, Ho, Ha. now rewrite Hs, Hw, Ho, Ha.
Qed.

(* the Sdt sink modelled here is the one the correspondence harness drives through component 31 (ops 5 and 6 of
   Impl/Sdt.v, compared with the crate on every C13 case): same function *)
Lemma run_sdt_single md v c : run_sdt md v [c] = sdt_sink_vec md v (call_bytes c).
Proof. rewrite run_sdt_vec. unfold flatten. cbn [map concat]. now rewrite app_nil_r. Qed.
