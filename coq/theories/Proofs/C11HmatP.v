(* C11, HMAT system locality structure: a record whose two option calls are interleaved with the matrix setters.  The
   theorems about the emitted bytes are c11_hmat_* in Props/C11.v. *)
From Coq Require Import NArith List.
From ACPI Require Import Lib.Bytes Lib.Sx Lib.Machine Impl.Hmat Spec.OptionsS Proofs.FlagsP Proofs.C11CommonP.
Import ListNotations.
Open Scope N_scope.

(* one call: an option ORs its bit into the flags and touches nothing else; a matrix setter does what it does whatever
   the flags are *)
Lemma sysloc_step p o p' : sysloc_builder p o = Some p' ->
  sl_flags p' = N.lor (sl_flags p) (sysloc_call_bit o) /\
  forall a, if sysloc_is_option o then sl_with_flags p' a = sl_with_flags p a
            else sysloc_builder (sl_with_flags p a) o = Some (sl_with_flags p' (N.lor a (sysloc_call_bit o))).
Proof.
  revert p'. apply opt_case. unfold sysloc_builder, sysloc_set_entry.
  dmatch_goal; cbn [sysloc_call_bit sysloc_is_option sl_with_flags sl_inits sl_targets sl_entries];
    try (destruct (assert _); [|exact I]); try (destruct (hm_vec_set _ _ _); [|exact I]);
    cbn [option_bind option_map]; (split; [|intros a]); rewrite ?N.lor_0_r; reflexivity.
Qed.

Definition sysloc_nonoption (o : sx) : bool := negb (sysloc_is_option o).

Definition sysloc_post (s : sysloc) : list N :=
  b1 (sl_dt s) ++ b1 (sl_mts s) ++ b1 0 ++
  d4 (hm_len (sl_inits s)) ++ d4 (hm_len (sl_targets s)) ++ d4 0 ++ q8 (sl_unit s) ++
  hm_dwords (sl_inits s) ++ hm_dwords (sl_targets s) ++ hm_words (sl_entries s).

Lemma sysloc_shape s a :
  sysloc_bytes s = (w2 1 ++ w2 0 ++ d4 (sysloc_len s)) ++ le 1 (sl_flags s) ++ sysloc_post s /\
  sysloc_bytes (sl_with_flags s a) = (w2 1 ++ w2 0 ++ d4 (sysloc_len s)) ++ le 1 a ++ sysloc_post s.
Proof. split; reflexivity. Qed.

Lemma sysloc_call_bit_small o : sysloc_call_bit o < 2 ^ 8.
Proof. unfold sysloc_call_bit. dmatch_goal; reflexivity. Qed.

(* the option bits leave the hierarchy nibble alone *)
Lemma sysloc_bits_high bs : big_or (map sysloc_call_bit bs) mod 2 ^ 4 = 0.
Proof.
  induction bs as [|o bs IH]; [reflexivity|]. cbn [map big_or fold_right]. fold (big_or (map sysloc_call_bit bs)).
  rewrite lor_mod, IH, N.lor_0_r.
  unfold sysloc_call_bit; dmatch_goal; reflexivity.
Qed.

Lemma sysloc_gate k b o : In (k, b) [(1, 5); (2, 4)] -> N.testbit (sysloc_call_bit o) b = sysloc_calls k o.
Proof.
  intros Hk. cbn [In] in Hk. destruct Hk as [Hk|[Hk|[]]]; inversion Hk; subst k b;
    unfold sysloc_call_bit, sysloc_calls; dmatch_goal; reflexivity.
Qed.

Lemma sysloc_options_distinct : distinct_single_bits sysloc_option_table && below (2 ^ 8) sysloc_option_table = true /\
  forallb (fun b => b mod 16 =? 0) sysloc_option_table = true.
Proof. split; reflexivity. Qed.

