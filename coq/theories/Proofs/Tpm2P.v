(* tpm2.rs, Tpm2 (incremental set_log_area): checksum and length of the emitted table for every constructor argument and
   every accepted sequence of operations, by an invariant over its one operation.  TpmClient1_2 (constructor only) is in
   Proofs/CtorOnlyP.v, TpmServer1_2 (builder chain) in Proofs/C11Tpm2P.v. *)
From Coq Require Import ZArith List Lia.
From ACPI Require Import Lib.Bytes Lib.Sx Lib.Machine Impl.Checksum Impl.Table Impl.Fields Impl.Madt Impl.Tpm2 Spec.Layout
  Proofs.ChecksumP Proofs.TableP Proofs.FixedP Proofs.BaseP.
Import ListNotations.

Open Scope N_scope.

Definition tpm2_rest (s : tpm2) : list N :=
  w2 (t2_class s) ++ w2 0 ++ q8 (t2_base s) ++ d4 (t2_sm s)
  ++ firstn (t2_plen s) (t2_params s) ++ opt_bytes 4 (t2_laml s) ++ opt_bytes 8 (t2_lasa s).

Record tpm2_inv (s : tpm2) : Prop := {
  t2i_hdr : hdr_ok (t2_hdr s) = true;
  t2i_len : t2_len s = N.of_nat (length (tpm2_bytes s));
  t2i_small : t2_len s < 2 ^ 32;
  t2i_ck_lt : t2_ck s < 256;
  t2i_ck : (Z.of_N (t2_ck s) mod 256 = (zsum (hdr_bytes (t2_hdr s) (t2_len s) 0) + zsum (tpm2_rest s)) mod 256)%Z;
  t2i_hck : t2_hck s = ck_value (t2_ck s);
  t2i_params : t2_params s = repeatN 0 12;
  t2i_fresh : t2_len s = 52 -> t2_plen s = 0%nat /\ t2_laml s = None /\ t2_lasa s = None
}.

Lemma tpm2_bytes_rest s : tpm2_bytes s = hdr_bytes (t2_hdr s) (t2_len s) (t2_hck s) ++ tpm2_rest s.
Proof. reflexivity. Qed.

Lemma tpm2_inv_good s : tpm2_inv s ->
  sum8 (tpm2_bytes s) = 0 /\ field_at (tpm2_bytes s) 4 4 = N.of_nat (length (tpm2_bytes s)).
Proof.
  intros [Hh Hl Hsm Hlt Hck Hhck _ _]. rewrite tpm2_bytes_rest in *. split.
  - rewrite Hhck. apply hdr_sum8_zero; assumption.
  - rewrite hdr_len_field by assumption. exact Hl.
Qed.

Lemma tpm2_new_inv c s : tpm2_new c = Some s -> tpm2_inv s.
Proof.
  destruct c as [|[|o [|t [|r [|[cls|] [|[base|] [|[sm|] [|]]]]]]]]; try discriminate. cbn [tpm2_new].
  destruct (sx_hdr _ _ o t r) as [h|] eqn:Eh; [|discriminate]. cbn [option_bind].
  destruct (assert _); [|discriminate]. cbn [option_bind]. intros H. apply Some_inj in H. subst s.
  pose proof (sx_hdr_ok _ _ _ _ _ _ Eh eq_refl) as Hh.
  constructor; cbn [t2_hdr t2_len t2_hck t2_ck t2_params t2_plen t2_laml t2_lasa]; try reflexivity.
  - exact Hh.
  - rewrite tpm2_bytes_rest, hdr_image_length by exact Hh. reflexivity.
  - do 3 apply ck_append_lt. apply ck_append_lt. lia.
  - rewrite <- !ck_append_app, ck_append_Z. unfold tpm2_rest.
    cbn [t2_class t2_base t2_sm t2_plen t2_params t2_laml t2_lasa opt_bytes firstn app]. rewrite !zsum_app.
    change (zsum (w2 0)) with 0%Z. cbn [zsum Z.of_N]. f_equal. lia.
  - intros _. repeat split.
Qed.

(* the state after set_log_area(laml, lasa) at length 52 *)
Definition tpm2_logged (s : tpm2) (laml lasa : N) : tpm2 :=
  let ck := fold_left ck_step [CkDelete (d4 52); CkAppend (d4 76); CkAppend (d4 laml); CkAppend (q8 lasa)] (t2_ck s) in
  {| t2_hdr := t2_hdr s; t2_len := 76; t2_hck := ck_value ck; t2_ck := ck; t2_class := t2_class s;
     t2_base := t2_base s; t2_sm := t2_sm s; t2_params := t2_params s; t2_plen := 12;
     t2_laml := Some laml; t2_lasa := Some lasa |}.

(* set_log_area is the only operation and is accepted at length 52 only; 52 + 24 overflows in neither build mode *)
Lemma tpm2_step_iff md s o s' e : tpm2_step md s o = Some (s', e) <->
  t2_len s = 52 /\ exists laml lasa, o = SL [SA 1; SA laml; SA lasa] /\ s' = tpm2_logged s laml lasa /\ e = [EvNum 0].
Proof.
  split.
  - intros H. unfold tpm2_step in H. break_sx H.
    destruct (N.eqb_spec (t2_len s) 52) as [E52|]; [|discriminate]. cbn [assert option_bind] in H.
    rewrite E52 in H. replace (add_m md U32 52 24) with (Some 76) in H by (destruct md; reflexivity). cbn [option_bind] in H.
    apply Some_pair_inj in H as [<- <-]. split; [exact E52|]. eexists _, _. repeat split.
  - intros (E & laml & lasa & -> & -> & ->). unfold tpm2_step. rewrite E. destruct md; reflexivity.
Qed.

Lemma tpm2_step_inv md s o s' e : tpm2_inv s -> tpm2_step md s o = Some (s', e) -> tpm2_inv s'.
Proof.
  intros [Hh Hl Hsm Hlt Hck Hhck Hp Hf] H. apply tpm2_step_iff in H as (E52 & laml & lasa & _ & -> & _).
  rewrite E52 in *. destruct (Hf eq_refl) as (Hpl & Hla & Hls). unfold tpm2_logged.
  set (ck' := fold_left ck_step _ (t2_ck s)).
  constructor; cbn [t2_hdr t2_len t2_hck t2_ck t2_params t2_plen t2_laml t2_lasa].
  - exact Hh.
  - rewrite tpm2_bytes_rest, hdr_image_length by exact Hh. unfold tpm2_rest.
    cbn [t2_class t2_base t2_sm t2_plen t2_params t2_laml t2_lasa opt_bytes]. rewrite Hp.
    unfold w2, d4, q8. rewrite !app_length, !length_le. reflexivity.
  - reflexivity.
  - apply ck_fold_lt. exact Hlt.
  - unfold ck'. rewrite (ck_fold_tracks _ _ _ Hck).
    unfold tpm2_rest. cbn [t2_hdr t2_len t2_class t2_base t2_sm t2_plen t2_params t2_laml t2_lasa opt_bytes].
    rewrite Hp, Hpl, Hla, Hls. cbn [opt_bytes firstn repeatN app].
    rewrite (zsum_hdr_bytes _ 52 0), (zsum_hdr_bytes _ 76 0).
    cbn [net op_added op_removed]. unfold w2, d4, q8. rewrite !zsum_app. cbn [zsum]. rewrite ?zsum_app.
    change (0 mod 256) with 0. change (Z.of_N 0) with 0%Z. f_equal. lia.
  - reflexivity.
  - exact Hp.
  - intros H. discriminate H.
Qed.

(* C01, C02 for the TPM2 table: zero or one call of set_log_area (more are refused) *)
Theorem tpm2_sum_len md c ops s0 s :
  tpm2_new c = Some s0 -> run_steps (tpm2_step md) s0 ops = Some s ->
  sum8 (tpm2_bytes s) = 0 /\ field_at (tpm2_bytes s) 4 4 = N.of_nat (length (tpm2_bytes s)).
Proof.
  intros Hn Hr. apply tpm2_inv_good.
  exact (run_steps_ctor _ _ tpm2_inv tpm2_new_inv (tpm2_step_inv md) c ops s0 s Hn Hr).
Qed.

Lemma tpm2_second_refused md s o s' e o' : tpm2_inv s -> tpm2_step md s o = Some (s', e) -> tpm2_step md s' o' = None.
Proof.
  intros _ H. apply tpm2_step_iff in H as (_ & laml & lasa & _ & -> & _).
  destruct (tpm2_step md _ o') as [[s2 e2]|] eqn:E; [|reflexivity].
  apply tpm2_step_iff in E as [E _]. discriminate E.
Qed.
