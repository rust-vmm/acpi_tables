(* Bit operations as arithmetic: masks, shifts, disjoint ors, and the flag bytes the encoders assemble with them. *)
From Coq Require Import NArith List Lia Bool.
From ACPI Require Import Lib.Bytes Lib.Machine.
Import ListNotations.
Open Scope N_scope.

Lemma land_ones_k x k : N.land x (N.ones k) = x mod 2 ^ k.
Proof. apply N.land_ones. Qed.

Lemma shiftl_mul x k : N.shiftl x k = x * 2 ^ k.
Proof. apply N.shiftl_mul_pow2. Qed.

(* Or-ing a field into zero bits adds it: one fact, in the five shapes in which the proofs meet it. *)
Lemma lor_disjoint a b k : a < 2 ^ k -> N.lor (b * 2 ^ k) a = b * 2 ^ k + a.
Proof.
  intros Ha.
  assert (Hland : N.land (b * 2 ^ k) a = 0).
  { apply N.bits_inj_0. intros i. rewrite N.land_spec.
    destruct (N.lt_ge_cases i k) as [Hi|Hi].
    - rewrite N.mul_pow2_bits_low by exact Hi. reflexivity.
    - destruct (N.eq_dec a 0) as [->|Hnz]; [rewrite N.bits_0; apply andb_false_r|].
      rewrite (N.bits_above_log2 a i); [apply andb_false_r|].
      apply N.log2_lt_pow2 in Ha; lia. }
  rewrite <- N.lxor_lor by exact Hland.
  symmetry. apply N.add_nocarry_lxor. exact Hland.
Qed.

Lemma lor_disjoint' a b k : a < 2 ^ k -> N.lor a (b * 2 ^ k) = b * 2 ^ k + a.
Proof. intros H. rewrite N.lor_comm. now apply lor_disjoint. Qed.

Lemma lor_add_low hi lo k : hi mod 2 ^ k = 0 -> lo < 2 ^ k -> N.lor hi lo = hi + lo.
Proof.
  intros Hhi Hlo.
  assert (Hp : 2 ^ k <> 0) by (apply N.pow_nonzero; lia).
  rewrite (N.div_mod hi (2 ^ k) Hp) at 1 2. rewrite Hhi, N.add_0_r.
  rewrite (N.mul_comm (2 ^ k)). now apply lor_disjoint.
Qed.

Lemma lor_field v k hi lo : hi = v * 2 ^ k -> lo < 2 ^ k -> N.lor hi lo = hi + lo.
Proof. intros -> H. now apply lor_disjoint. Qed.

Lemma lor_shiftl_6 c y : y < 16 -> N.lor (N.shiftl c 6) y = c * 64 + y.
Proof.
  intros H. rewrite shiftl_mul.
  change 64 with (2 ^ 6). apply lor_disjoint. lia.
Qed.

Lemma lor_lt a b n : a < 2 ^ n -> b < 2 ^ n -> N.lor a b < 2 ^ n.
Proof.
  intros Ha Hb.
  destruct (N.eq_dec (N.lor a b) 0) as [Hz|Hnz].
  - rewrite Hz. assert (Hp : 2 ^ n <> 0) by (apply N.pow_nonzero; lia). lia.
  - assert (Hn : n <> 0).
    { intros ->. change (2 ^ 0) with 1 in Ha, Hb. assert (a = 0) by lia. assert (b = 0) by lia. subst. now apply Hnz. }
    apply N.log2_lt_pow2; [lia|]. rewrite N.log2_lor. apply N.max_lub_lt.
    + destruct (N.eq_dec a 0) as [->|Ha0]; [change (N.log2 0) with 0; lia|]. apply N.log2_lt_pow2; [lia|exact Ha].
    + destruct (N.eq_dec b 0) as [->|Hb0]; [change (N.log2 0) with 0; lia|]. apply N.log2_lt_pow2; [lia|exact Hb].
Qed.

(* the flag bytes of DefField, DefMethod, the address-space descriptors and the extended interrupt descriptor *)
Lemma field_flags ac lk up :
  ac < 16 -> lk <= 1 -> N.lor (N.lor ac (N.shiftl lk 4)) (N.shiftl up 5) = ac + 16 * lk + 32 * up.
Proof.
  intros Ha Hl. rewrite !shiftl_mul.
  rewrite (lor_disjoint' ac lk 4) by exact Ha.
  rewrite (lor_disjoint' (lk * 2 ^ 4 + ac) up 5) by lia. lia.
Qed.

Lemma method_flags ar sr : ar <= 7 -> sr <= 1 -> N.lor (N.land ar 7) (N.shiftl sr 3) = ar + 8 * sr.
Proof.
  intros Ha Hs.
  assert (Ha' : ar = 0 \/ ar = 1 \/ ar = 2 \/ ar = 3 \/ ar = 4 \/ ar = 5 \/ ar = 6 \/ ar = 7) by lia.
  assert (Hs' : sr = 0 \/ sr = 1) by lia.
  destruct Ha' as [->|[->|[->|[->|[->|[->|[->| ->]]]]]]]; destruct Hs' as [->| ->]; reflexivity.
Qed.

Lemma tflags_mem ca rw : ca < 4 -> rw < 2 -> N.lor (cast U8 (N.shiftl ca 1)) rw = ca * 2 + rw.
Proof.
  intros Hc Hr.
  assert (C : ca = 0 \/ ca = 1 \/ ca = 2 \/ ca = 3) by lia. assert (R : rw = 0 \/ rw = 1) by lia.
  destruct C as [->|[->|[->| ->]]], R as [->| ->]; reflexivity.
Qed.

Lemma irq_flags c e a s :
  c < 2 -> e < 2 -> a < 2 -> s < 2 ->
  N.lor (N.lor (N.lor (N.shiftl s 3) (N.shiftl a 2)) (N.shiftl e 1)) c = c + 2 * e + 4 * a + 8 * s.
Proof.
  intros Hc He Ha Hs.
  assert (C : c = 0 \/ c = 1) by lia. assert (E : e = 0 \/ e = 1) by lia.
  assert (A : a = 0 \/ a = 1) by lia. assert (S : s = 0 \/ s = 1) by lia.
  destruct C as [->| ->], E as [->| ->], A as [->| ->], S as [->| ->]; reflexivity.
Qed.

Lemma range_spec lo hi c : BoolSpec (lo <= c <= hi) (c < lo \/ hi < c) ((lo <=? c) && (c <=? hi)).
Proof. destruct (N.leb_spec lo c), (N.leb_spec c hi); constructor; lia. Qed.
