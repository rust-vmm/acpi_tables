(* C05, second half, on the REFERENCE images of the four handle tables: every reference field built from a handle reference
   (104 k) holds, at its specification offset inside the referencing node, exactly the offset at which the walk finds node k,
   and node k has the type the field requires.
     PPTT  processor node: Parent (+8, a processor node), private resources (+20 + 4 j, cache nodes);
           cache node: Next Level of Cache (+8, a cache node)
     RHCT  hart info node: offsets (+12 + 4 j; the first an ISA string node, the others CMO nodes)
     RIMT  PCIe root complex / platform device: ID mapping j, Destination IOMMU Offset (+ mapping array + 20 j + 12, an IOMMU)
     VIOT  PCI range / MMIO endpoint: Output Node (+16, a translation node)
   [<t>_refs_hold img pre o] is the statement about an arbitrary image [img]: "o was applied after the operations [pre]; the
   walk over [img] finds the node of o as entry number (length pre), and each of its reference fields, decoded with
   [field_at] at (start of that node + field offset), names the node it refers to" ([names_node], Proofs/WalkRefCommon2P.v).
   Each table contributes two facts: its reference image is header ++ fixed part ++ nodes ([image3_body] of
   Proofs/WalkRefCommon2P.v; rhct_image_eq of RhctWalkRefP.v), so that [body_cut] cuts a history at one operation (<t>_cut, here); and the
   node of an operation holds, in each reference field, the value its argument resolves to in the bookkeeping of the prefix
   (<t>_*_refs); [cut_at_fields] does the rest.
   Props/C05.v states the same with definitions of its own, [c05_names] = [names_node] and [c05_<t>_refs] = [<t>_refs_hold]
   (the same terms, written there so that its statements can be read without this file): c05_<t>_reference_fields are
   closed by <t>_reference_fields as they stand.
   The statements are about the Spec layer only; Proofs/HandleModelP.v transports them to the image of the Impl model. *)
From Coq Require Import NArith List Lia Bool Arith.
From ACPI Require Import Lib.Bytes Lib.Sx Impl.Table Spec.Layout Spec.PpttS Spec.RhctS Spec.RimtS Spec.ViotS
  Proofs.WalkP Proofs.WalkRefCommon2P Proofs.SelfCommonP
  Proofs.PpttSelfP Proofs.PpttWalkRefP Proofs.RhctWalkRefP Proofs.RimtRefP Proofs.RimtWalkRefP Proofs.ViotWalkRefP Proofs.BaseP Proofs.RimtStructP Proofs.ViotStructP Proofs.RhctStructP Proofs.PpttStructP.
Import ListNotations.

Open Scope N_scope.

(* the arguments from which the reference fields of a processor node are built: the LAST assignment of the parent (the
   constructor argument, then every builder (8 x)), the add_cache builders (6 h) in order; of a cache node: the last
   next_level setter (9 h) *)
Fixpoint pptt_last_parent (bs : list sx) (acc : sx) : sx :=
  match bs with
  | [] => acc
  | SL [SA 8; x] :: r => pptt_last_parent r x
  | _ :: r => pptt_last_parent r acc
  end.

Fixpoint pptt_resource_args (bs : list sx) : list sx :=
  match bs with
  | [] => []
  | SL [SA 6; h] :: r => h :: pptt_resource_args r
  | _ :: r => pptt_resource_args r
  end.

Fixpoint pptt_last_next (st : list sx) (acc : option sx) : option sx :=
  match st with
  | [] => acc
  | SL [SA 9; h] :: r => pptt_last_next r (Some h)
  | _ :: r => pptt_last_next r acc
  end.

Lemma resolve_all_app p ty a b ca cb : resolve_all p ty a = Some ca -> resolve_all p ty b = Some cb ->
  resolve_all p ty (a ++ b) = Some (ca ++ cb).
Proof.
  revert ca. induction a as [|x a IH]; intros ca Ha Hb; cbn [resolve_all app] in *.
  - apply Some_inj in Ha. subst ca. exact Hb.
  - destruct (resolve p ty x) as [c|]; [|discriminate Ha]. destruct (resolve_all p ty a) as [ca'|]; [|discriminate Ha].
    apply Some_inj in Ha. subst ca. rewrite (IH ca' eq_refl Hb). reflexivity.
Qed.

(* the builder fold of the Spec against the two summaries: the parent is the value of the last assignment, the private
   resources are the resolved add_cache arguments, most recent first *)
Lemma proc_builders_refs p : forall bs fl par uid rres fl' par' uid' rres' acc,
  proc_builders p (fl, par, uid, rres) bs = Some (fl', par', uid', rres') ->
  pptt_par_val p acc = Some par ->
  pptt_par_val p (pptt_last_parent bs acc) = Some par' /\
  exists cs, resolve_all p 1 (pptt_resource_args bs) = Some cs /\ rres' = rev cs ++ rres.
Proof.
  induction bs as [|b bs IH]; intros fl par uid rres fl' par' uid' rres' acc H Hpar; cbn [proc_builders] in H.
  - apply Some_inj in H. injection H as <- <- <- <-. cbn [pptt_last_parent pptt_resource_args resolve_all].
    split; [exact Hpar|]. exists []. split; reflexivity.
  - destruct (proc_builder p (fl, par, uid, rres) b) as [st1|] eqn:Eb; [|discriminate H]. apply proc_builder_cases in Eb.
    (* add_cache(&handle) (6 h) puts a resolved cache reference in front of the private resources; (8 x) assigns the parent;
       every other builder leaves both alone, and the two summaries skip it *)
    destruct Eb as [| | | | |h c Ec|v _|x v Ev|v _]; cbn [pptt_last_parent pptt_resource_args];
      try exact (IH _ _ _ _ _ _ _ _ acc H Hpar).
    + destruct (IH _ _ _ _ _ _ _ _ acc H Hpar) as (Hp & cs & Hcs & ->).
      split; [exact Hp|]. exists (c :: cs). cbn [resolve_all]. rewrite Ec, Hcs.
      split; [reflexivity|]. cbn [rev]. rewrite <- app_assoc. reflexivity.
    + exact (IH _ _ _ _ _ _ _ _ x H (pptt_par_val_raw p x v Ev)).
Qed.

Lemma last_next_level_refs p : forall st acc next a, last_next_level p st acc = Some next ->
  (match a with Some x => resolve p 1 x = Some acc | None => True end) ->
  match pptt_last_next st a with Some x => resolve p 1 x = Some next | None => True end.
Proof.
  induction st as [|s st IH]; intros acc next a H Ha; cbn [last_next_level] in H.
  - apply Some_inj in H. subst next. exact Ha.
  - pose proof H as H0. break_sx H0;
      try (cbn [pptt_last_next]; exact (IH _ _ a H Ha)).
    match type of H with context [resolve p 1 ?x] => destruct (resolve p 1 x) as [c|] eqn:Ec; [|discriminate H] end.
    cbn [pptt_last_next]. match type of Ec with resolve p 1 ?x = _ => exact (IH _ _ (Some x) H Ec) end.
Qed.

(* what the reference fields of a processor node hold *)
Lemma pptt_proc_refs p parent uid bs e : pptt_entry_ref p (SL [SA 1; parent; SA uid; SL bs]) = Some e ->
  sp_ty e = 0 /\ length e = (20 + 4 * length (pptt_resource_args bs))%nat /\
  (forall k, pptt_last_parent bs parent = SL [SA 104; SA k] ->
     exists v, resolve p 0 (SL [SA 104; SA k]) = Some v /\ field_at e 8 4 = v mod 2 ^ 32) /\
  (forall j x, nth_error (pptt_resource_args bs) j = Some x ->
     exists v, resolve p 1 x = Some v /\ field_at e (20 + 4 * j) 4 = v mod 2 ^ 32).
Proof.
  intros He. apply pptt_entry_ref_cases in He as (d & Hop & _ & ->).
  inversion Hop as [? ? ? par0 [[[flags par] id] rres] Hpar0 Hb|]; subst.
  destruct (proc_builders_refs p bs _ _ _ _ _ _ _ _ parent Hb Hpar0) as (Hpar & cs & Hcs & Hrres).
  rewrite app_nil_r in Hrres. subst rres.
  set (d := NProc _). destruct (resolve_all_nth p 1 _ _ Hcs) as [Hlcs Hncs].
  split; [exact (pptt_node_ty d)|]. split.
  { rewrite (pptt_node_length d). change (pptt_node_size d) with (20 + 4 * length (rev cs))%nat. now rewrite rev_length, Hlcs. }
  split.
  - intros k Hk. rewrite Hk in Hpar. exists par. split; [exact Hpar|exact (pptt_node_field d 8 4 par eq_refl)].
  - intros j x Hx. destruct (Hncs j x Hx) as (c & Hc & Hrc). exists c. split; [exact Hrc|].
    apply (pptt_node_resource _ j c). change (nth_error (rev (rev cs)) j = Some c). now rewrite rev_involutive.
Qed.

(* ... and of a cache node *)
Lemma pptt_cache_refs p st e : pptt_entry_ref p (SL [SA 2; SL st]) = Some e ->
  sp_ty e = 1 /\ length e = 28%nat /\
  forall x, pptt_last_next st None = Some x -> exists v, resolve p 1 x = Some v /\ field_at e 8 4 = v mod 2 ^ 32.
Proof.
  intros He. apply pptt_entry_ref_cases in He as (d & Hop & _ & ->). inversion Hop as [|? next _ Hnl]; subst.
  set (d := NCache _ _ _ _ _ _ _ _). split; [exact (pptt_node_ty d)|]. split; [exact (pptt_node_length d)|].
  intros x Hx. pose proof (last_next_level_refs p st 0 next None Hnl I) as Hr. rewrite Hx in Hr.
  exists next. split; [exact Hr|exact (pptt_node_field d 8 4 next eq_refl)].
Qed.

Lemma pptt_cut ctor pre o post r : ts_image pptt_spec ctor (pre ++ o :: post) = Some r ->
  cut_at pptt_spec 36 H_u8_u8 sp_ty (pl_cut pptt_entry_ref sp_ty 36) ctor pre o post r.
Proof.
  apply (body_cut pptt_spec [80; 80; 84; 84] 36 unit ctor3 pptt_entries_ref (fun _ _ => []) (fun _ _ => true)
           eq_refl ctor3_len (fun _ _ => eq_refl) (image3_body _ KPptt _) H_u8_u8 sp_ty
           (fun ops es H => entry_good_self _ _ _ es (pptt_entries_good ops es H)) _ (fun _ _ _ _ => eq_refl)).
  unfold pptt_entries_ref. intros pre' o' post' es. rewrite !pptt_entries_from_pl.
  exact (pl_split_at pptt_entry_ref sp_ty 36 pre' o' post' es).
Qed.

Definition pptt_refs_hold (img : list N) (pre : list sx) (o : sx) : Prop :=
  exists found ty start len,
    walk (S (length img)) H_u8_u8 36 (skipn 36 img) = Some found /\
    nth_error found (length pre) = Some (ty, start, len) /\
    (forall parent uid bs, o = SL [SA 1; parent; SA uid; SL bs] ->
       ty = 0 /\ len = (20 + 4 * length (pptt_resource_args bs))%nat /\
       (forall k, pptt_last_parent bs parent = SL [SA 104; SA k] ->
          names_node found (length pre) (SL [SA 104; SA k]) 0 (field_at img (start + 8) 4)) /\
       (forall j x, nth_error (pptt_resource_args bs) j = Some x ->
          names_node found (length pre) x 1 (field_at img (start + 20 + 4 * j) 4))) /\
    (forall st, o = SL [SA 2; SL st] ->
       ty = 1 /\ len = 28%nat /\
       (forall x, pptt_last_next st None = Some x ->
          names_node found (length pre) x 1 (field_at img (start + 8) 4))).

Theorem pptt_reference_fields : forall ctor pre o post r,
  ts_image pptt_spec ctor (pre ++ o :: post) = Some r -> N.of_nat (length r) < 2 ^ 32 ->
  pptt_refs_hold r pre o.
Proof.
  intros ctor pre o post r H Hfit.
  apply (cut_at_fields _ _ _ _ _ _ _ _ _ _ _ (pptt_cut ctor pre o post r H)). intros es1 e tail (p & He & Hnames) Hl1 Hw Hn Hfield.
  unfold pptt_refs_hold. rewrite <- Hl1. eexists _, _, _, _. split; [exact Hw|]. split; [exact Hn|]. split.
  - intros parent uid bs ->. destruct (pptt_proc_refs _ _ _ _ _ He) as (Hty & Hlen & Hpar & Hres).
    split; [exact Hty|]. split; [exact Hlen|]. split.
    + intros k Hk. destruct (Hpar k Hk) as (v & Hv & Hf).
      apply (Hfield _ _ v 8%nat 4%nat _ (Hnames _ _ _ Hv) Hfit); [clear - Hlen; lia|exact Hf].
    + intros j x Hx. destruct (Hres j x Hx) as (v & Hv & Hf). rewrite <- Nat.add_assoc.
      apply (Hfield _ _ v _ 4%nat _ (Hnames _ _ _ Hv) Hfit); [|exact Hf]. apply nth_error_Some_lt in Hx. clear - Hx Hlen. lia.
  - intros st ->. destruct (pptt_cache_refs _ _ _ He) as (Hty & Hlen & Hnext).
    split; [exact Hty|]. split; [exact Hlen|].
    intros x Hx. destruct (Hnext x Hx) as (v & Hv & Hf).
    apply (Hfield _ _ v 8%nat 4%nat _ (Hnames _ _ _ Hv) Hfit); [clear - Hlen; lia|exact Hf].
Qed.

Lemma rhct_cut ctor pre o post r : ts_image rhct_spec ctor (pre ++ o :: post) = Some r ->
  cut_at rhct_spec 56 H_u16_u16 rhct_ty (pl_cut rhct_entry_ref rhct_ty 56) ctor pre o post r.
Proof.
  apply (body_cut rhct_spec [82; 72; 67; 84] 56 N ctor4 rhct_entries_ref rhct_fixed rhct_ok eq_refl ctor4_len
           (fun _ _ => eq_refl) rhct_image_eq).
  - intros ops es H. exact (entry_good_self _ _ _ es (rhct_entries_good ops es H)).
  - intros tb es1 es2 H. apply andb_true_iff in H. destruct H as [Htb H]. apply N.ltb_lt in H.
    apply andb_true_iff. split; [exact Htb|]. apply N.ltb_lt. rewrite app_length in H. lia.
  - unfold rhct_entries_ref. intros pre' o' post' es. rewrite !rhct_entries_from_pl.
    exact (pl_split_at rhct_entry_ref rhct_ty 56 pre' o' post' es).
Qed.

(* what the offsets of a hart info node hold *)
Lemma rhct_hart_refs p uid isa cmos e : rhct_entry_ref p (SL [SA 4; SA uid; isa; SL cmos]) = Some e ->
  rhct_ty e = 65535 /\ length e = (12 + 4 * S (length cmos))%nat /\
  forall j x, nth_error (isa :: cmos) j = Some x ->
    exists v, resolve p (if Nat.eqb j 0 then 0 else 1) x = Some v /\ field_at e (12 + 4 * j) 4 = v mod 2 ^ 32.
Proof.
  intros H. apply rhct_entry_ref_cases in H as (d & Hop & Hfit & ->). inversion Hop as [| | |? ? ? i cs Hi Hcs]; subst.
  pose proof (rhct_node_length (RhHart uid (i :: cs))) as Hlen. cbn [rhct_node_size] in Hlen.
  pose proof (rhct_node_offset uid (i :: cs)) as Hfa.
  destruct (resolve_all_nth p 1 _ _ Hcs) as [Hlcs Hncs].
  cbn [length] in Hlen. split; [exact (rhct_node_field (RhHart uid (i :: cs)) 0 2 65535 eq_refl)|].
  split; [rewrite Hlen, Hlcs; reflexivity|].
  intros [|j] x Hx; cbn [nth_error] in Hx; cbn [Nat.eqb].
  - apply Some_inj in Hx. subst x. exists i. split; [exact Hi|exact (Hfa 0%nat i eq_refl)].
  - destruct (Hncs j x Hx) as (c & Hc & Hrc). exists c. split; [exact Hrc|exact (Hfa (S j) c Hc)].
Qed.

Definition rhct_refs_hold (img : list N) (pre : list sx) (o : sx) : Prop :=
  forall uid isa cmos, o = SL [SA 4; SA uid; isa; SL cmos] ->
  exists found start,
    walk (S (length img)) H_u16_u16 56 (skipn 56 img) = Some found /\
    nth_error found (length pre) = Some (65535, start, (12 + 4 * S (length cmos))%nat) /\
    forall j x, nth_error (isa :: cmos) j = Some x ->
      names_node found (length pre) x (if Nat.eqb j 0 then 0 else 1) (field_at img (start + 12 + 4 * j) 4).

Theorem rhct_reference_fields : forall ctor pre o post r,
  ts_image rhct_spec ctor (pre ++ o :: post) = Some r -> N.of_nat (length r) < 2 ^ 32 ->
  rhct_refs_hold r pre o.
Proof.
  intros ctor pre o post r H Hfit uid isa cmos ->.
  apply (cut_at_fields _ _ _ _ _ _ _ _ _ _ _ (rhct_cut ctor pre _ post r H)). intros es1 e tail (p & He & Hnames) Hl1 Hw Hn Hfield.
  destruct (rhct_hart_refs _ _ _ _ _ He) as (Hty & Hlen & Hrefs).
  rewrite <- Hl1. eexists _, _. split; [exact Hw|]. split; [rewrite Hn, Hty, Hlen; reflexivity|].
  intros j x Hx. destruct (Hrefs j x Hx) as (v & Hv & Hf). rewrite <- Nat.add_assoc.
  apply (Hfield x _ v _ 4%nat _ (Hnames _ _ _ Hv) Hfit); [|exact Hf].
  apply nth_error_Some_lt in Hx. cbn [length] in Hx. clear - Hx Hlen. lia.
Qed.

(* the output-node argument of an endpoint operation *)
Definition viot_out_arg (o : sx) : option sx :=
  match o with
  | SL [SA 1; _; _; h] => Some h
  | SL [SA 2; _; _; h] => Some h
  | _ => None
  end.

(* the VIOT Spec bounds the table by 2^16 bytes: node offsets are 16 bits wide *)
Lemma viot_image_small16 ctor ops r : ts_image viot_spec ctor ops = Some r -> N.of_nat (length r) < 2 ^ 16.
Proof.
  intros H. destruct (viot_image_body ctor ops r H) as (es & Ees & Hsk & _). apply viot_entries_ref_iff in Ees as [_ Hsmall].
  apply (f_equal (@length N)) in Hsk. rewrite skipn_length in Hsk. lia.
Qed.

Lemma viot_cut ctor pre o post r : ts_image viot_spec ctor (pre ++ o :: post) = Some r ->
  cut_at viot_spec 48 H_u8_x_u16 sp_ty (sp_cut viot_entry_ref 48) ctor pre o post r.
Proof.
  apply (body_cut viot_spec [86; 73; 79; 84] 48 unit ctor3 viot_entries_ref (fun _ n => mid_layout KViot (N.of_nat n))
           (fun _ _ => true) eq_refl ctor3_len (fun _ _ => eq_refl) (image3_body _ KViot _)).
  - intros ops es H. exact (entry_good_self _ _ _ es (viot_entries_good ops es H)).
  - reflexivity.
  - (* the size limit of [viot_entries_ref] holds of the prefix as well *)
    intros pre' o' post' es H. apply viot_entries_ref_iff in H as [H Hsmall].
    destruct (sp_split_at viot_entry_ref 48 pre' o' post' es H) as (es1 & e & tail & -> & Hpre & Hrest).
    exists es1, e, tail. split; [reflexivity|]. split; [|exact Hrest].
    apply viot_entries_ref_iff. split; [exact Hpre|]. rewrite concat_app, app_length in Hsmall. lia.
Qed.

(* what the Output Node field of an endpoint holds *)
Lemma viot_out_refs n rs o e x : viot_entry_ref n rs o = Some e -> viot_out_arg o = Some x ->
  (sp_ty e = 1 \/ sp_ty e = 2) /\ length e = 24%nat /\
  exists v kty, (kty = 3 \/ kty = 4) /\ sp_lookup n rs x = Some (v, kty) /\ field_at e 16 2 = v mod 2 ^ 16.
Proof.
  intros H Hx. apply viot_entry_ref_cases in H as (d & Hop & ->).
  destruct Hop as [first last href f l out _ _ Eo|ep base href out Eo| |]; cbn [viot_out_arg] in Hx; try discriminate Hx;
    apply Some_inj in Hx; subst href; destruct (viot_out_ref_inv n rs x out Eo) as (kty & Hlk & Hk).
  - (* PCI range *)
    split; [left; reflexivity|]. split; [exact (viot_node_length _)|]. exists out, kty.
    split; [exact Hk|]. split; [exact Hlk|exact (viot_node_field (VPciRange f l out) 16 2 out eq_refl)].
  - (* MMIO endpoint *)
    split; [right; reflexivity|]. split; [exact (viot_node_length _)|]. exists out, kty.
    split; [exact Hk|]. split; [exact Hlk|exact (viot_node_field (VMmioEndpoint ep base out) 16 2 out eq_refl)].
Qed.

Definition viot_refs_hold (img : list N) (pre : list sx) (o : sx) : Prop :=
  forall x, viot_out_arg o = Some x ->
  exists found ty start kty,
    walk (S (length img)) H_u8_x_u16 48 (skipn 48 img) = Some found /\
    nth_error found (length pre) = Some (ty, start, 24%nat) /\ (ty = 1 \/ ty = 2) /\
    (kty = 3 \/ kty = 4) /\
    names_node found (length pre) x kty (field_at img (start + 16) 2).

Theorem viot_reference_fields : forall ctor pre o post r,
  ts_image viot_spec ctor (pre ++ o :: post) = Some r -> viot_refs_hold r pre o.
Proof.
  intros ctor pre o post r H x Hx.
  apply (cut_at_fields _ _ _ _ _ _ _ _ _ _ _ (viot_cut ctor pre o post r H)). intros es1 e tail (n & rs & He & Hnames) Hl1 Hw Hn Hfield.
  destruct (viot_out_refs _ _ _ _ _ He Hx) as (Hty & Hlen & v & kty & Hkty & Hv & Hf).
  rewrite <- Hl1. eexists _, _, _, kty. split; [exact Hw|]. split; [rewrite Hn, Hlen; reflexivity|].
  split; [exact Hty|]. split; [exact Hkty|].
  apply (Hfield x _ v _ 2%nat _ (Hnames _ _ _ Hv) (viot_image_small16 _ _ _ H)); [clear - Hlen; lia|exact Hf].
Qed.

(* the ID mappings of a PCIe root complex / platform device operation, and the offset of the mapping array inside the
   device structure (16; 12 + name + NUL) *)
Definition rimt_map_args (o : sx) : option (nat * list sx) :=
  match o with
  | SL [SA 2; _; _; _; _; SL [SL l]] => Some (16%nat, l)
  | SL [SA 3; _; name; SL [SL l]] =>
      match sx_bytes name with Some nm => Some ((12 + length nm + 1)%nat, l) | None => None end
  | _ => None
  end.

(* the destination-IOMMU argument of an ID mapping *)
Definition rimt_map_href (m : sx) : option sx :=
  match m with SL [_; _; _; h; _; _; _] => Some h | _ => None end.

Lemma rimt_cut ctor pre o post r : ts_image rimt_spec ctor (pre ++ o :: post) = Some r ->
  cut_at rimt_spec 48 H_u8_x_u16 sp_ty (sp_cut rimt_entry_ref 48) ctor pre o post r.
Proof.
  apply (body_cut rimt_spec [82; 73; 77; 84] 48 unit ctor3 rimt_entries_ref (fun _ n => mid_layout KRimt (N.of_nat n))
           (fun _ _ => true) eq_refl ctor3_len (fun _ _ => eq_refl) (image3_body _ KRimt _)).
  - intros ops es H. exact (entry_good_self _ _ _ es (rimt_entries_good ops es H)).
  - reflexivity.
  - exact (sp_split_at rimt_entry_ref 48).
Qed.

Lemma rimt_map_ref_inv n rs m em : rimt_map_ref n rs m = Some em ->
  exists x off, rimt_map_href m = Some x /\ sp_lookup n rs x = Some (off, 0) /\ length em = 20%nat /\
                field_at em 12 4 = off mod 2 ^ 32.
Proof.
  intros H. destruct (rimt_map_ref_cases n rs m em H) as (src & dst & cnt & href & ats & pri & rciep & off & -> & El & Hl).
  exists href, off. split; [reflexivity|]. split; [exact El|]. split; [exact (proj1 (lay_decodes _ _ _ Hl))|].
  exact (lay_get 12%nat 4%nat _ Hl eq_refl).
Qed.

Lemma rimt_ref_inv n rs o e base l : rimt_entry_ref n rs o = Some e -> rimt_map_args o = Some (base, l) ->
  exists fixed ms, e = fixed ++ concat ms /\ length fixed = base /\ sp_all (rimt_map_ref n rs) l [] = Some ms /\
    Forall (fun m => length m = 20%nat) ms.
Proof.
  intros H Hx. apply rimt_entry_ref_cases in H as (d & Hop & Hel & _ & ->). destruct (rimt_dev_split d) as (fixed & Hfx & ->).
  destruct Hop as [|id seg ats pri maps ms Em|id name maps nm ms En Em]; cbn [rimt_map_args] in Hx; [discriminate Hx| |];
    cbn [rimt_spec_dec rimt_d_maps rimt_dev_tail rimt_dev_head_size rimt_dev_ok] in *; break_sx Hx.
  - (* PCIe root complex *) injection Hx as <- <-. exists fixed, ms. auto.
  - (* platform device *) rewrite En in Hx. injection Hx as <- <-.
    exists (fixed ++ map (fun b => b mod 256) nm ++ [0]), ms. split; [rewrite <- !app_assoc; reflexivity|].
    split; [|auto]. rewrite !app_length, map_length, Hfx. cbn [length]. lia.
Qed.

(* what the Destination IOMMU Offset fields of a device's ID mappings hold *)
Lemma rimt_map_refs n rs o e base l : rimt_entry_ref n rs o = Some e -> rimt_map_args o = Some (base, l) ->
  length e = (base + 20 * length l)%nat /\
  forall j m, nth_error l j = Some m ->
    exists x v, rimt_map_href m = Some x /\ sp_lookup n rs x = Some (v, 0) /\ field_at e (base + (20 * j + 12)) 4 = v mod 2 ^ 32.
Proof.
  intros He Hx. destruct (rimt_ref_inv _ _ _ _ _ _ He Hx) as (fixed & ms & -> & <- & Hms & H20).
  destruct (sp_all_spec _ _ _ Hms) as (Hlms & Hnms).
  split; [rewrite app_length, (length_concat_const 20 ms H20), Hlms; reflexivity|].
  intros j m Hm. destruct (Hnms j m Hm) as (em & Hem & Hr).
  destruct (rimt_map_ref_inv _ _ _ _ Hr) as (x & off & Hhref & Hlk & _ & Hf12).
  exists x, off. split; [exact Hhref|]. split; [exact Hlk|].
  rewrite field_at_app_r, <- (app_nil_r (concat ms)).
  rewrite (field_in_concat_const 20 ms [] 12 4 H20 j em Hem) by (clear; lia). exact Hf12.
Qed.

Definition rimt_refs_hold (img : list N) (pre : list sx) (o : sx) : Prop :=
  forall base ms, rimt_map_args o = Some (base, ms) ->
  exists found ty start,
    walk (S (length img)) H_u8_x_u16 48 (skipn 48 img) = Some found /\
    nth_error found (length pre) = Some (ty, start, (base + 20 * length ms)%nat) /\
    forall j m, nth_error ms j = Some m ->
      exists x, rimt_map_href m = Some x /\
        names_node found (length pre) x 0 (field_at img (start + base + 20 * j + 12) 4).

Theorem rimt_reference_fields : forall ctor pre o post r,
  ts_image rimt_spec ctor (pre ++ o :: post) = Some r -> N.of_nat (length r) < 2 ^ 32 ->
  rimt_refs_hold r pre o.
Proof.
  intros ctor pre o post r H Hfit base l Hx.
  apply (cut_at_fields _ _ _ _ _ _ _ _ _ _ _ (rimt_cut ctor pre o post r H)). intros es1 e tail (n & rs & He & Hnames) Hl1 Hw Hn Hfield.
  destruct (rimt_map_refs _ _ _ _ _ _ He Hx) as (Hlen & Hrefs).
  rewrite <- Hl1. eexists _, _, _. split; [exact Hw|]. split; [rewrite Hn, Hlen; reflexivity|].
  intros j m Hm. destruct (Hrefs j m Hm) as (x & v & Hhref & Hv & Hf). exists x. split; [exact Hhref|].
  rewrite <- (Nat.add_assoc _ (20 * j) 12), <- (Nat.add_assoc _ base).
  apply (Hfield x _ v _ 4%nat _ (Hnames _ _ _ Hv) Hfit); [|exact Hf].
  apply nth_error_Some_lt in Hm. clear - Hm Hlen. lia.
Qed.

Print Assumptions pptt_reference_fields.
Print Assumptions rhct_reference_fields.
Print Assumptions viot_reference_fields.
Print Assumptions rimt_reference_fields.
