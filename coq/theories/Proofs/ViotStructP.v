(* VIOT: the node an add_* call receives (viot.rs `PciRange`, `MmioEndpoint`, `VirtIoPciIommu`, `VirtIoMmioIommu`), as a value
   between the operation and the bytes.  Both entry functions -- the model's `viot_addition` and the Spec's `viot_entry_ref` --
   are "decode the operation to a node, serialise it" (`viot_addition_cases` / `_intro`, `viot_entry_ref_cases`); they differ in
   two argument decoders only (`viot_dec`).  The layout of a node is stated once (`viot_node_lay`); its size, fields,
   self-description and self-check are read off it.  Every other VIOT file starts from these. *)
From Coq Require Import NArith List.
From ACPI Require Import Lib.Bytes Lib.Sx Lib.Machine Impl.Table Impl.Viot Spec.Layout Spec.RimtS Spec.ViotS
  Proofs.BaseP Proofs.WalkP Proofs.WalkRefCommon2P Proofs.SelfCommonP.
Import ListNotations.
Open Scope N_scope.

Inductive viot_node : Type :=
| VPciRange (first last : N * N) (out : N)
| VMmioEndpoint (ep base out : N)
| VVirtioPci (dev : N * N)
| VVirtioMmio (base : N).

Definition viot_node_bytes (d : viot_node) : list N :=
  match d with
  | VPciRange f l out => pci_range_bytes f l out
  | VMmioEndpoint ep base out => mmio_endpoint_bytes ep base out
  | VVirtioPci dv => virtio_pci_bytes dv
  | VVirtioMmio base => virtio_mmio_bytes base
  end.

(* the constant len() of the node's type *)
Definition viot_node_size (d : viot_node) : nat :=
  match d with VPciRange _ _ _ | VMmioEndpoint _ _ _ => 24 | VVirtioPci _ | VVirtioMmio _ => 16 end.

Definition viot_node_addition (s : tbl) (d : viot_node) : addition :=
  {| a_style := SumAdd; a_claimed := N.of_nat (viot_node_size d); a_bytes := viot_node_bytes d;
     a_returns := match d with VVirtioPci _ | VVirtioMmio _ => true | _ => false end; a_flag := t_flag s |}.

Record viot_dec := { viot_d_pci : sx -> option (N * N); viot_d_out : sx -> option N }.
Definition viot_impl_dec (s : tbl) : viot_dec := {| viot_d_pci := viot_pci; viot_d_out := handle_ref s |}.
Definition viot_spec_dec (n : nat) (rs : sp_starts) : viot_dec := {| viot_d_pci := viot_pci_ref; viot_d_out := viot_out_ref n rs |}.

(* types 3 and 4: the reference resolves to the start of a translation node (one of the two virtio IOMMUs) *)
Lemma viot_out_ref_inv n rs x out : viot_out_ref n rs x = Some out ->
  exists ty, sp_lookup n rs x = Some (out, ty) /\ (ty = 3 \/ ty = 4).
Proof.
  unfold viot_out_ref. destruct (sp_lookup n rs x) as [[off ty]|]; [|discriminate]. intros H.
  break_sx H; apply Some_inj in H; subst off; eexists; (split; [reflexivity|]); [left|right]; reflexivity.
Qed.

Inductive viot_op (D : viot_dec) : sx -> viot_node -> Prop :=
| VOpPciRange first last href f l out : viot_d_pci D first = Some f -> viot_d_pci D last = Some l -> viot_d_out D href = Some out ->
    viot_op D (SL [SA 1; first; last; href]) (VPciRange f l out)
| VOpMmioEndpoint ep base href out : viot_d_out D href = Some out ->
    viot_op D (SL [SA 2; SA ep; SA base; href]) (VMmioEndpoint ep base out)
| VOpVirtioPci dev dv : viot_d_pci D dev = Some dv -> viot_op D (SL [SA 3; dev]) (VVirtioPci dv)
| VOpVirtioMmio base : viot_op D (SL [SA 4; SA base]) (VVirtioMmio base).

Lemma viot_op_mono D D' o d :
  (forall x p, viot_d_pci D x = Some p -> viot_d_pci D' x = Some p) ->
  (forall x h, viot_d_out D x = Some h -> viot_d_out D' x = Some h) ->
  viot_op D o d -> viot_op D' o d.
Proof. intros Hp Ho []; constructor; auto. Qed.

(* the layout of a node, as Spec/ViotS.v tabulates it *)
Definition viot_node_head (d : viot_node) : layout :=
  match d with
  | VPciRange f l out =>
      [L 0 1 1; L 1 1 0; L 2 2 24; L 4 4 (snd f); L 8 2 (fst f); L 10 2 (fst l); L 12 2 (snd f); L 14 2 (snd l);
       L 16 2 out; L 18 6 0]
  | VMmioEndpoint ep base out => [L 0 1 2; L 1 1 0; L 2 2 24; L 4 4 ep; L 8 8 base; L 16 2 out; L 18 6 0]
  | VVirtioPci dv => [L 0 1 3; L 1 1 0; L 2 2 16; L 4 2 (fst dv); L 6 2 (snd dv); L 8 8 0]
  | VVirtioMmio base => [L 0 1 4; L 1 1 0; L 2 2 16; L 4 4 0; L 8 8 base]
  end.

(* the one place where the serialisers of viot.rs and the field tables of the specification meet: both sides compute to
   the same list, once the `as u32` on the endpoint start of a PCI range is seen to write the same four bytes *)
Lemma viot_node_lay d : lay (viot_node_size d) (viot_node_head d) = Some (viot_node_bytes d).
Proof.
  destruct d as [f l out|ep base out|dv|base]; [|reflexivity|reflexivity|reflexivity].
  cbn [viot_node_bytes]. unfold pci_range_bytes.
  change (d4 (cast U32 (snd f))) with (le 4 (snd f mod 2 ^ (8 * N.of_nat 4))). rewrite le_mod. reflexivity.
Qed.

Lemma viot_node_length d : length (viot_node_bytes d) = viot_node_size d.
Proof. exact (proj1 (lay_decodes _ _ _ (viot_node_lay d))). Qed.

Lemma viot_node_size_cases d : viot_node_size d = 24%nat \/ viot_node_size d = 16%nat.
Proof. destruct d; [left|left|right|right]; reflexivity. Qed.

Lemma viot_node_field d o w v : layout_get (viot_node_head d) o w = Some v ->
  field_at (viot_node_bytes d) o w = v mod 2 ^ (8 * N.of_nat w).
Proof. exact (lay_get o w v (viot_node_lay d)). Qed.

(* the per-entry self-check of component 19 (VIOT) asks that the node have the size the specification assigns to its type *)
Lemma viot_node_good d : entry_good H_u8_x_u16 19 sp_ty (viot_node_bytes d).
Proof.
  destruct d as [f l out|ep base out|dv|base].
  - exact (lay_u8_x_u16_fixed_good 19 _ _ _ _ _ _ (viot_node_lay (VPciRange f l out)) eq_refl eq_refl (fun _ => eq_refl)).
  - exact (lay_u8_x_u16_fixed_good 19 _ _ _ _ _ _ (viot_node_lay (VMmioEndpoint ep base out)) eq_refl eq_refl (fun _ => eq_refl)).
  - exact (lay_u8_x_u16_fixed_good 19 _ _ _ _ _ _ (viot_node_lay (VVirtioPci dv)) eq_refl eq_refl (fun _ => eq_refl)).
  - exact (lay_u8_x_u16_fixed_good 19 _ _ _ _ _ _ (viot_node_lay (VVirtioMmio base)) eq_refl eq_refl (fun _ => eq_refl)).
Qed.

Lemma viot_node_self d : self_describing H_u8_x_u16 (viot_node_bytes d) (sp_ty (viot_node_bytes d)).
Proof. exact (proj1 (viot_node_good d)). Qed.

Lemma viot_addition_cases s o e : viot_addition s o = Some e ->
  exists d, viot_op (viot_impl_dec s) o d /\ e = viot_node_addition s d.
Proof.
  intros H. unfold viot_addition in H. split_matches H; apply Some_inj in H; subst e;
    eexists; (split; [econstructor; cbn [viot_impl_dec viot_d_pci viot_d_out]; eassumption|reflexivity]).
Qed.

Lemma viot_addition_intro s o d : viot_op (viot_impl_dec s) o d -> viot_addition s o = Some (viot_node_addition s d).
Proof.
  intros [first last href f l out Ef El Eo|ep base href out Eo|dev dv Ed|base];
    cbn [viot_impl_dec viot_d_pci viot_d_out] in *; cbn [viot_addition].
  - rewrite Ef, El, Eo. reflexivity.
  - rewrite Eo. reflexivity.
  - rewrite Ed. reflexivity.
  - reflexivity.
Qed.

(* on a decoded node the Spec's entry function is, by computation, the checked layout of the node *)
Lemma viot_ref_case D o d e : viot_op D o d -> lay (viot_node_size d) (viot_node_head d) = Some e ->
  exists d, viot_op D o d /\ e = viot_node_bytes d.
Proof. intros Hop H. rewrite viot_node_lay in H. exists d. split; [exact Hop|symmetry; exact (Some_inj _ _ H)]. Qed.

Lemma viot_entry_ref_cases n rs o e : viot_entry_ref n rs o = Some e ->
  exists d, viot_op (viot_spec_dec n rs) o d /\ e = viot_node_bytes d.
Proof.
  intros H. op_cases H o l of viot_entry_ref.
  - (* 3: virtio-pci IOMMU *)
    arg_any H l dev. arg_end H l.
    destruct (viot_pci_ref dev) as [dv|] eqn:Ed; [|discriminate H].
    exact (viot_ref_case _ _ _ e (VOpVirtioPci (viot_spec_dec n rs) dev dv Ed) H).
  - (* 4: virtio-mmio IOMMU *)
    arg_num H l base. arg_end H l.
    exact (viot_ref_case _ _ _ e (VOpVirtioMmio (viot_spec_dec n rs) base) H).
  - (* 2: MMIO endpoint *)
    arg_num H l ep. arg_num H l base. arg_any H l href. arg_end H l.
    destruct (viot_out_ref n rs href) as [out|] eqn:Eo; [|discriminate H].
    exact (viot_ref_case _ _ _ e (VOpMmioEndpoint (viot_spec_dec n rs) ep base href out Eo) H).
  - (* 1: PCI range *)
    arg_any H l first. arg_any H l last. arg_any H l href. arg_end H l.
    destruct (viot_pci_ref first) as [f|] eqn:Ef; [|discriminate H].
    destruct (viot_pci_ref last) as [la|] eqn:El; [|discriminate H].
    destruct (viot_out_ref n rs href) as [out|] eqn:Eo; [|discriminate H].
    exact (viot_ref_case _ _ _ e (VOpPciRange (viot_spec_dec n rs) first last href f la out Ef El Eo) H).
Qed.
