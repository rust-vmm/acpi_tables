(* VIOT, C03 and C05 on the reference image: for every history in the domain of Spec/ViotS.v the reference image is exactly
   tiled by the nodes that were added (walk from offset 48 by each node's own 16-bit length field at its bytes 2..3), the
   node count (offset 36) is the number of nodes and the node offset (offset 38) is 48; every node has the size the
   specification assigns to its type; and the offsets the Spec keeps for handle references are those the walk finds. *)
From Coq Require Import NArith List Lia.
From ACPI Require Import Lib.Sx Impl.Table Spec.Layout Spec.RimtS Spec.ViotS Judge
  Proofs.WalkP Proofs.WalkRefCommon2P Proofs.SelfCommonP Proofs.BaseP Proofs.ViotStructP.
Import ListNotations.
Open Scope N_scope.

Lemma viot_entry_good n rs o e : viot_entry_ref n rs o = Some e -> entry_good H_u8_x_u16 19 sp_ty e.
Proof. intros H. apply viot_entry_ref_cases in H as (d & _ & ->). exact (viot_node_good d). Qed.

(* the Spec bounds the table by 2^16 bytes: node offsets are 16 bits wide *)
Lemma viot_entries_ref_iff ops es : viot_entries_ref ops = Some es <->
  sp_entries viot_entry_ref ops 48 0 [] [] = Some es /\ 48 + N.of_nat (length (concat es)) < 2 ^ 16.
Proof.
  unfold viot_entries_ref. destruct (sp_entries viot_entry_ref ops 48 0 [] []) as [es'|].
  2:{ split; [discriminate|intros [H _]; discriminate H]. }
  destruct (N.ltb_spec (48 + N.of_nat (length (concat es'))) (2 ^ 16)) as [Hs|Hs].
  - split; [intros H; apply Some_inj in H; subst es'; auto|intros [H _]; exact H].
  - split; [discriminate|]. intros [H Hs']. apply Some_inj in H. subst es'. lia.
Qed.

Lemma viot_entries_good ops es : viot_entries_ref ops = Some es -> Forall (entry_good H_u8_x_u16 19 sp_ty) es.
Proof.
  intros H. apply viot_entries_ref_iff in H as [H _].
  exact (sp_entries_forall viot_entry_ref _ viot_entry_good ops _ _ _ es H).
Qed.

Definition viot_ref : reftable viot_spec 19 (fun _ => True).
Proof.
  refine (image3_reftable viot_spec 19 _ [86; 73; 79; 84] KViot H_u8_x_u16 sp_ty viot_entries_ref eq_refl eq_refl
            (fun _ _ => eq_refl) (fun _ _ => eq_refl) viot_entries_good _).
  intros ops es r Ees _ _ o w v [E|[E|[]]]; injection E as <- <- <-.
  - split; [left; reflexivity|]. (* the node count: there are fewer nodes than bytes, and the table is below 2^16 bytes *)
    pose proof (concat_len_ge es (self_describing_pos _ _ es (entry_good_self _ _ _ es (viot_entries_good ops es Ees)))).
    apply viot_entries_ref_iff in Ees as [_ Hsmall].
    change (2 ^ (8 * N.of_nat 2)) with 65536. change (2 ^ 16) with 65536 in Hsmall. lia.
  - split; [right; left; reflexivity|reflexivity].
Defined.

Lemma viot_image_body ctor ops r : ts_image viot_spec ctor ops = Some r ->
  exists es, viot_entries_ref ops = Some es /\ skipn 48 r = concat es /\
    Forall (fun e => self_describing H_u8_x_u16 e (sp_ty e)) es.
Proof. exact (reftable_body viot_ref ctor ops r). Qed.

Theorem viot_reference_tiles : forall ctor ops r,
  ts_image viot_spec ctor ops = Some r -> c03_judge viot_spec ctor r ops = true.
Proof. intros ctor ops r H. exact (reftable_tiles viot_ref ctor ops r H I). Qed.

Theorem viot_selfcheck : forall ctor ops r, ts_image viot_spec ctor ops = Some r -> c03_self 19 r = true.
Proof. exact (reftable_selfcheck viot_ref). Qed.

(* C05 on the reference image, in the form of the run-time judgement [c05_handles_ok]: if each pending handle is the offset
   the Spec's bookkeeping after [ops] looks that operation's (104 k) up to, the judgement on the reference image is true *)
Corollary viot_reference_handles_ok : forall ctor ops r n rs pending,
  ts_image viot_spec ctor ops = Some r -> sp_final viot_entry_ref ops 48 0 [] = Some (n, rs) ->
  (forall hk, In hk pending -> exists ty, sp_lookup n rs (SL [SA 104; SA (N.of_nat (snd hk))]) = Some (fst hk, ty)) ->
  c05_handles_ok viot_spec r pending = true.
Proof.
  intros ctor ops r n rs pending H Hp Hpend. destruct (viot_image_body ctor _ r H) as (es & Ees & Hsk & HF).
  exact (sp_reference_handles_ok viot_entry_ref H_u8_x_u16 48%nat viot_spec r ops es n rs pending eq_refl
           (proj1 (proj1 (viot_entries_ref_iff _ _) Ees)) Hsk HF Hp Hpend).
Qed.

Print Assumptions viot_reference_tiles.
Print Assumptions viot_selfcheck.
Print Assumptions viot_reference_handles_ok.
