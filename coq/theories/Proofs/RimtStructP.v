(* RIMT: the device an add_* call receives (rimt.rs `Iommu`, `PcieRootComplex`, `Platform`, elements already serialised), as a
   value between the operation and the bytes.  Both entry functions -- the model's `rimt_addition` and the Spec's
   `rimt_entry_ref` -- are "decode the operation to a device, check that it fits 16 bits, serialise it"
   (`rimt_addition_cases` / `_intro`, `rimt_entry_ref_cases`); they differ in three argument decoders only (`rimt_dec`).  The
   layout of a device is stated once (`rimt_dev_lay`); its size, fields and self-description are read off it.  Every other RIMT
   file starts from these. *)
From Coq Require Import NArith List Lia.
From ACPI Require Import Lib.Bytes Lib.Sx Lib.Machine Impl.Table Impl.Rimt Spec.Layout Spec.HmatS Spec.RimtS
  Proofs.BaseP Proofs.WalkP Proofs.WalkRefCommon2P.
Import ListNotations.
Open Scope N_scope.

(* a PCIe root complex keeps its two flags as the numbers of the operation, not as the booleans of the crate's struct:
   [rimt_op] then needs no decoder for them, and the head says [sp_bit ats 1] *)
Inductive rimt_dev : Type :=
| DIommu (id : N) (base : option N) (pci : option (N * N)) (prox : option N) (wires : list (list N))
| DPcieRc (id seg ats pri : N) (maps : list (list N))
| DPlatform (id : N) (name : list N) (maps : list (list N)).

Definition rimt_dev_bytes (d : rimt_dev) : list N :=
  match d with
  | DIommu id b p px ws => iommu_bytes id b p px ws
  | DPcieRc id seg ats pri ms => pcierc_bytes id seg (truthy ats) (truthy pri) ms
  | DPlatform id nm ms => platform_bytes id nm ms
  end.

(* the hand-written len() *)
Definition rimt_dev_claimed (d : rimt_dev) : N :=
  match d with
  | DIommu _ _ _ _ ws => iommu_len (N.of_nat (length ws))
  | DPcieRc _ _ _ _ ms => pcierc_len (N.of_nat (length ms))
  | DPlatform _ nm ms => platform_len nm (N.of_nat (length ms))
  end.

Definition rimt_dev_size (d : rimt_dev) : nat :=
  match d with
  | DIommu _ _ _ _ ws => 32 + 8 * length ws
  | DPcieRc _ _ _ _ ms => 16 + 20 * length ms
  | DPlatform _ nm ms => 12 + length nm + 1 + 20 * length ms
  end.

(* interrupt wires are 8 bytes each, ID mappings 20 *)
Definition rimt_dev_ok (d : rimt_dev) : Prop :=
  match d with
  | DIommu _ _ _ _ ws => Forall (fun w => length w = 8%nat) ws
  | DPcieRc _ _ _ _ ms | DPlatform _ _ ms => Forall (fun m => length m = 20%nat) ms
  end.

Definition rimt_dev_addition (s : tbl) (d : rimt_dev) : addition :=
  {| a_style := SumAdd; a_claimed := rimt_dev_claimed d; a_bytes := rimt_dev_bytes d;
     a_returns := match d with DIommu _ _ _ _ _ => true | _ => false end; a_flag := t_flag s |}.

Record rimt_dec := { rimt_d_pci : sx -> option (option (N * N)); rimt_d_wires : sx -> option (list (list N));
                     rimt_d_maps : sx -> option (list (list N)) }.
Definition rimt_impl_dec (s : tbl) : rimt_dec :=
  {| rimt_d_pci := rimt_pci; rimt_d_wires := rimt_wires; rimt_d_maps := rimt_maps s |}.
Definition rimt_spec_dec (n : nat) (rs : sp_starts) : rimt_dec :=
  {| rimt_d_pci := rimt_pci_ref; rimt_d_wires := rimt_opt_list rimt_wire_ref; rimt_d_maps := rimt_opt_list (rimt_map_ref n rs) |}.

Inductive rimt_op (D : rimt_dec) : sx -> rimt_dev -> Prop :=
| RiOpIommu id base pci prox wires b p px ws :
    opt_num base = Some b -> rimt_d_pci D pci = Some p -> opt_num prox = Some px -> rimt_d_wires D wires = Some ws ->
    rimt_op D (SL [SA 1; SA id; base; pci; prox; wires]) (DIommu id b p px ws)
| RiOpPcieRc id seg ats pri maps ms : rimt_d_maps D maps = Some ms ->
    rimt_op D (SL [SA 2; SA id; SA seg; SA ats; SA pri; maps]) (DPcieRc id seg ats pri ms)
| RiOpPlatform id name maps nm ms : sx_bytes name = Some nm -> rimt_d_maps D maps = Some ms ->
    rimt_op D (SL [SA 3; SA id; name; maps]) (DPlatform id nm ms).

Lemma rimt_op_mono D D' o d :
  (forall x p, rimt_d_pci D x = Some p -> rimt_d_pci D' x = Some p) ->
  (forall x l, rimt_d_wires D x = Some l -> rimt_d_wires D' x = Some l) ->
  (forall x l, rimt_d_maps D x = Some l -> rimt_d_maps D' x = Some l) -> rimt_op D o d -> rimt_op D' o d.
Proof. intros Hp Hw Hm []; constructor; auto. Qed.

Lemma rimt_op_ok D o d :
  (forall x l, rimt_d_wires D x = Some l -> Forall (fun w => length w = 8%nat) l) ->
  (forall x l, rimt_d_maps D x = Some l -> Forall (fun m => length m = 20%nat) l) -> rimt_op D o d -> rimt_dev_ok d.
Proof. intros Hw Hm []; cbn [rimt_dev_ok]; eauto. Qed.

(* the fixed head of a device, as Spec/RimtS.v tabulates it *)
Definition rimt_dev_head (d : rimt_dev) : layout :=
  match d with
  | DIommu id b p px ws =>
      [L 0 1 0; L 1 1 1; L 2 2 (N.of_nat (32 + 8 * length ws)); L 4 2 id; L 6 2 0; L 8 8 (sp_or0 b);
       L 16 4 (match p with Some _ => 1 | None => 0 end + 2 * sp_some px);
       L 20 2 (match p with Some q => fst q | None => 0 end); L 22 2 (match p with Some q => snd q | None => 0 end);
       L 24 4 (sp_or0 px); L 28 2 (N.of_nat (length ws)); L 30 2 32]
  | DPcieRc id seg ats pri ms =>
      [L 0 1 1; L 1 1 1; L 2 2 (N.of_nat (16 + 20 * length ms)); L 4 2 id; L 6 2 seg; L 8 4 (sp_bit ats 1 + sp_bit pri 2);
       L 12 2 16; L 14 2 (N.of_nat (length ms))]
  | DPlatform id nm ms =>
      [L 0 1 2; L 1 1 1; L 2 2 (N.of_nat (12 + length nm + 1 + 20 * length ms)); L 4 2 id; L 6 2 0;
       L 8 2 (N.of_nat (12 + length nm + 1)); L 10 2 (N.of_nat (length ms))]
  end.

Definition rimt_dev_head_size (d : rimt_dev) : nat :=
  match d with DIommu _ _ _ _ _ => 32 | DPcieRc _ _ _ _ _ => 16 | DPlatform _ _ _ => 12 end.

Definition rimt_dev_tail (d : rimt_dev) : list N :=
  match d with
  | DIommu _ _ _ _ ws => concat ws
  | DPcieRc _ _ _ _ ms => concat ms
  | DPlatform _ nm ms => map (fun b => b mod 256) nm ++ [0] ++ concat ms
  end.

Lemma rimt_dev_claimed_size d : rimt_dev_claimed d = N.of_nat (rimt_dev_size d).
Proof. destruct d; unfold rimt_dev_claimed, rimt_dev_size, iommu_len, pcierc_len, platform_len, platform_moff; lia. Qed.

(* the one place where the serialisers of rimt.rs and the field tables of the specification meet: with the lengths as
   variables both sides compute to the same list *)
Lemma rimt_dev_lay d : lay_then (rimt_dev_head_size d) (rimt_dev_head d) (rimt_dev_tail d) = Some (rimt_dev_bytes d).
Proof.
  destruct d as [id b p px ws|id seg ats pri ms|id nm ms]; unfold rimt_dev_bytes, rimt_dev_head, rimt_dev_tail, rimt_dev_head_size.
  - unfold iommu_bytes, iommu_len.
    replace (32 + 8 * N.of_nat (length ws)) with (N.of_nat (32 + 8 * length ws)) by lia.
    generalize (N.of_nat (32 + 8 * length ws)) (N.of_nat (length ws)). intros len n. destruct b, p, px; reflexivity.
  - unfold pcierc_bytes, pcierc_len.
    replace (16 + 20 * N.of_nat (length ms)) with (N.of_nat (16 + 20 * length ms)) by lia.
    generalize (N.of_nat (16 + 20 * length ms)) (N.of_nat (length ms)). intros len n.
    unfold sp_bit, truthy. destruct (ats =? 0), (pri =? 0); reflexivity.
  - unfold platform_bytes, platform_len, platform_moff. rewrite concat_map_b1.
    replace (12 + N.of_nat (length nm) + 1 + 20 * N.of_nat (length ms)) with (N.of_nat (12 + length nm + 1 + 20 * length ms)) by lia.
    replace (12 + N.of_nat (length nm) + 1) with (N.of_nat (12 + length nm + 1)) by lia.
    generalize (N.of_nat (12 + length nm + 1 + 20 * length ms)) (N.of_nat (12 + length nm + 1)) (N.of_nat (length ms)).
    intros len moff n. reflexivity.
Qed.

Lemma rimt_dev_ty d :
  sp_ty (rimt_dev_bytes d) = match d with DIommu _ _ _ _ _ => 0 | DPcieRc _ _ _ _ _ => 1 | DPlatform _ _ _ => 2 end.
Proof. destruct d; reflexivity. Qed.

Lemma rimt_dev_field16 d o v : N.of_nat (rimt_dev_size d) <= 65535 -> layout_get (rimt_dev_head d) o 2 = Some (N.of_nat v) ->
  (v <= rimt_dev_size d)%nat -> field_at (rimt_dev_bytes d) o 2 = N.of_nat v.
Proof. intros Hfit Hg Hv. apply (lay_then_get_below o 2 _ 65536 (rimt_dev_lay d) Hg eq_refl). lia. Qed.

Lemma rimt_dev_split d : exists fixed, length fixed = rimt_dev_head_size d /\ rimt_dev_bytes d = fixed ++ rimt_dev_tail d.
Proof. exact (lay_then_split _ _ _ _ (rimt_dev_lay d)). Qed.

Lemma rimt_dev_length d : rimt_dev_ok d -> length (rimt_dev_bytes d) = rimt_dev_size d.
Proof.
  intros H. rewrite (proj1 (lay_then_fields _ _ _ _ (rimt_dev_lay d))).
  destruct d; cbn [rimt_dev_ok rimt_dev_head_size rimt_dev_tail rimt_dev_size] in *;
    rewrite ?app_length, ?map_length, (length_concat_const _ _ H); cbn [length]; lia.
Qed.

Lemma rimt_dev_len_field d : layout_get (rimt_dev_head d) 2 2 = Some (N.of_nat (rimt_dev_size d)).
Proof. destruct d; reflexivity. Qed.

Lemma rimt_dev_size_ge d : (12 <= rimt_dev_size d)%nat.
Proof. destruct d; cbn [rimt_dev_size]; lia. Qed.

Lemma rimt_dev_self d : rimt_dev_ok d -> N.of_nat (rimt_dev_size d) <= 65535 ->
  self_describing H_u8_x_u16 (rimt_dev_bytes d) (sp_ty (rimt_dev_bytes d)).
Proof.
  intros Hel Hfit. pose proof (rimt_dev_size_ge d).
  apply self_describing_sp_ty, (lay_then_self H_u8_x_u16 1 1 2 _ _ _ _ _ 65536 eq_refl (rimt_dev_lay d) (rimt_dev_len_field d)
                                  (rimt_dev_length d Hel)); [lia|reflexivity|lia].
Qed.

Lemma wire_bytes_length w b : wire_bytes w = Some b -> length b = 8%nat.
Proof. unfold wire_bytes. intros H. split_matches H; inversion H; subst; reflexivity. Qed.

Lemma idmap_bytes_length s m b : idmap_bytes s m = Some b -> length b = 20%nat.
Proof. unfold idmap_bytes. intros H. split_matches H; inversion H; subst; reflexivity. Qed.

Lemma rimt_wires_elems x ws : rimt_wires x = Some ws -> Forall (fun w => length w = 8%nat) ws.
Proof.
  unfold rimt_wires. intros H. split_matches H; [apply Some_inj in H; subst; constructor|].
  eapply (sx_list_all_Forall wire_bytes); [|exact H]. apply wire_bytes_length.
Qed.

Lemma rimt_maps_elems s x ms : rimt_maps s x = Some ms -> Forall (fun m => length m = 20%nat) ms.
Proof.
  unfold rimt_maps. intros H. split_matches H; [apply Some_inj in H; subst; constructor|].
  eapply (sx_list_all_Forall (idmap_bytes s)); [|exact H]. apply idmap_bytes_length.
Qed.

Lemma rimt_addition_cases s o e : rimt_addition s o = Some e ->
  exists d, rimt_op (rimt_impl_dec s) o d /\ rimt_dev_ok d /\ N.of_nat (rimt_dev_size d) <= 65535 /\ e = rimt_dev_addition s d.
Proof.
  intros H. unfold rimt_addition in H. split_matches H; apply Some_inj in H; subst e;
    match goal with Ea : assert _ = Some _ |- _ => apply assert_true, N.leb_le in Ea end;
    eexists; (split; [econstructor; cbn [rimt_impl_dec rimt_d_pci rimt_d_wires rimt_d_maps]; eassumption|]);
    (split; [cbn [rimt_dev_ok]; eauto using rimt_wires_elems, rimt_maps_elems|]);
    (split; [rewrite <- rimt_dev_claimed_size; assumption|reflexivity]).
Qed.

Lemma rimt_addition_intro s o d : rimt_op (rimt_impl_dec s) o d -> N.of_nat (rimt_dev_size d) <= 65535 ->
  rimt_addition s o = Some (rimt_dev_addition s d).
Proof.
  intros Hop Hfit. rewrite <- rimt_dev_claimed_size in Hfit. apply N.leb_le in Hfit.
  destruct Hop; cbn [rimt_impl_dec rimt_d_pci rimt_d_wires rimt_d_maps] in *; cbn [rimt_addition];
    repeat match goal with E : _ = Some _ |- _ => rewrite E; clear E end; cbn [option_bind];
    cbn [rimt_dev_claimed] in Hfit; rewrite Hfit; reflexivity.
Qed.

Lemma rimt_fits_some len img e : rimt_fits len img = Some e -> N.of_nat len <= 65535 /\ img = Some e.
Proof. unfold rimt_fits. destruct (N.ltb_spec 65535 (N.of_nat len)); [discriminate|]. intros ->. split; [assumption|reflexivity]. Qed.

Lemma rimt_wire_ref_cases w e : rimt_wire_ref w = Some e ->
  exists num lvl pol aplic, w = SL [SA num; SA lvl; SA pol; SA aplic] /\
    lay 8 [L 0 4 num; L 4 2 (sp_bit lvl 1 + sp_bit pol 2); L 6 2 aplic] = Some e.
Proof.
  unfold rimt_wire_ref. intros H. destruct w as [|l]; [discriminate H|].
  arg_num H l num. arg_num H l lvl. arg_num H l pol. arg_num H l aplic. arg_end H l.
  exists num, lvl, pol, aplic. auto.
Qed.

Lemma rimt_wire_length w e : rimt_wire_ref w = Some e -> length e = 8%nat.
Proof. intros H. destruct (rimt_wire_ref_cases w e H) as (num & lvl & pol & aplic & _ & Hl). exact (proj1 (lay_decodes _ _ _ Hl)). Qed.

Lemma rimt_map_ref_cases n rs m e : rimt_map_ref n rs m = Some e ->
  exists src dst cnt href ats pri rciep off, m = SL [SA src; SA dst; SA cnt; href; SA ats; SA pri; SA rciep] /\
    sp_lookup n rs href = Some (off, 0) /\
    lay 20 [L 0 4 src; L 4 4 dst; L 8 4 cnt; L 12 4 off; L 16 4 (sp_bit ats 1 + sp_bit pri 2 + sp_bit rciep 4)] = Some e.
Proof.
  unfold rimt_map_ref. intros H. destruct m as [|l]; [discriminate H|].
  arg_num H l src. arg_num H l dst. arg_num H l cnt. arg_any H l href. arg_num H l ats. arg_num H l pri. arg_num H l rciep.
  arg_end H l.
  destruct (sp_lookup n rs href) as [[off ty]|] eqn:El; [|discriminate H].
  destruct ty; [|discriminate H].
  exists src, dst, cnt, href, ats, pri, rciep, off. auto.
Qed.

Lemma rimt_map_length n rs m e : rimt_map_ref n rs m = Some e -> length e = 20%nat.
Proof.
  intros H. destruct (rimt_map_ref_cases n rs m e H) as (src & dst & cnt & href & ats & pri & rciep & off & _ & _ & Hl).
  exact (proj1 (lay_decodes _ _ _ Hl)).
Qed.

Lemma rimt_opt_list_forall (f : sx -> option (list N)) (P : list N -> Prop) x l :
  (forall y a, f y = Some a -> P a) -> rimt_opt_list f x = Some l -> Forall P l.
Proof.
  intros HP H. unfold rimt_opt_list in H. destruct x as [|xs]; [discriminate H|].
  destruct xs as [|[|ys] [|]]; try discriminate H.
  - apply Some_inj in H. subst l. constructor.
  - exact (sp_all_forall f P HP ys l H).
Qed.

(* on a decoded device the Spec's entry function is, by computation, the size check around the checked layout *)
Lemma rimt_ref_case n rs o d e : rimt_op (rimt_spec_dec n rs) o d ->
  rimt_fits (rimt_dev_size d) (lay_then (rimt_dev_head_size d) (rimt_dev_head d) (rimt_dev_tail d)) = Some e ->
  exists d, rimt_op (rimt_spec_dec n rs) o d /\ rimt_dev_ok d /\ N.of_nat (rimt_dev_size d) <= 65535 /\ e = rimt_dev_bytes d.
Proof.
  intros Hop H. apply rimt_fits_some in H as [Hfit H]. rewrite rimt_dev_lay in H. exists d. split; [exact Hop|].
  split; [|split; [exact Hfit|symmetry; exact (Some_inj _ _ H)]].
  apply (rimt_op_ok _ o d) in Hop; [exact Hop| |]; intros x l; apply rimt_opt_list_forall;
    [exact rimt_wire_length|exact (rimt_map_length n rs)].
Qed.

Lemma rimt_entry_ref_cases n rs o e : rimt_entry_ref n rs o = Some e ->
  exists d, rimt_op (rimt_spec_dec n rs) o d /\ rimt_dev_ok d /\ N.of_nat (rimt_dev_size d) <= 65535 /\ e = rimt_dev_bytes d.
Proof.
  intros H. op_cases H o l of rimt_entry_ref.
  - (* 3: platform device *)
    arg_num H l id. arg_any H l name. arg_any H l maps. arg_end H l.
    destruct (sx_bytes name) as [nm|] eqn:En; [|discriminate H].
    destruct (rimt_opt_list (rimt_map_ref n rs) maps) as [ms|] eqn:Em; [|discriminate H].
    exact (rimt_ref_case n rs _ (DPlatform id nm ms) e (RiOpPlatform (rimt_spec_dec n rs) id name maps nm ms En Em) H).
  - (* 2: PCIe root complex *)
    arg_num H l id. arg_num H l seg. arg_num H l ats. arg_num H l pri. arg_any H l maps. arg_end H l.
    destruct (rimt_opt_list (rimt_map_ref n rs) maps) as [ms|] eqn:Em; [|discriminate H].
    exact (rimt_ref_case n rs _ (DPcieRc id seg ats pri ms) e (RiOpPcieRc (rimt_spec_dec n rs) id seg ats pri maps ms Em) H).
  - (* 1: IOMMU *)
    arg_num H l id. arg_any H l base. arg_any H l pci. arg_any H l prox. arg_any H l wires. arg_end H l.
    destruct (sp_opt base) as [b|] eqn:Eb; [|discriminate H].
    destruct (rimt_pci_ref pci) as [p|] eqn:Ep; [|discriminate H].
    destruct (sp_opt prox) as [px|] eqn:Epx; [|discriminate H].
    destruct (rimt_opt_list rimt_wire_ref wires) as [ws|] eqn:Ew; [|discriminate H].
    exact (rimt_ref_case n rs _ (DIommu id b p px ws) e (RiOpIommu (rimt_spec_dec n rs) id base pci prox wires b p px ws Eb Ep Epx Ew) H).
Qed.
