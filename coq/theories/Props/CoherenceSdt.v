(* Coherence of the executable judgement (Judge.v: oracle, run_case) with the history-level theorems of C13, for component 31,
   the generic user-defined table `Sdt` (Props/CoherenceTables.v covers components 10..30).

   The Sdt protocol (Impl/Sdt.v): after a successful constructor every operation reports EvNum 0 (performed) or EvNum 1
   (refused, table unchanged) and the history goes on; a refused constructor gives [EvPanic].  On component 31 Judge.v judges
     C13  as  c04_oracle sdt_spec (every observed image is the Spec's plain byte vector after the same appends and writes,
              no fatal refusal inside the Spec's domain)  &&  c01 (every image sums to 0)  &&  sdt_oracle (an operation is
              performed / refused exactly when the Spec says so),
     C01  as  c01_oracle,   C02  as  c02_oracle UNLESS the caller himself writes into bytes 4..8 ([sdt_writes_length]).

   For every WELL-FORMED case c = (ctor op ...):
       sdt_spec_new ctor = Some v0         the constructor is in the Spec's domain (4/6/8-byte identifiers, 36 <= len < 2^32)
       markers_ok ops = true               every atom among the operations is the observation marker 1 (anywhere, any number)
       Forall sdt_op_ok (real_ops ops)     every operation is one of the seven forms of Impl/Sdt.v with parameters in the range
                                           of their Rust types (Proofs/SdtHistP.v; decided by [sdt_op_okb])
       |v0| + ops_growth (real_ops ops) < 2^62       the bound of c13_history_refines
   and in both build profiles, the oracles of C13 and C01 ACCEPT the model's own observation stream; the oracle of C02
   accepts it when moreover the caller writes into Length somewhere (then nothing is judged) or the table stays below 2^32
   bytes.  That last hypothesis cannot be dropped ([coherence_sdt_c02_bound_needed]): Length is a u32.

   Hence (coherence_sdt_no_false_alarm) whenever the driver's correspondence check K holds on such a case, the oracle
   accepts the implementation's stream: an ORACLE alarm of C13 / C01 / C02 on component 31 implies a disagreement between
   crate and model. *)
From Coq Require Import NArith List Bool.
From ACPI Require Import Lib.Sx Impl.Sdt Spec.Layout Spec.SdtS Judge Proofs.SdtHistP Proofs.CoherenceTablesP Proofs.CoherenceSdtP.
Import ListNotations.
Open Scope N_scope.

Theorem coherence_sdt : forall md ctor ops v0,
  sdt_spec_new ctor = Some v0 ->
  markers_ok ops = true ->
  Forall sdt_op_ok (real_ops ops) ->
  N.of_nat (length v0) + ops_growth (real_ops ops) < 2 ^ 62 ->
  let c := SL (ctor :: ops) in
  oracle 13 31 c (run_case md 31 c) = true /\
  oracle 1 31 c (run_case md 31 c) = true /\
  (sdt_writes_length c = true \/ N.of_nat (length v0) + ops_growth (real_ops ops) < 2 ^ 32 ->
   oracle 2 31 c (run_case md 31 c) = true).
Proof.
  intros md ctor ops v0 Hnew Hm Hok Hsz c. pose proof (Build_sdt_case_ok ctor ops v0 Hnew Hm Hok Hsz) as Hcase.
  destruct (sdt_coherent md ctor ops v0 Hcase) as [H13 H1]. split; [exact H13|]. split; [exact H1|exact (sdt_c02 md ctor ops v0 Hcase)].
Qed.

(* the same on the decidable form of the hypotheses, [sdt_case_okb] (Proofs/CoherenceSdtP.v) *)
Theorem coherence_sdt_decidable : forall md ctor ops,
  sdt_case_okb ctor ops = true ->
  let c := SL (ctor :: ops) in
  oracle 13 31 c (run_case md 31 c) = true /\ oracle 1 31 c (run_case md 31 c) = true.
Proof.
  intros md ctor ops H c. destruct (sdt_case_okb_sound ctor ops H) as [v0 Hcase]. exact (sdt_coherent md ctor ops v0 Hcase).
Qed.

(* the other properties judged on component 31 by the same functions (C04 = C11: images and fatal refusals; C12: C04 and C01)
   accept every stream that C13's judgement accepts *)
Theorem coherence_sdt_c04_c11_c12 : forall c evs,
  oracle 13 31 c evs = true ->
  oracle 4 31 c evs = true /\ oracle 11 31 c evs = true /\ oracle 12 31 c evs = true /\ oracle 1 31 c evs = true.
Proof.
  intros c evs H. rewrite oracle_13_31 in H. apply andb_true_iff in H. destruct H as [H H3].
  apply andb_true_iff in H. destruct H as [H4 H1].
  change (oracle 4 31 c evs) with (c04_oracle sdt_spec c evs). change (oracle 11 31 c evs) with (c04_oracle sdt_spec c evs).
  change (oracle 12 31 c evs) with (c04_oracle sdt_spec c evs && c01_oracle c evs).
  change (oracle 1 31 c evs) with (c01_oracle c evs). rewrite H4, H1. auto.
Qed.

(* C02's size hypothesis is needed, and 2^32 is the exact bound: for EVERY constructor of the Spec's domain and EVERY slice
   taking the table to 4 GiB or more (below 2^62) the case (ctor (2 slice) 1) is well formed, the model performs the append
   (`new_length as u32` truncates silently in both profiles), and C02's judgement rejects the model's own stream -- Length
   holds size mod 2^32 -- while C13 and C01 accept it.  (A statement about the judgement -- and, where model = crate, about
   the crate: no such history is ever run.) *)
Theorem coherence_sdt_c02_bound_needed : forall md ctor v0 b bytes,
  sdt_spec_new ctor = Some v0 -> sx_bytes b = Some bytes ->
  2 ^ 32 <= N.of_nat (length v0) + N.of_nat (length bytes) < 2 ^ 62 ->
  let ops := [SL [SA 2; b]; SA 1] in
  let c := SL (ctor :: ops) in
  (markers_ok ops = true /\ Forall sdt_op_ok (real_ops ops) /\ N.of_nat (length v0) + ops_growth (real_ops ops) < 2 ^ 62) /\
  run_case md 31 c = [EvNum 0; EvBytes (with_checksum (with_length (v0 ++ bytes)))] /\
  sdt_writes_length c = false /\
  oracle 2 31 c (run_case md 31 c) = false /\
  oracle 13 31 c (run_case md 31 c) = true /\ oracle 1 31 c (run_case md 31 c) = true.
Proof.
  intros md ctor v0 b bytes Hnew Hb [Hlo Hhi] ops c. subst c ops.
  destruct (sdt_slice_case md ctor v0 b bytes Hnew Hb Hhi) as [Hcase Hrun].
  split; [destruct Hcase as [_ A B C]; auto|]. split; [exact Hrun|]. split; [reflexivity|].
  split; [|exact (sdt_coherent md ctor _ v0 Hcase)]. rewrite Hrun.
  exact (c02_rejects_past_4GiB _ v0 bytes (proj1 (proj1 (sdt_spec_new_props ctor v0 Hnew))) Hlo).
Qed.

(* a refused constructor (whatever the reason: the model refuses exactly when `Sdt::new` would panic on its assertion or the
   case is malformed; then the Spec's constructor is undefined too): the model answers [EvPanic] and all three oracles
   accept it, provided the case has at least one operation or marker after the constructor *)
Theorem coherence_sdt_refused_constructor : forall md ctor ops,
  sdt_new ctor = None -> ops <> [] ->
  let c := SL (ctor :: ops) in
  run_case md 31 c = [EvPanic] /\
  oracle 13 31 c (run_case md 31 c) = true /\ oracle 1 31 c (run_case md 31 c) = true /\ oracle 2 31 c (run_case md 31 c) = true.
Proof.
  intros md ctor ops Hn Hne c. unfold c. rewrite (sdt_case_refused md ctor ops Hn). split; [reflexivity|]. exact (sdt_panic_accepted ctor ops (sdt_spec_new_none ctor Hn) Hne).
Qed.

(* ... and [ops <> []] is needed: on the case (ctor) alone with a refused constructor (declared length 35), C04's part of
   the judgement ([judge_history] at the end of the operations expects no further event) rejects the model's own [EvPanic].
   The generators never emit a case without a final observation marker. *)
Example coherence_sdt_refused_constructor_alone :
  let c := SL [sdt_bad_ctor] in
  sdt_new sdt_bad_ctor = None /\ run_case Checked 31 c = [EvPanic] /\ run_case Wrapping 31 c = [EvPanic] /\
  oracle 13 31 c (run_case Checked 31 c) = false /\ oracle 4 31 c (run_case Checked 31 c) = false /\
  oracle 1 31 c (run_case Checked 31 c) = true /\ oracle 2 31 c (run_case Checked 31 c) = true.
Proof. exact sdt_refused_ctor_alone. Qed.

(* K (the driver's check, through Judge.project: whole streams for C13, byte sums for C01, (Length, size) for C02) implies the
   oracle's acceptance wherever the oracle accepts the model's own stream, i.e. on every case covered above *)
Theorem coherence_sdt_no_false_alarm : forall md c impl,
  (oracle 13 31 c (run_case md 31 c) = true ->
   evs_eqb (project 13 31 (run_case md 31 c)) (project 13 31 impl) = true -> oracle 13 31 c impl = true) /\
  (oracle 1 31 c (run_case md 31 c) = true ->
   evs_eqb (project 1 31 (run_case md 31 c)) (project 1 31 impl) = true -> oracle 1 31 c impl = true) /\
  (oracle 2 31 c (run_case md 31 c) = true ->
   evs_eqb (project 2 31 (run_case md 31 c)) (project 2 31 impl) = true -> oracle 2 31 c impl = true).
Proof.
  intros md c impl. split; [|split]; intros Ho E; apply evs_eqb_eq in E.
  - change (project 13 31 (run_case md 31 c)) with (run_case md 31 c) in E. change (project 13 31 impl) with impl in E.
    subst impl. exact Ho.
  - rewrite <- (sdt_oracle1_through_projection c _ _ E). exact Ho.
  - rewrite <- (sdt_oracle2_through_projection c _ _ E). exact Ho.
Qed.

(* sdt_ex_ctor = Sdt::new("DSDT", 40, 2, "CLOUDH", "CHDSDT  ", 1);  sdt_ex_ops (Proofs/CoherenceSdtP.v) =
     1  append u8  append u16  append u32  append u64  1  append_slice(3)  write_bytes(37, 2 bytes: inside the body)
     write_bytes(8, 3 bytes: across the checksum byte 9)  1  write_u64(52, ..) REFUSED  write_bytes(2^64 - 1, 2 bytes) REFUSED
     1  sink.word  sink.vec(3)  sink.vec(0)  write_u16(9, ..)  update_checksum  1
   The hypotheses of coherence_sdt hold of it (with the 2^32 bound, no write into Length), all three oracles accept the
   model's stream in both profiles, and the stream is: sizes observed 40 55 58 58 63, statuses 0 / 1 in between. *)
Example coherence_sdt_not_vacuous :
  let c := SL (sdt_ex_ctor :: sdt_ex_ops) in
  (exists v0, sdt_spec_new sdt_ex_ctor = Some v0 /\ markers_ok sdt_ex_ops = true /\ Forall sdt_op_ok (real_ops sdt_ex_ops) /\
              N.of_nat (length v0) + ops_growth (real_ops sdt_ex_ops) < 2 ^ 32) /\
  sdt_writes_length c = false /\
  oracle 13 31 c (run_case Wrapping 31 c) = true /\ oracle 13 31 c (run_case Checked 31 c) = true /\
  oracle 1 31 c (run_case Wrapping 31 c) = true /\ oracle 2 31 c (run_case Wrapping 31 c) = true /\
  run_case Checked 31 c = run_case Wrapping 31 c /\
  map (fun e => match e with EvBytes img => N.of_nat (length img) | EvNum n => n | EvPanic => 999 end) (run_case Wrapping 31 c)
  = [40; 0; 0; 0; 0; 55; 0; 0; 0; 58; 1; 1; 58; 0; 0; 0; 0; 0; 63].
Proof. exact sdt_coherent_not_vacuous. Qed.

Example coherence_sdt_applies : forall md,
  let c := SL (sdt_ex_ctor :: sdt_ex_ops) in
  oracle 13 31 c (run_case md 31 c) = true /\ oracle 1 31 c (run_case md 31 c) = true /\ oracle 2 31 c (run_case md 31 c) = true.
Proof. exact sdt_coherence_applies. Qed.

(* C02's escape: the caller overwrites Length (write_u32(4, 1000)); the image shows Length 1000 on 40 bytes, C02's plain
   judgement would reject the model's own stream, Judge.v does not judge such a history; C13 still accepts *)
Example coherence_sdt_writes_length :
  let c := SL [sdt_ex_ctor; SA 1; SL [SA 4; SA 4; SA 4; SA 1000]; SA 1] in
  (let ops := [SA 1; SL [SA 4; SA 4; SA 4; SA 1000]; SA 1] in
   exists v0, sdt_spec_new sdt_ex_ctor = Some v0 /\ markers_ok ops = true /\ Forall sdt_op_ok (real_ops ops) /\
              N.of_nat (length v0) + ops_growth (real_ops ops) < 2 ^ 62) /\
  sdt_writes_length c = true /\ c02_oracle c (run_case Wrapping 31 c) = false /\
  oracle 2 31 c (run_case Wrapping 31 c) = true /\ oracle 13 31 c (run_case Wrapping 31 c) = true.
Proof. exact sdt_writes_length_not_vacuous. Qed.

Print Assumptions coherence_sdt.
Print Assumptions coherence_sdt_decidable.
Print Assumptions coherence_sdt_c04_c11_c12.
Print Assumptions coherence_sdt_c02_bound_needed.
Print Assumptions coherence_sdt_refused_constructor.
Print Assumptions coherence_sdt_refused_constructor_alone.
Print Assumptions coherence_sdt_no_false_alarm.
Print Assumptions coherence_sdt_not_vacuous.
Print Assumptions coherence_sdt_applies.
Print Assumptions coherence_sdt_writes_length.
