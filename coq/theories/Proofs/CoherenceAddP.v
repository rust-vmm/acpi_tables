(* Coherence (Proofs/CoherenceTablesP.v) for the thirteen tables with a variable body: what each one's model [covers]
   (<t>_covers), and that the Spec's domain is closed under prefixes (<t>_dom_prefix; slit_dom_closed, and hest_dom_prefix for
   the histories the HEST theorems speak of).

   Ten are incrementally maintained tables whose operations are all additions (instances of Impl/Table.v): MADT 12, MCFG 11,
   XSDT 10, SRAT 13, PPTT 16, HMAT 15, RHCT 17, VIOT 19, RIMT 18, CEDT 20.  Their refinement theorems carry the side condition
   "the reference image fits the 32-bit Length field" (and, for MADT / SRAT, the well-formedness of builder lists).  The part of
   the Spec's domain where it holds is closed under prefixes: a prefix of an in-domain history is in the domain and its
   reference image is not longer, so the bound on the whole history is enough.
   Three have state machines of their own, and come last: SLIT 14 (cell assignments), RQSC 22 (controllers with nested
   resources), HEST 21 (histories of error-source additions, without the stand-alone structures of the ops 20 / 21, as in
   c04_hest_refines). *)
From Coq Require Import NArith List Bool Lia Arith.
From ACPI Require Import Lib.Bytes Lib.Sx Impl.Table Spec.Layout Spec.MadtS Spec.GasS Spec.RimtS Proofs.TableP Proofs.FixedP
  Proofs.Tables Proofs.RefCommonP Proofs.CoherenceTablesP Proofs.BaseP.
From ACPI Require Import Impl.Xsdt Impl.Mcfg Impl.Madt Impl.Srat Impl.Hmat Impl.Pptt Impl.Rhct Impl.Rimt Impl.Viot
  Impl.Cedt Spec.XsdtS Spec.McfgS Spec.SratS Spec.HmatS Spec.PpttS Spec.RhctS Spec.ViotS Spec.CedtS Proofs.XsdtP
  Proofs.McfgP Proofs.SratP Proofs.HmatP Proofs.PpttP Proofs.RhctP Proofs.RimtP Proofs.ViotP Proofs.CedtP Proofs.MadtRefP
  Proofs.McfgRefP Proofs.XsdtRefP Proofs.SratRefP Proofs.RhctRefP Proofs.RimtRefP Proofs.CedtRefP Proofs.PpttRefP
  Proofs.HmatRefP Proofs.ViotRefP Proofs.WalkRefCommon2P Proofs.HandleFieldsP.
From ACPI Require Import Impl.Slit Impl.Rqsc Impl.Hest Spec.SlitS Spec.RqscS Spec.HestS Proofs.SlitP Proofs.RqscP
  Proofs.HestP Proofs.SlitRefP Proofs.RqscRefP Proofs.HestRefP.
Import ListNotations.
Open Scope N_scope.

Lemma add_step_one entry md s o s' evs : add_step entry md s o = Some (s', evs) -> exists h, evs = [EvNum h].
Proof.
  intros H. destruct (add_step_Some entry md s o s' evs H) as (e & _ & h & _ & _ & _ & ->). now eexists.
Qed.

Definition fits32 (r : list N) : Prop := N.of_nat (length r) < 2 ^ 32.

(* a prefix of an in-domain history is in the domain, and its reference image is not longer *)
Definition prefix_closed (image : sx -> list sx -> option (list N)) : Prop :=
  forall ctor p q r, image ctor (p ++ q) = Some r -> exists r1, image ctor p = Some r1 /\ (length r1 <= length r)%nat.

(* what an addition table covers: histories whose builder lists are well-formed and whose reference image fits *)
Definition add_covers (T : mode -> addtable) (spec : tspec) (wfops : list sx -> Prop) (new : sx -> option tbl) : Prop :=
  covers spec new (fun md => add_step (at_entry (T md)) md) (fun s => Some (tbl_image s)) (fun p r => wfops p /\ fits32 r).

Section AddTable.
  Variable T : mode -> addtable.
  Variable spec : tspec.
  Variable wfops : list sx -> Prop.
  Variable new : sx -> option tbl.
  Hypothesis T_new : forall md, at_new (T md) = new.
  Hypothesis Href : forall md ctor ops r,
    ts_image spec ctor ops = Some r -> wfops ops -> N.of_nat (length r) < 2 ^ 32 ->
    exists s0 s, new ctor = Some s0 /\ run_adds (at_entry (T md)) md s0 ops = Some s /\ tbl_image s = r.
  Hypothesis wf_prefix : forall p q, wfops (p ++ q) -> wfops p.
  Hypothesis dom_prefix : prefix_closed (ts_image spec).

  Lemma add_table_covers : add_covers T spec wfops new.
  Proof.
    split.
    - intros md. apply add_step_one.
    - (* C01, C02: the invariant of Proofs/TableP.v, in the state the refinement theorem reaches *)
      intros md ctor p r Ht [Hw Hf]. destruct (Href md ctor p r Ht Hw Hf) as (s0 & s & Hn & Hr & <-).
      exists s0, s. rewrite <- run_adds_run_steps. split; [exact Hn|]. split; [exact Hr|]. split; [reflexivity|].
      rewrite <- (T_new md) in Hn. exact (addtable_sum_len _ _ ctor p s0 s Hn Hr Hf).
    - intros ctor p q r Ht [Hw Hf]. destruct (dom_prefix ctor p q r Ht) as (r1 & Ht1 & Hle).
      exists r1. split; [exact Ht1|]. split; [exact (wf_prefix p q Hw)|]. unfold fits32 in *. lia.
  Qed.
End AddTable.

(* the header's length does not depend on the Length and Checksum it carries *)
Lemma ref_header_len sig rev oem tbl orev l1 c1 l2 c2 :
  length (ref_header sig l1 rev c1 oem tbl orev) = length (ref_header sig l2 rev c2 oem tbl orev).
Proof. unfold ref_header. rewrite !(app_length sig). reflexivity. Qed.

Lemma app_length_le {A} (x y a b : list A) :
  length x = length y -> (length a <= length b)%nat -> (length (x ++ a) <= length (y ++ b))%nat.
Proof. intros E H. rewrite !app_length. lia. Qed.

Lemma ref_table_len_mono sig rev h a b :
  (length a <= length b)%nat -> (length (ref_table sig rev h a) <= length (ref_table sig rev h b))%nat.
Proof.
  (* applied, not rewritten: the Checksum inside [ref_table] is a large term *)
  intros H. apply app_length_le; [apply ref_header_len|exact H].
Qed.

Lemma concat_len_app (a b : list (list N)) : (length (concat a) <= length (concat (a ++ b)))%nat.
Proof. rewrite concat_app, app_length. lia. Qed.

(* the entries of a prefix are a prefix of the entries *)
Definition splits (ents : list sx -> option (list (list N))) : Prop :=
  forall p q es, ents (p ++ q) = Some es -> exists es1 es2, ents p = Some es1 /\ es = es1 ++ es2.

Lemma opt_seq_app {A} (f : sx -> option A) p : forall q es,
  opt_seq (map f (p ++ q)) = Some es -> exists es1 es2, opt_seq (map f p) = Some es1 /\ es = es1 ++ es2.
Proof.
  induction p as [|o p IH]; intros q es H.
  - exists [], es. auto.
  - cbn [app map opt_seq] in *. destruct (f o) as [e|]; [|discriminate].
    destruct (opt_seq (map f (p ++ q))) as [es'|] eqn:E; [|discriminate]. injection H as <-.
    destruct (IH q es' E) as (es1 & es2 & H1 & ->). rewrite H1. exists (e :: es1), es2. auto.
Qed.

(* the Specs' three list traversals are one *)
Lemma sp_all_seq {A} (f : sx -> option A) l : forall racc,
  sp_all f l racc = option_map (app (rev racc)) (opt_seq (map f l)).
Proof.
  induction l as [|x l IH]; intros racc; cbn [sp_all map opt_seq option_map].
  - now rewrite frev_rev, app_nil_r.
  - destruct (f x) as [a|]; [|reflexivity]. rewrite IH. destruct (opt_seq (map f l)); [|reflexivity].
    cbn [option_map rev]. now rewrite <- app_assoc.
Qed.

Lemma opt_concat_splits f : splits (fun ops => opt_concat (map f ops)).
Proof. intros p q es. rewrite !opt_concat_seq. apply opt_seq_app. Qed.

Lemma sp_all_splits f : splits (fun ops => sp_all f ops []).
Proof.
  intros p q es. rewrite !sp_all_seq. cbn [rev app].
  destruct (opt_seq (map f (p ++ q))) as [es'|] eqn:E; [|discriminate]. intros [= <-].
  destruct (opt_seq_app f p q es' E) as (es1 & es2 & -> & ->). exists es1, es2. auto.
Qed.

(* how a reference image is made from the entries: more entries, no shorter image *)
Definition grows (mk : list (list N) -> option (list N)) : Prop :=
  forall es1 es2 r, mk (es1 ++ es2) = Some r -> exists r1, mk es1 = Some r1 /\ (length r1 <= length r)%nat.

Lemma entries_image_prefix ents mk : splits ents -> grows mk ->
  forall p q r, option_bind (ents (p ++ q)) mk = Some r ->
  exists r1, option_bind (ents p) mk = Some r1 /\ (length r1 <= length r)%nat.
Proof.
  intros Hs Hg p q r H. destruct (ents (p ++ q)) as [es|] eqn:E; [|discriminate H].
  destruct (Hs p q es E) as (es1 & es2 & -> & ->). exact (Hg es1 es2 r H).
Qed.

(* a header, some fixed bytes, the entries *)
Definition plain sig rev (pre : list N) (h : hdr_args) (es : list (list N)) : option (list N) :=
  Some (ref_table sig rev h (pre ++ concat es)).

Lemma plain_grows sig rev pre h : grows (plain sig rev pre h).
Proof.
  intros es1 es2 r [= <-]. eexists. split; [reflexivity|].
  apply ref_table_len_mono. rewrite !app_length. pose proof (concat_len_app es1 es2). lia.
Qed.

(* a header, the number of the entries, the entries (RQSC, HEST) *)
Definition counted sig rev (h : hdr_args) (es : list (list N)) : option (list N) :=
  if N.of_nat (length es) <? 2 ^ 32 then Some (ref_table sig rev h (le 4 (N.of_nat (length es)) ++ concat es)) else None.

Lemma counted_grows sig rev h : grows (counted sig rev h).
Proof.
  intros es1 es2 r H. unfold counted in *. rewrite app_length in H.
  destruct (N.ltb_spec (N.of_nat (length es1 + length es2)) (2 ^ 32)); [|discriminate H]. injection H as <-.
  destruct (N.ltb_spec (N.of_nat (length es1)) (2 ^ 32)); [|exfalso; lia]. eexists. split; [reflexivity|].
  apply ref_table_len_mono. rewrite !app_length, !length_le. cbn [length]. pose proof (concat_len_app es1 es2). lia.
Qed.

(* the shape of most reference image functions: the constructor gives the header, the operations the entries *)
Definition hdr_image (mk : hdr_args -> list (list N) -> option (list N)) (ents : list sx -> option (list (list N)))
           (ctor : sx) (ops : list sx) : option (list N) :=
  match ctor with
  | SL [o; t; r] => match sx_hdr_args o t r, ents ops with Some h, Some es => mk h es | _, _ => None end
  | _ => None
  end.

Lemma hdr_image_prefix mk ents : splits ents -> (forall h, grows (mk h)) -> prefix_closed (hdr_image mk ents).
Proof.
  intros Hs Hg ctor p q r. unfold hdr_image. destruct ctor as [|[|o [|t [|r0 [|]]]]]; try discriminate.
  destruct (sx_hdr_args o t r0) as [h|]; [|discriminate]. exact (entries_image_prefix ents (mk h) Hs (Hg h) p q r).
Qed.

(* a prefix-closed domain from the cut of a history at one operation (<t>_cut, Proofs/HandleFieldsP.v) *)
Lemma cut_prefix {spec : tspec} {first eh tyf Q} :
  (forall ctor pre o post r, ts_image spec ctor (pre ++ o :: post) = Some r -> cut_at spec first eh tyf Q ctor pre o post r) ->
  prefix_closed (ts_image spec).
Proof.
  intros H ctor p [|o post] r Ht.
  - rewrite app_nil_r in Ht. exists r. auto.
  - destruct (H ctor p o post r Ht) as (es1 & e & tail & r1 & _ & _ & _ & _ & _ & Ht1 & _ & Hle). exists r1. auto.
Qed.

Lemma xsdt_dom_prefix : prefix_closed (ts_image xsdt_spec).
Proof. exact (hdr_image_prefix (plain _ _ []) _ (opt_concat_splits xsdt_entry_ref) (plain_grows _ _ _)). Qed.

Lemma mcfg_dom_prefix : prefix_closed (ts_image mcfg_spec).
Proof. exact (hdr_image_prefix (plain _ _ (le 8 0)) _ (opt_concat_splits mcfg_entry_ref) (plain_grows _ _ _)). Qed.

Lemma srat_dom_prefix : prefix_closed (ts_image srat_spec).
Proof. exact (hdr_image_prefix (plain _ _ (le 4 1 ++ le 8 0)) _ (opt_concat_splits srat_entry_ref) (plain_grows _ _ _)). Qed.

Lemma hmat_dom_prefix : prefix_closed (ts_image hmat_spec).
Proof. exact (hdr_image_prefix (plain _ _ (le 4 0)) _ (opt_concat_splits hmat_entry_ref) (plain_grows _ _ _)). Qed.

Lemma cedt_dom_prefix : prefix_closed (ts_image cedt_spec).
Proof. exact (hdr_image_prefix (plain _ _ []) _ (sp_all_splits cedt_entry_ref) (plain_grows _ _ _)). Qed.

(* the MADT: a fourth constructor argument (the local interrupt controller address), at most one IMSIC among the entries *)
Lemma madt_entries_splits : splits madt_entries_ref.
Proof.
  intros p q es. unfold madt_entries_ref. rewrite filter_app, app_length.
  destruct (Nat.ltb_spec 1 (length (filter is_imsic_add p) + length (filter is_imsic_add q))); [discriminate|].
  destruct (Nat.ltb_spec 1 (length (filter is_imsic_add p))); [lia|]. apply opt_concat_splits.
Qed.

Lemma madt_dom_prefix : prefix_closed (ts_image madt_spec).
Proof.
  intros ctor p q r. cbn [ts_image madt_spec]. unfold madt_image.
  destruct ctor as [|[|o [|t [|r0 [|lic [|]]]]]]; try discriminate.
  destruct (sx_hdr_args o t r0) as [h|]; [|discriminate].
  destruct (match lic with SL [] => Some 0 | SL [SA a] => Some a | _ => None end) as [addr|]; [|discriminate].
  (* [le 4 x] computes to four conses: this bracketing and the Spec's [le 4 addr ++ le 4 0 ++ concat es] are convertible *)
  exact (entries_image_prefix _ (plain _ _ (le 4 addr ++ le 4 0) h) madt_entries_splits (plain_grows _ _ _ _) p q r).
Qed.

Definition pptt_dom_prefix := cut_prefix pptt_cut.
Definition rhct_dom_prefix := cut_prefix rhct_cut.
Definition rimt_dom_prefix := cut_prefix rimt_cut.
Definition viot_dom_prefix := cut_prefix viot_cut.

Lemma forall_prefix {A} (P : A -> Prop) (p q : list A) : Forall P (p ++ q) -> Forall P p.
Proof. intros H. apply Forall_app in H. exact (proj1 H). Qed.

(* a table whose refinement theorem asks nothing of the builder lists covers the histories whose reference image fits *)
Definition fits_covers (T : mode -> addtable) (spec : tspec) (new : sx -> option tbl) : Prop :=
  covers spec new (fun md => add_step (at_entry (T md)) md) (fun s => Some (tbl_image s)) (fun _ r => fits32 r).

Lemma add_table_fits T spec new :
  (forall md, at_new (T md) = new) ->
  (forall md ctor ops r, ts_image spec ctor ops = Some r -> N.of_nat (length r) < 2 ^ 32 ->
     exists s0 s, new ctor = Some s0 /\ run_adds (at_entry (T md)) md s0 ops = Some s /\ tbl_image s = r) ->
  prefix_closed (ts_image spec) -> fits_covers T spec new.
Proof.
  intros Hn Href Hdom.
  apply (covers_same _ (add_table_covers T spec (fun _ => True) new Hn (fun md ctor ops r H _ => Href md ctor ops r H)
                          (fun _ _ _ => I) Hdom)).
  intros p r. split; [exact (conj I)|exact (@proj2 _ _)].
Qed.

(* ... and whose profile does not matter *)
Definition plain_covers (t : addtable) spec := add_table_fits (fun _ => t) spec (at_new t) (fun _ => eq_refl).

Definition xsdt_covers : fits_covers (fun _ => xsdt_table) xsdt_spec xsdt_new :=
  plain_covers xsdt_table xsdt_spec xsdt_refines xsdt_dom_prefix.
Definition mcfg_covers : fits_covers (fun _ => mcfg_table) mcfg_spec mcfg_new :=
  plain_covers mcfg_table mcfg_spec mcfg_refines mcfg_dom_prefix.
Definition madt_covers : add_covers (fun _ => madt_table) madt_spec madt_ops_wf madt_new :=
  add_table_covers (fun _ => madt_table) madt_spec madt_ops_wf madt_new (fun _ => eq_refl) madt_refines (forall_prefix _)
    madt_dom_prefix.
Definition srat_covers : add_covers (fun _ => srat_table) srat_spec srat_ops_wf srat_new :=
  add_table_covers (fun _ => srat_table) srat_spec srat_ops_wf srat_new (fun _ => eq_refl) srat_refines (forall_prefix _)
    srat_dom_prefix.
Definition hmat_covers : fits_covers hmat_table hmat_spec hmat_new :=
  add_table_fits hmat_table hmat_spec hmat_new (fun _ => eq_refl) hmat_refines hmat_dom_prefix.
Definition pptt_covers : fits_covers (fun _ => pptt_table) pptt_spec pptt_new :=
  plain_covers pptt_table pptt_spec pptt_refines pptt_dom_prefix.
Definition rhct_covers : fits_covers (fun _ => rhct_table) rhct_spec rhct_new :=
  plain_covers rhct_table rhct_spec rhct_refines rhct_dom_prefix.
Definition rimt_covers : fits_covers (fun _ => rimt_table) rimt_spec rimt_new :=
  plain_covers rimt_table rimt_spec rimt_refines rimt_dom_prefix.
(* VIOT: [viot_refines] has no size condition (the Spec's domain already bounds the table by its 16-bit node offsets);
   Props discharges the bound by [viot_image_small] *)
Definition viot_covers : fits_covers (fun _ => viot_table) viot_spec viot_new :=
  plain_covers viot_table viot_spec (fun md c o r H _ => viot_refines md c o r H) viot_dom_prefix.
Definition cedt_covers : fits_covers (fun _ => cedt_table) cedt_spec cedt_new :=
  plain_covers cedt_table cedt_spec cedt_refines cedt_dom_prefix.

Lemma slit_step_one md s o s' evs : slit_step md s o = Some (s', evs) -> exists h, evs = [EvNum h].
Proof. intros H. destruct (slit_step_inv md s o s' evs H) as (a & b & v & _ & _ & ->). now exists 0. Qed.

Lemma slit_dom_closed ctor p q r : ts_image slit_spec ctor (p ++ q) = Some r -> exists r1, ts_image slit_spec ctor p = Some r1.
Proof.
  intros H. destruct (slit_domain _ _ _ H) as (o & t & r0 & n & h & -> & Eh & E1 & E2 & _).
  rewrite forallb_app in E2. apply andb_true_iff in E2. destruct E2 as [E2 _].
  cbn [ts_image slit_spec]. unfold SlitS.slit_image. rewrite Eh, E2. apply N.ltb_lt in E1. rewrite E1. cbn [andb]. eexists. reflexivity.
Qed.

Lemma slit_covers : covers slit_spec slit_new slit_step (fun s => Some (Impl.Slit.slit_image s)) (fun _ _ => True).
Proof.
  split.
  - exact slit_step_one.
  - intros md c p r H _. destruct (slit_refines_inv md c p r H) as (s0 & s & Hn & Hr & <- & I & _).
    exists s0, s. repeat split; auto using sinv_sum8, sinv_len_field.
  - intros c p q r H _. destruct (slit_dom_closed c p q r H) as [r1 H1]. exists r1. auto.
Qed.

Lemma rqsc_step_one md s o s' evs : rqsc_step md s o = Some (s', evs) -> exists h, evs = [EvNum h].
Proof. unfold rqsc_step. intros H. split_matches H. exact (some_pair_one H). Qed.

Lemma rqsc_dom_prefix : prefix_closed (ts_image rqsc_spec).
Proof. exact (hdr_image_prefix (counted _ _) _ (opt_seq_app controller_ref) (counted_grows _ _)). Qed.

Lemma rqsc_covers : covers rqsc_spec rqsc_new rqsc_step (fun s => Some (Impl.Rqsc.rqsc_image s)) (fun _ r => fits32 r).
Proof.
  split.
  - exact rqsc_step_one.
  - intros md c p r H Hf. destruct (rqsc_refines md c p r H Hf) as (s0 & s & Hn & Hr & <-).
    destruct (rqsc_history md c p s0 s Hn Hr) as (H1 & H2). exists s0, s. rewrite <- rqsc_run_steps.
    split; [exact Hn|]. split; [exact Hr|]. split; [reflexivity|]. split; [exact H1|exact (H2 Hf)].
  - intros c p q r H Hf. destruct (rqsc_dom_prefix c p q r H) as (r1 & H1 & Hle). exists r1. unfold fits32 in *.
    split; [exact H1|lia].
Qed.

Definition hest_no_alone (p : list sx) : Prop := forallb (fun o => negb (is_alone_op o)) p = true.

Definition hest_state_new (c : sx) : option hstate := option_map (fun t => {| hs_tbl := t; hs_alone := None |}) (hest_new c).

Lemma hest_step_one md s o s' evs : hest_step md s o = Some (s', evs) -> exists h, evs = [EvNum h].
Proof.
  unfold hest_step. destruct (is_alone o).
  - destruct (hest_alone o); [|discriminate]. cbn [option_bind]. intros H. exact (some_pair_one H).
  - destruct (add_step hest_addition md (hs_tbl s) o) as [[t1 e]|] eqn:E; [|discriminate]. cbn [option_bind fst snd].
    intros [= _ <-]. exact (add_step_one _ _ _ _ _ _ E).
Qed.

Lemma is_alone_same o : is_alone o = is_alone_op o.
Proof. reflexivity. Qed.

Lemma hest_run_not_alone md ops : forall s s', hest_no_alone ops -> hest_run md s ops = Some s' ->
  hs_alone s = None -> hs_alone s' = None.
Proof.
  unfold hest_no_alone. induction ops as [|o ops IH]; intros s s' Hna H Hs; cbn [hest_run] in H.
  - now injection H as <-.
  - cbn [forallb] in Hna. apply andb_true_iff in Hna. destruct Hna as [Ho Hna].
    destruct o as [n|l]; [exact (IH s s' Hna H Hs)|].
    unfold hest_step in H. rewrite is_alone_same in H. destruct (is_alone_op (SL l)); [discriminate Ho|].
    destruct (add_step hest_addition md (hs_tbl s) (SL l)) as [[t1 e]|]; [|discriminate H]. cbn [option_bind fst snd] in H.
    apply (IH _ s' Hna H). reflexivity.
Qed.

Lemma no_alone_prefix p q : hest_no_alone (p ++ q) -> hest_no_alone p.
Proof. unfold hest_no_alone. rewrite forallb_app. intros H. apply andb_true_iff in H. exact (proj1 H). Qed.

Lemma no_alone_shows ops : hest_no_alone ops -> shows_alone ops = false.
Proof.
  unfold hest_no_alone. intros Hna. unfold shows_alone.
  destruct (list_last_case ops) as [-> | (l' & x & ->)]; [reflexivity|].
  rewrite last_op_snoc. rewrite forallb_app in Hna. apply andb_true_iff in Hna. destruct Hna as [_ Hx].
  cbn [forallb] in Hx. destruct (is_alone_op x); [discriminate Hx|reflexivity].
Qed.

Lemma hest_entries_splits : splits hest_entries_ref.
Proof. intros p q es. unfold hest_entries_ref, hest_adds. rewrite filter_app. apply opt_seq_app. Qed.

Lemma hest_dom_prefix ctor p q r : ts_image hest_spec ctor (p ++ q) = Some r -> hest_no_alone (p ++ q) ->
  exists r1, ts_image hest_spec ctor p = Some r1 /\ (length r1 <= length r)%nat.
Proof.
  cbn [ts_image hest_spec]. unfold HestS.hest_image. intros H Hna.
  rewrite (no_alone_shows _ Hna) in H. rewrite (no_alone_shows _ (no_alone_prefix p q Hna)).
  exact (hdr_image_prefix (counted _ _) _ hest_entries_splits (counted_grows _ _) ctor p q r H).
Qed.

Lemma hest_covers : covers hest_spec hest_state_new hest_step Impl.Hest.hest_image (fun p r => hest_no_alone p /\ fits32 r).
Proof.
  split.
  - exact hest_step_one.
  - intros md c p r H [Hw Hf]. destruct (hest_table_refines md c p r H Hw Hf) as (t0 & s & Hn & Hr & Hi).
    exists {| hs_tbl := t0; hs_alone := None |}, s. unfold hest_state_new. rewrite Hn, <- hest_run_steps.
    split; [reflexivity|]. split; [exact Hr|]. split; [exact Hi|].
    pose proof (hest_run_not_alone md p _ s Hw Hr eq_refl) as Ha.
    unfold Impl.Hest.hest_image in Hi. rewrite Ha in Hi. injection Hi as <-.
    exact (hest_history_table md c p t0 s Hn Hr Hf).
  - intros c p q r H [Hw Hf]. destruct (hest_dom_prefix c p q r H Hw) as (r1 & H1 & Hle).
    exists r1. split; [exact H1|]. split; [exact (no_alone_prefix p q Hw)|]. unfold fits32 in *. lia.
Qed.
