(* Coherence of the executable AML judgement with the model the theorems are about.  The proofs are in
   Proofs/CoherenceAmlP.v; here the theorems are instances of its lemmas ([coherence_expect_gives_wf] assembles two of them).

   The property theorems C06 / C07 / C10 / C15 speak about the Impl model ([enc], [norm], [wf]).  At run time a property
   is judged by the Spec-layer oracle functions ([c06_oracle], [c07_frame_oracle], [c10_oracle], [c15_oracle], combined by
   [oracle] in Judge.v) applied to the crate's observations; no property theorem mentions them.  The theorems below
   connect the two: on a stated domain of case S-expressions (decidable on component 40; on component 41 a relation
   between the two constructions), in both build profiles, the oracle ACCEPTS the output of the model itself,
         oracle prop 40 c (run_case md 40 c) = true      (prop = 6, 7, 10, 15)
         oracle 15 41 c (run_case md 41 c) = true.
   Hence, on that domain, whenever the correspondence K holds (the crate's observations equal the model's) the judgement
   O cannot raise an alarm: an alarm always means K failed, never that the oracle disagrees with the theorems.

   Coverage: the WHOLE term language of component 40 (no constructor family is left out): ZERO ONE ONES, the five integer
   carriers, &str / String, Path, field names, EISAName, Uuid, BufferData, Arg, Local, the unary / binary / ternary /
   quaternary operators, Name, Device, Scope, Scope::raw, Method, PowerResource, OpRegion, Mutex, Acquire, Release,
   MethodCall, Field with its field list, Package, PackageBuilder, ResourceTemplate with the five descriptor kinds, If, Else,
   While; and bare descriptors (C10).

   The domain.  [judged 6 40 c] is what the driver reports as "inside the oracle's domain":
   [expect false c] is defined (the Spec's own reading of the case: alphabet, counts, codes) and [env_consistent c] (every
   invoked name is invoked with one arity).  It is NOT by itself a domain of coherence (counterexample below); the theorems
   need, in addition, [extra c], three checks made on the term [t] the vocabulary reader [term_of_sx] builds from c:
     [argsb t]                  the arguments the exchange vocabulary leaves untyped are inside their Rust types: an integer
                                inside its carrier (u8 / u16 / u32 / u64 / usize), PowerResource level < 2^8 and order < 2^16,
                                OpRegion space < 2^8, Mutex sync level < 2^8, Acquire timeout < 2^16, descriptor arguments
                                [desc_in_range];
     [refsb (env_of c) false t] a bare Path or field name in TERM position (not a package element, not a name position) does
                                not name something the same case invokes with arguments;
     [weight t < 2^28]          the object, with every PkgLength counted at its maximal four bytes, is below the largest
                                encodable package (a larger well-formed tree is refused by the crate -- C18 -- while [expect]
                                still answers: outside this bound the C06 oracle reports the refusal as a violation).
   Everything else the C06 round trip needs ([wf]: name alphabet, segment counts, operator codes, argument arities against
   the arity table, field list entries, descriptor children ...) and everything the model needs in order not to refuse
   ([emitb]) is PROVED from [judged 6 40 c] together with [argsb] and [refsb] ([derive] in the proofs file), and the Spec's
   expected tree is proved to be the normal form of the term the model encodes ([link]: term_of_sx c = Some t -> argsb t ->
   expect el c = Some g -> norm el t = Some g), for both positions el. *)
From Coq Require Import NArith List.
From ACPI Require Import Lib.Sx Impl.AmlTerm Spec.AmlTermS
  Proofs.AmlRoundTrip Judge Proofs.CoherenceAmlP.
Import ListNotations.
Open Scope N_scope.

(* the domain, unfolded (definitions in Proofs/CoherenceAmlP.v) *)
Example coh_domain_unfold c :
  coh_domain c = judged 6 40 c &&
                 match term_of_sx c with
                 | Some t => argsb t && refsb (env_of c) false t && (N.of_nat (weight t) <? 2 ^ 28)
                 | None => false
                 end.
Proof. reflexivity. Qed.

(* the key link between the two independent readings of a case: the Spec's expected tree is the normal form of the term
   the model encodes, wherever the Spec's reading is defined (both positions) *)
Theorem coherence_expect_is_norm :
  forall c el t g, term_of_sx c = Some t -> argsb t = true -> expect el c = Some g -> norm el t = Some g.
Proof. intros c el t g Ht Ha Hg. exact (link c t Ht el Ha g Hg). Qed.

(* well-formedness for the round trip and the model's not refusing follow from the Spec's own checks *)
Theorem coherence_expect_gives_wf :
  forall c t g, term_of_sx c = Some t -> expect false c = Some g -> env_consistent c = true ->
    argsb t = true -> refsb (env_of c) false t = true ->
    wf (env_of c) false t /\
    (forall md, N.of_nat (weight t) < 2 ^ 28 -> exists b, enc md t = Some b /\ (depth t <= length b <= weight t)%nat).
Proof.
  intros c t g Ht Hg Hc Ha Hr.
  destruct (derive (calls_of c) Hc c false t g Ht Hg Ha Hr (incl_refl _)) as [Wf Em].
  split; [exact Wf|]. intros md Hw. exact (EM_all t md Em Hw).
Qed.

(* C06: the model's bytes parse completely, with the oracle's fuel and the oracle's arity table, to the expected tree *)
Theorem coherence_C06 :
  forall md c, coh_domain c = true -> oracle 6 40 c (run_case md 40 c) = true.
Proof. exact c06_coherent. Qed.

(* C07 at the call sites: PkgLength value, lead-byte format, minimality (and the C06 judgement it is combined with) *)
Theorem coherence_C07 :
  forall md c, coh_domain c = true -> oracle 7 40 c (run_case md 40 c) = true.
Proof. exact c07_coherent. Qed.

(* C10 on the C06 domain (a resource template: declared size, tiling by the descriptors' own length fields, reference
   payload, end tag; any other judged term: nothing to say) *)
Theorem coherence_C10 :
  forall md c, coh_domain c = true -> oracle 10 40 c (run_case md 40 c) = true.
Proof. exact c10_coherent. Qed.

(* C10 on a bare descriptor with in-range arguments: the reference bytes, one walker item -- or both refuse *)
Theorem coherence_C10_descriptor :
  forall md c, desc_domain c = true -> oracle 10 40 c (run_case md 40 c) = true.
Proof. exact c10_desc_coherent. Qed.

(* C15 on component 40: the same judgement as C06 *)
Theorem coherence_C15 :
  forall md c, coh_domain c = true -> oracle 15 40 c (run_case md 40 c) = true.
Proof. exact c06_coherent. Qed.

(* C15 on component 41: a pair (x y) of alternative constructions of one object -- identical, Scope::new / Scope::raw,
   Package / PackageBuilder, &str / String, usize / u64 of one value below 2^64, at the top of the pair -- where, if the
   first is judged, it lies in the C06 domain: identical bytes, or a refusal of something the Spec does not expect *)
Theorem coherence_C15_pair :
  forall md x y, pair_domain x y -> oracle 15 41 (SL [x; y]) (run_case md 41 (SL [x; y])) = true.
Proof. exact c15_pair_coherent. Qed.

(* Outside the domain.  C06 (and C15 on component 40, which is the same judgement) says nothing about an unjudged case:
   whatever is observed is accepted.  So, for EVERY case c and both profiles, the C06 oracle accepts the model's own output
   unless c is judged and fails [extra] -- and there it can indeed reject it (examples at the end of this file). *)
Theorem coherence_C06_every_case :
  forall md c, (judged 6 40 c = true -> extra c = true) -> oracle 6 40 c (run_case md 40 c) = true.
Proof. exact c06_total. Qed.

(* The frame check of C07 needs no domain at all: on EVERY case, judged or not, read by the vocabulary or not, it accepts
   what the model emits (below 2^63 bytes) or refuses; with the C06 judgement it is combined with: *)
Theorem coherence_C07_frames_every_case :
  forall md c, (forall b, aml_case md c = [EvBytes b] -> N.of_nat (length b) < 2 ^ 63) ->
    c07_frame_oracle c (aml_case md c) = true.
Proof. exact c07_frame_all. Qed.

Theorem coherence_C07_every_case :
  forall md c, (judged 6 40 c = true -> extra c = true) ->
    (forall b, run_case md 40 c = [EvBytes b] -> N.of_nat (length b) < 2 ^ 63) ->
    oracle 7 40 c (run_case md 40 c) = true.
Proof. exact c07_total. Qed.

Print Assumptions coherence_expect_is_norm.
Print Assumptions coherence_expect_gives_wf.
Print Assumptions coherence_C06.
Print Assumptions coherence_C07.
Print Assumptions coherence_C10.
Print Assumptions coherence_C10_descriptor.
Print Assumptions coherence_C15.
Print Assumptions coherence_C15_pair.
Print Assumptions coherence_C06_every_case.
Print Assumptions coherence_C07_frames_every_case.
Print Assumptions coherence_C07_every_case.

(* Non-vacuity.  A nested, realistic case:
     Device (\_SB_.PCI0) {
       Name (_HID, EisaId ("PNP0A08"))
       Name (_CRS, ResourceTemplate { Memory32Fixed, IO, Interrupt, QWordMemory })
       Method (MTST, 1, Serialized) {
         If (Arg0 == 5) { Store (MCAL (Local0, One), Local1)  Return (Local1) }
         Else { Return (Package { One, "AB", \_SB_ }) } }
       OperationRegion (REG0, SystemMemory, 0xFED00000, 0x100)
       Field (REG0, DWordAcc, Lock, Preserve) { FLD0, 8, , 24, FLD1, 300 }
       Mutex (MTX0, 0)   PowerResource (PWR0, 0, 0) {}   While (One) { Release (MTX0) }
     } *)
Definition by_ (l : list N) : sx := SL (map SA l).
Definition nm4 (a b c d : N) : sx := by_ [a; b; c; d].

Definition demo : sx :=
  SL [SA 41; by_ [92; 95; 83; 66; 95; 46; 80; 67; 73; 48];
      SL [ SL [SA 40; nm4 95 72 73 68; SL [SA 9; by_ [80; 78; 80; 48; 65; 48; 56]]];
           SL [SA 40; nm4 95 67 82 83;
               SL [SA 62; SL [ SL [SA 20; SA 1; SA 0xFED00000; SA 0x1000];
                               SL [SA 22; SA 0x3F8; SA 0x3F8; SA 1; SA 8];
                               SL [SA 23; SA 1; SA 0; SA 0; SA 0; SA 4];
                               SL [SA 21; SA 64; SA 0; SA 1; SA 1; SA 0x100000000; SA 0x1FFFFFFFF; SL []] ]]];
           SL [SA 44; nm4 77 84 83 84; SA 1; SA 1;
               SL [ SL [SA 63; SL [SA 31; SA 0; SL [SA 12; SA 0]; SL [SA 4; SA 8; SA 5]];
                        SL [ SL [SA 31; SA 6; SL [SA 13; SA 1]; SL [SA 50; nm4 77 67 65 76; SL [SL [SA 13; SA 0]; SL [SA 2]]]];
                             SL [SA 30; SA 2; SL [SA 13; SA 1]] ]];
                    SL [SA 64; SL [ SL [SA 30; SA 2; SL [SA 60; SL [SL [SA 2]; SL [SA 5; by_ [65; 66]]; SL [SA 7; by_ [92; 95; 83; 66; 95]]]]] ]] ]];
           SL [SA 46; nm4 82 69 71 48; SA 0; SL [SA 4; SA 32; SA 0xFED00000]; SL [SA 4; SA 16; SA 0x100]];
           SL [SA 51; nm4 82 69 71 48; SA 3; SA 1; SA 0;
               SL [SL [SA 0; nm4 70 76 68 48; SA 8]; SL [SA 1; SA 24]; SL [SA 0; nm4 70 76 68 49; SA 300]]];
           SL [SA 47; nm4 77 84 88 48; SA 0];
           SL [SA 45; nm4 80 87 82 48; SA 0; SA 0; SL []];
           SL [SA 65; SL [SA 2]; SL [SL [SA 49; nm4 77 84 88 48]]] ]].

Example demo_in_domain : coh_domain demo = true.
Proof. vm_compute. reflexivity. Qed.

(* the theorems apply to it, both profiles, every property *)
Example demo_coherent :
  forall md, oracle 6 40 demo (run_case md 40 demo) = true /\ oracle 7 40 demo (run_case md 40 demo) = true /\
             oracle 10 40 demo (run_case md 40 demo) = true /\ oracle 15 40 demo (run_case md 40 demo) = true.
Proof.
  intros md. split; [apply coherence_C06; exact demo_in_domain|]. split; [apply coherence_C07; exact demo_in_domain|].
  split; [apply coherence_C10; exact demo_in_domain|apply coherence_C15; exact demo_in_domain].
Qed.

(* the judgement is not trivially true on it: the model emits bytes, and a one-byte change of them is rejected *)
Example demo_nontrivial :
  match run_case Checked 40 demo with
  | [EvBytes (op :: rest)] => oracle 6 40 demo [EvBytes (op :: rest)] = true /\ oracle 6 40 demo [EvBytes (op :: rest ++ [0])] = false /\
                              oracle 6 40 demo [EvPanic] = false /\ Nat.ltb 200 (length rest) = true
  | _ => False
  end.
Proof. vm_compute. repeat split; reflexivity. Qed.

(* a template alone (four descriptors like those of the demo, and a Register): C10 judges something (size, tiling, payload, end tag) *)
Definition demo_template : sx :=
  SL [SA 62; SL [ SL [SA 20; SA 1; SA 0xFED00000; SA 0x1000]; SL [SA 22; SA 0x3F8; SA 0x3F8; SA 1; SA 8];
                  SL [SA 23; SA 1; SA 0; SA 0; SA 0; SA 4];
                  SL [SA 21; SA 64; SA 0; SA 1; SA 1; SA 0x100000000; SA 0x1FFFFFFFF; SL [SA 0x1000]];
                  SL [SA 24; SA 0x7F; SA 64; SA 0; SA 4; SA 0xFED00000] ]].

Example demo_template_coherent :
  coh_domain demo_template = true /\ judged 10 40 demo_template = true /\
  (forall md, oracle 10 40 demo_template (run_case md 40 demo_template) = true) /\
  oracle 10 40 demo_template [EvBytes [0x11; 0x05; 0x0A; 0x02; 0x79; 0x00]] = false.
Proof.
  split; [vm_compute; reflexivity|]. split; [vm_compute; reflexivity|]. split; [|vm_compute; reflexivity].
  intros md. apply coherence_C10. vm_compute. reflexivity.
Qed.

(* a bare descriptor: accepted with its reference bytes; and a range both sides refuse *)
Definition demo_desc : sx := SL [SA 21; SA 32; SA 1; SA 0; SA 1; SA 0xD000; SA 0xDFFF; SL [SA 0x10000]].
Definition demo_desc_refused : sx := SL [SA 21; SA 64; SA 0; SA 0; SA 1; SA 0; SA 0xFFFFFFFFFFFFFFFF; SL []].

Example demo_desc_coherent :
  desc_domain demo_desc = true /\ desc_domain demo_desc_refused = true /\
  (forall md, oracle 10 40 demo_desc (run_case md 40 demo_desc) = true) /\
  (forall md, oracle 10 40 demo_desc_refused (run_case md 40 demo_desc_refused) = true) /\
  run_case Checked 40 demo_desc_refused = [EvPanic] /\
  match run_case Checked 40 demo_desc with [EvBytes b] => oracle 10 40 demo_desc [EvBytes (b ++ [0])] = false | _ => False end.
Proof.
  split; [vm_compute; reflexivity|]. split; [vm_compute; reflexivity|].
  split; [intros md; apply coherence_C10_descriptor; vm_compute; reflexivity|].
  split; [intros md; apply coherence_C10_descriptor; vm_compute; reflexivity|].
  split; vm_compute; reflexivity.
Qed.

(* component 41: Scope::new against Scope::raw with nested children; Package against PackageBuilder *)
Definition demo_kids : list sx :=
  [ SL [SA 40; nm4 95 72 73 68; SL [SA 9; by_ [80; 78; 80; 48; 65; 48; 56]]];
    SL [SA 44; nm4 77 84 83 84; SA 0; SA 0; SL [SL [SA 30; SA 2; SL [SA 60; SL [SL [SA 2]; SL [SA 5; by_ [65; 66]]]]]]];
    SL [SA 11; by_ [1; 2; 3; 255]] ].

Example demo_pair_coherent :
  pair_domain (SL [SA 42; nm4 95 83 66 95; SL demo_kids]) (SL [SA 43; nm4 95 83 66 95; SL demo_kids]) /\
  pair_domain (SL [SA 60; SL demo_kids]) (SL [SA 61; SL demo_kids]) /\
  (forall md, oracle 15 41 (SL [SL [SA 42; nm4 95 83 66 95; SL demo_kids]; SL [SA 43; nm4 95 83 66 95; SL demo_kids]])
                (run_case md 41 (SL [SL [SA 42; nm4 95 83 66 95; SL demo_kids]; SL [SA 43; nm4 95 83 66 95; SL demo_kids]])) = true) /\
  judged 15 41 (SL [SL [SA 42; nm4 95 83 66 95; SL demo_kids]; SL [SA 43; nm4 95 83 66 95; SL demo_kids]]) = true /\
  oracle 15 41 (SL [SL [SA 42; nm4 95 83 66 95; SL demo_kids]; SL [SA 43; nm4 95 83 66 95; SL demo_kids]])
    [EvBytes [0x10; 5; 95; 83; 66; 95]; EvBytes [0x10; 6; 95; 83; 66; 95]] = false.
Proof.
  assert (P1 : pair_domain (SL [SA 42; nm4 95 83 66 95; SL demo_kids]) (SL [SA 43; nm4 95 83 66 95; SL demo_kids])).
  { split; [apply alt_scope|]. intros _. vm_compute. reflexivity. }
  split; [exact P1|]. split; [split; [apply alt_pkg|intros _; vm_compute; reflexivity]|].
  split; [intros md; exact (coherence_C15_pair md _ _ P1)|]. split; vm_compute; reflexivity.
Qed.

(* FINDING: [judged 6 40] alone is not a domain of coherence.  Scope (ABCD) { MFOO (Zero)  MFOO } -- a method invoked with
   one argument and, next to it, a bare reference to the same name in term position -- is judged ([expect] defined,
   [env_consistent]: only invocations enter the arity table), the model emits the obvious bytes, and the C06 oracle REJECTS
   them: its parser, told that MFOO takes one argument, looks for an argument after the bare reference.  The alarm is
   raised by O alone (K holds trivially: these are the model's own bytes).  [refsb] is the missing condition; the same
   happens with a field name (code 8) in place of the Path.  Cases of this kind do not occur in AML a compiler would
   accept (a reference to a method IS an invocation); the harness generator (`seg()` in harness/src/amlterm.rs) does not emit
   names of the form M<digit>xy, which is where one could have come from. *)
Definition judged_but_rejected : sx :=
  SL [SA 42; nm4 65 66 67 68; SL [ SL [SA 50; nm4 77 70 79 79; SL [SL [SA 1]]]; SL [SA 7; nm4 77 70 79 79] ]].

Example judged_is_not_coherent :
  judged 6 40 judged_but_rejected = true /\
  run_case Checked 40 judged_but_rejected = [EvBytes [0x10; 14; 65; 66; 67; 68; 77; 70; 79; 79; 0; 77; 70; 79; 79]] /\
  oracle 6 40 judged_but_rejected (run_case Checked 40 judged_but_rejected) = false /\
  oracle 7 40 judged_but_rejected (run_case Checked 40 judged_but_rejected) = false /\
  oracle 15 40 judged_but_rejected (run_case Checked 40 judged_but_rejected) = false /\
  coh_domain judged_but_rejected = false.
Proof. vm_compute. repeat split; reflexivity. Qed.

(* the other two conditions of [extra] are needed as well.  An integer outside its carrier is truncated by the cast (the
   Spec expects the value given): *)
Example argsb_needed :
  judged 6 40 (SL [SA 4; SA 16; SA 70000]) = true /\
  oracle 6 40 (SL [SA 4; SA 16; SA 70000]) (run_case Checked 40 (SL [SA 4; SA 16; SA 70000])) = false /\
  coh_domain (SL [SA 4; SA 16; SA 70000]) = false.
Proof. vm_compute. repeat split; reflexivity. Qed.

(* The size: BufferData of n zero bytes, 2^28 <= n (below 2^62), is judged -- [expect] does not look at sizes --, the model
   refuses it in both profiles (as C18 demands of the crate), and the C06 oracle counts the refusal of a judged case as a
   violation.  (Not exhibited by computation: 256 MiB.  The C06 generator does not produce such cases; C18 judges them
   with its own oracle, which expects the refusal.) *)
Theorem coherence_size_bound_needed :
  forall md n, 2 ^ 28 <= N.of_nat n < 2 ^ 62 ->
    judged 6 40 (big_buffer n) = true /\ aml_case md (big_buffer n) = [EvPanic] /\
    c06_oracle (big_buffer n) (aml_case md (big_buffer n)) = false.
Proof. exact oversize_refusal_is_rejected. Qed.

Print Assumptions coherence_size_bound_needed.
