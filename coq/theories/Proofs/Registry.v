(* The two lists the generic theorems are quantified over in Props C01 C02 C03 C05: `add_tables` (tables whose operations are
   additions) and `walk_tables` (those whose additions describe themselves); and, for the structures that are in neither list,
   the statements of C01 / C02 written out with their proofs: the fixed structures (`fixed_*_statement`) and the tables with
   state machines of their own (`special_*_statement`). *)
From Coq Require Import NArith List.
From ACPI Require Import Lib.Bytes Lib.Sx Impl.Table Impl.Fields Impl.Bert Impl.Spcr Impl.Facs Impl.Rsdp Impl.Tpm2
  Impl.Rqsc Impl.Fadt Impl.Slit Impl.Hest Spec.Layout Proofs.TableP Proofs.Tables Proofs.FixedP.
From ACPI Require Import Proofs.XsdtP Proofs.McfgP Proofs.SratP Proofs.HestP Proofs.HmatP Proofs.PpttP Proofs.RhctP Proofs.RimtP
  Proofs.ViotP Proofs.CedtP Proofs.SratWalkP Proofs.XsdtWalkP Proofs.McfgWalkP Proofs.PpttWalkP Proofs.RhctWalkP Proofs.RimtWalkP
  Proofs.ViotWalkP Proofs.CedtWalkP Proofs.HestWalkP Proofs.HmatWalkP Proofs.CtorOnlyP Proofs.FacsP
  Proofs.Tpm2P Proofs.C11Tpm2P Proofs.RqscP Proofs.FadtP Proofs.SlitP.
Import ListNotations.

Definition add_tables : list addtable :=
  [madt_table; xsdt_table; mcfg_table; srat_table; hest_table; hmat_table Checked; hmat_table Wrapping; pptt_table; rhct_table;
   rimt_table; viot_table; cedt_table].

Definition walk_tables : list walktable :=
  [madt_walk; srat_walk; xsdt_walk; mcfg_walk; pptt_walk; rhct_walk; rimt_walk; viot_walk; cedt_walk; hest_walk;
   hmat_walk Checked; hmat_walk Wrapping].

Open Scope N_scope.

(* C01 / C02 for every addition table, registered or not *)
Lemma add_tables_sum (T : addtable) md c ops s0 s :
  at_new T c = Some s0 -> run_adds (at_entry T) md s0 ops = Some s ->
  N.of_nat (length (tbl_image s)) < 2 ^ 32 -> sum8 (tbl_image s) = 0.
Proof. intros Hn Hr Hfit. exact (proj1 (addtable_sum_len T md c ops s0 s Hn Hr Hfit)). Qed.

Lemma add_tables_len (T : addtable) md c ops s0 s :
  at_new T c = Some s0 -> run_adds (at_entry T) md s0 ops = Some s ->
  N.of_nat (length (tbl_image s)) < 2 ^ 32 -> field_at (tbl_image s) 4 4 = N.of_nat (length (tbl_image s)).
Proof. intros Hn Hr Hfit. exact (proj2 (addtable_sum_len T md c ops s0 s Hn Hr Hfit)). Qed.

Definition fixed_sum_statement : Prop :=
  (forall md c ops s0 s, bert_new c = Some s0 -> run_steps (bert_step md) s0 ops = Some s -> sum8 (bert_bytes s) = 0) /\
  (forall md c ops s0 s, spcr_new c = Some s0 -> run_steps (spcr_step md) s0 ops = Some s -> sum8 (spcr_bytes s) = 0) /\
  (forall md c ops s0 s, tpmclient_new c = Some s0 -> run_steps (tpmclient_step md) s0 ops = Some s -> sum8 (tpmclient_bytes s) = 0) /\
  (forall md c ops s0 s, tpmserver_new c = Some s0 -> run_steps (tpmserver_step md) s0 ops = Some s -> sum8 (tpmserver_bytes s) = 0) /\
  (forall md c ops s0 s, tpm2_new c = Some s0 -> run_steps (tpm2_step md) s0 ops = Some s -> sum8 (tpm2_bytes s) = 0) /\
  (forall md c ops s0 s, rsdp_new c = Some s0 -> run_steps (rsdp_step md) s0 ops = Some s ->
                         sum8 (rsdp_bytes s) = 0 /\ sum8 (firstn 20 (rsdp_bytes s)) = 0).

Lemma fixed_sum : fixed_sum_statement.
Proof.
  repeat apply conj; intros md c ops s0 s Hn Hr.
  - exact (proj1 (bert_sum_len md c ops s0 s Hn Hr)).
  - exact (proj1 (spcr_sum_len md c ops s0 s Hn Hr)).
  - exact (proj1 (tpmclient_sum_len md c ops s0 s Hn Hr)).
  - exact (proj1 (tpmserver_sum_len md c ops s0 s Hn Hr)).
  - exact (proj1 (tpm2_sum_len md c ops s0 s Hn Hr)).
  - destruct (rsdp_sums_len md c ops s0 s Hn Hr) as (H1 & H2 & _). exact (conj H1 H2).
Qed.

Definition fixed_len_statement : Prop :=
  (forall md c ops s0 s, bert_new c = Some s0 -> run_steps (bert_step md) s0 ops = Some s ->
                         field_at (bert_bytes s) 4 4 = N.of_nat (length (bert_bytes s))) /\
  (forall md c ops s0 s, spcr_new c = Some s0 -> run_steps (spcr_step md) s0 ops = Some s ->
                         field_at (spcr_bytes s) 4 4 = N.of_nat (length (spcr_bytes s))) /\
  (forall md c ops s0 s, tpmclient_new c = Some s0 -> run_steps (tpmclient_step md) s0 ops = Some s ->
                         field_at (tpmclient_bytes s) 4 4 = N.of_nat (length (tpmclient_bytes s))) /\
  (forall md c ops s0 s, tpmserver_new c = Some s0 -> run_steps (tpmserver_step md) s0 ops = Some s ->
                         field_at (tpmserver_bytes s) 4 4 = N.of_nat (length (tpmserver_bytes s))) /\
  (forall md c ops s0 s, tpm2_new c = Some s0 -> run_steps (tpm2_step md) s0 ops = Some s ->
                         field_at (tpm2_bytes s) 4 4 = N.of_nat (length (tpm2_bytes s))) /\
  (forall md c ops s0 s, rsdp_new c = Some s0 -> run_steps (rsdp_step md) s0 ops = Some s ->
                         field_at (rsdp_bytes s) 20 4 = 36 /\ length (rsdp_bytes s) = 36%nat) /\
  (forall md c ops s0 s, facs_new c = Some s0 -> run_steps (facs_step md) s0 ops = Some s ->
                         field_at (ser_flds s) 4 4 = 64 /\ length (ser_flds s) = 64%nat).

Lemma fixed_len : fixed_len_statement.
Proof.
  repeat apply conj; intros md c ops s0 s Hn Hr.
  - exact (proj2 (bert_sum_len md c ops s0 s Hn Hr)).
  - exact (proj2 (spcr_sum_len md c ops s0 s Hn Hr)).
  - exact (proj2 (tpmclient_sum_len md c ops s0 s Hn Hr)).
  - exact (proj2 (tpmserver_sum_len md c ops s0 s Hn Hr)).
  - exact (proj2 (tpm2_sum_len md c ops s0 s Hn Hr)).
  - exact (proj2 (proj2 (rsdp_sums_len md c ops s0 s Hn Hr))).
  - exact (facs_len md c ops s0 s Hn Hr).
Qed.

Definition special_sum_statement : Prop :=
  (forall md c ops s0 s, rqsc_new c = Some s0 -> rqsc_run md s0 ops = Some s -> sum8 (rqsc_image s) = 0) /\
  (forall md c ops f0 f, fadt_new c = Some f0 -> fadt_run md f0 ops = Some f -> sum8 (fadt_image f) = 0) /\
  (forall md c ops s0 s, slit_new c = Some s0 -> slit_run md s0 ops = Some s -> sum8 (slit_image s) = 0) /\
  (forall md c ops t0 s, hest_new c = Some t0 -> hest_run md {| hs_tbl := t0; hs_alone := None |} ops = Some s ->
                         N.of_nat (length (tbl_image (hs_tbl s))) < 2 ^ 32 -> sum8 (tbl_image (hs_tbl s)) = 0).

Lemma special_sum : special_sum_statement.
Proof.
  repeat apply conj; intros md c ops s0 s Hn Hr.
  - exact (proj1 (rqsc_history md c ops s0 s Hn Hr)).
  - exact (proj1 (fadt_history md c ops s0 s Hn Hr)).
  - exact (proj1 (slit_correct_all md c ops s0 s Hn Hr)).
  - intros Hfit. exact (proj1 (hest_history_table md c ops s0 s Hn Hr Hfit)).
Qed.

Definition special_len_statement : Prop :=
  (forall md c ops s0 s, rqsc_new c = Some s0 -> rqsc_run md s0 ops = Some s ->
                         N.of_nat (length (rqsc_image s)) < 2 ^ 32 ->
                         field_at (rqsc_image s) 4 4 = N.of_nat (length (rqsc_image s))) /\
  (forall md c ops f0 f, fadt_new c = Some f0 -> fadt_run md f0 ops = Some f ->
                         field_at (fadt_image f) 4 4 = N.of_nat (length (fadt_image f))) /\
  (forall md c ops s0 s, slit_new c = Some s0 -> slit_run md s0 ops = Some s ->
                         field_at (slit_image s) 4 4 = N.of_nat (length (slit_image s))) /\
  (forall md c ops t0 s, hest_new c = Some t0 -> hest_run md {| hs_tbl := t0; hs_alone := None |} ops = Some s ->
                         N.of_nat (length (tbl_image (hs_tbl s))) < 2 ^ 32 ->
                         field_at (tbl_image (hs_tbl s)) 4 4 = N.of_nat (length (tbl_image (hs_tbl s)))).

Lemma special_len : special_len_statement.
Proof.
  repeat apply conj; intros md c ops s0 s Hn Hr.
  - exact (proj2 (rqsc_history md c ops s0 s Hn Hr)).
  - exact (proj2 (fadt_history md c ops s0 s Hn Hr)).
  - exact (proj1 (proj2 (slit_correct_all md c ops s0 s Hn Hr))).
  - intros Hfit. exact (proj2 (hest_history_table md c ops s0 s Hn Hr Hfit)).
Qed.
