(* Coherence of the executable judgements with the model, for the pure kernels (components 1..6).  Statements;
   the proofs are in Proofs/CoherenceKernelsP.v (here at most an instantiation) and rest on the lemmas behind C07, C08, C09, C16, C17.

   For every case of the stated domain the Spec-layer oracle ACCEPTS the Impl model's own output:
        oracle prop comp c (run_case md comp c) = true.
   Hence (i) on a case where the crate and the model agree (K) the oracle alone cannot raise an alarm, and (ii) the
   judgements the driver executes agree with the property theorems on every input, not only on the sampled ones.
   Each statement is given through `oracle` / `run_case` (literally what the driver calls) and, as `_unfolded`, through the
   specific oracle and case functions these reduce to.  A pair such as (17, 1) below is (property, component): the two numbers the
   driver passes to `oracle` and `run_case`. *)
From Coq Require Import NArith List Lia.
From ACPI Require Import Lib.Bytes Lib.Sx Impl.Checksum Spec.ChecksumS Impl.AmlCore Spec.AmlCoreS.
From ACPI Require Import Judge Proofs.CoherenceKernelsP.
Import ListNotations.
Open Scope N_scope.

(* (17, 1) checksum accumulator.  Domain: ck_wf c, the case grammar ck_case accepts (a list of operations each parsed by
   ckop_of_sx); operands are arbitrary numbers.  The domain is the largest one (coh_ck_domain_sharp). *)
Theorem coh_ck :
  forall md c, ck_wf c = true -> oracle 17 1 c (run_case md 1 c) = true.
Proof. intros md. exact coh_ck_kernel. Qed.

Theorem coh_ck_unfolded :
  forall c, ck_wf c = true -> ck_oracle c (ck_case c) = true.
Proof. exact coh_ck_kernel. Qed.

Theorem coh_ck_domain_sharp :
  forall c, ck_oracle c (ck_case c) = true -> ck_wf c = true.
Proof. exact coh_ck_sharp. Qed.

Example coh_ck_example :
  let c := SL [SL [SA 0; SA 200]; SL [SA 2; SL [SA 100; SA 7]]; SL [SA 1; SA 9]; SL [SA 6; SA 0x01020304];
               SL [SA 3; SL [SA 7]]; SL [SA 7; SA (2 ^ 64 - 1)]] in
  ck_wf c = true /\ oracle 17 1 c (run_case Wrapping 1 c) = true /\
  run_case Wrapping 1 c = [EvNum 200; EvNum 56; EvNum 51; EvNum 205; EvNum 42; EvNum 214; EvNum 52; EvNum 204;
                           EvNum 45; EvNum 211; EvNum 37; EvNum 219].
Proof. vm_compute. repeat split. Qed.

(* (7, 2) and (18, 2) create_pkg_length.  Domain: pkg_dom md n incl = every n in the overflow-checking profile; in the
   wrapping profile n + (4 if inclusive) < 2^64.  This contains the sizes C07 covers (coh_pkglen_c07_sizes) and every
   oversize up to the end of usize; it is sharp on usize (coh_pkglen_wrap_counterexample). *)
Theorem coh_pkglen :
  forall md n i, pkg_dom md n (negb (i =? 0)) = true ->
    oracle 7 2 (SL [SA n; SA i]) (run_case md 2 (SL [SA n; SA i])) = true.
Proof. exact coh_pkglen_kernel. Qed.

Theorem coh_pkglen_unfolded :
  forall md n i, pkg_dom md n (negb (i =? 0)) = true ->
    pkglen_oracle (SL [SA n; SA i]) (pkglen_case md (SL [SA n; SA i])) = true.
Proof. exact coh_pkglen_kernel. Qed.

Theorem coh_pkglen_c07_sizes :
  forall md n i, (if i =? 0 then n < 2 ^ 28 else n + 4 < 2 ^ 28) ->
    oracle 7 2 (SL [SA n; SA i]) (run_case md 2 (SL [SA n; SA i])) = true.
Proof. exact CoherenceKernelsP.coh_pkglen_c07_sizes. Qed.

Theorem coh_pkglen18 :
  forall md n i, pkg_dom md n (negb (i =? 0)) = true ->
    oracle 18 2 (SL [SA n; SA i]) (run_case md 2 (SL [SA n; SA i])) = true.
Proof. exact coh_pkglen18_kernel. Qed.

Theorem coh_pkglen18_unfolded :
  forall md n i, pkg_dom md n (negb (i =? 0)) = true ->
    pkglen_oracle18 (SL [SA n; SA i]) (pkglen_case md (SL [SA n; SA i])) = true.
Proof. exact coh_pkglen18_kernel. Qed.

Theorem coh_pkglen18_all_checked :
  forall n i, oracle 18 2 (SL [SA n; SA i]) (run_case Checked 2 (SL [SA n; SA i])) = true.
Proof. intros n i. apply coh_pkglen18_kernel. reflexivity. Qed.

Theorem coh_pkglen18_all_wrapping :
  forall n i, n + 4 < 2 ^ 64 -> oracle 18 2 (SL [SA n; SA i]) (run_case Wrapping 2 (SL [SA n; SA i])) = true.
Proof.
  intros n i H. apply coh_pkglen18_kernel. cbn [pkg_dom]. apply N.ltb_lt. destruct (negb (i =? 0)); lia.
Qed.

(* FINDING: the four usize values left out.  Wrapping profile, inclusive form, 2^64 - 4 <= n < 2^64: len + 4 wraps, the
   model (as the code in a release build) emits a 4-byte PkgLength for the wrapped total, and both oracles reject it. *)
Theorem coh_pkglen_wrap_counterexample :
  forall n i, n < 2 ^ 64 -> pkg_dom Wrapping n (negb (i =? 0)) = false ->
    oracle 7 2 (SL [SA n; SA i]) (run_case Wrapping 2 (SL [SA n; SA i])) = false /\
    oracle 18 2 (SL [SA n; SA i]) (run_case Wrapping 2 (SL [SA n; SA i])) = false.
Proof. exact coh_pkglen_wrap_sharp. Qed.

Example coh_pkglen_example :
  pkg_dom Wrapping 4093 true = true /\ pkg_dom Wrapping 4094 true = true /\ pkg_dom Wrapping 63 false = true /\
  run_case Wrapping 2 (SL [SA 4093; SA 1]) = [EvBytes [0x4F; 0xFF]] /\
  oracle 7 2 (SL [SA 4093; SA 1]) (run_case Wrapping 2 (SL [SA 4093; SA 1])) = true /\
  run_case Checked 2 (SL [SA 4094; SA 1]) = [EvBytes [0x81; 0x00; 0x01]] /\
  oracle 7 2 (SL [SA 4094; SA 1]) (run_case Checked 2 (SL [SA 4094; SA 1])) = true /\
  run_case Wrapping 2 (SL [SA 63; SA 0]) = [EvBytes [0x4F; 0x03]] /\
  oracle 7 2 (SL [SA 63; SA 0]) (run_case Wrapping 2 (SL [SA 63; SA 0])) = true /\
  (* a judged refusal *)
  run_case Wrapping 2 (SL [SA (2 ^ 28 - 4); SA 1]) = [EvPanic] /\
  oracle 7 2 (SL [SA (2 ^ 28 - 4); SA 1]) (run_case Wrapping 2 (SL [SA (2 ^ 28 - 4); SA 1])) = true.
Proof. vm_compute. repeat split. Qed.

Example coh_pkglen18_example :
  pkg_dom Wrapping (2 ^ 28 - 4) true = true /\ pkg_dom Wrapping (2 ^ 64 - 5) true = true /\
  pkg_representable (2 ^ 28 - 4) true = false /\
  run_case Wrapping 2 (SL [SA (2 ^ 28 - 4); SA 1]) = [EvPanic] /\
  oracle 18 2 (SL [SA (2 ^ 28 - 4); SA 1]) (run_case Wrapping 2 (SL [SA (2 ^ 28 - 4); SA 1])) = true /\
  oracle 18 2 (SL [SA (2 ^ 64 - 5); SA 1]) (run_case Wrapping 2 (SL [SA (2 ^ 64 - 5); SA 1])) = true /\
  oracle 18 2 (SL [SA (2 ^ 28); SA 0]) (run_case Checked 2 (SL [SA (2 ^ 28); SA 0])) = true.
Proof. vm_compute. repeat split. Qed.

Example coh_pkglen_wrap_counterexample_instance :
  run_case Wrapping 2 (SL [SA (2 ^ 64 - 1); SA 1]) = [EvBytes [0xC3; 0; 0; 0]] /\
  oracle 7 2 (SL [SA (2 ^ 64 - 1); SA 1]) (run_case Wrapping 2 (SL [SA (2 ^ 64 - 1); SA 1])) = false /\
  oracle 18 2 (SL [SA (2 ^ 64 - 1); SA 1]) (run_case Wrapping 2 (SL [SA (2 ^ 64 - 1); SA 1])) = false /\
  run_case Checked 2 (SL [SA (2 ^ 64 - 1); SA 1]) = [EvPanic].
Proof. vm_compute. repeat split. Qed.

(* (8, 3) integer constants.  Domain: int_dom ty n = the tag is one of 8 / 16 / 32 / 64 / 0 (usize) and n is below that
   carrier's modulus. *)
Theorem coh_int :
  forall md ty n, int_dom ty n = true ->
    oracle 8 3 (SL [SA ty; SA n]) (run_case md 3 (SL [SA ty; SA n])) = true.
Proof. intros md. exact coh_int_kernel. Qed.

Theorem coh_int_unfolded :
  forall ty n, int_dom ty n = true -> int_oracle (SL [SA ty; SA n]) (int_case (SL [SA ty; SA n])) = true.
Proof. exact coh_int_kernel. Qed.

Example coh_int_example :
  int_dom 8 255 = true /\ int_dom 16 256 = true /\ int_dom 32 65536 = true /\ int_dom 64 (2 ^ 64 - 1) = true /\
  int_dom 0 1 = true /\ int_dom 8 256 = false /\ int_dom 7 0 = false /\
  run_case Checked 3 (SL [SA 16; SA 256]) = [EvBytes [0x0B; 0; 1]] /\
  oracle 8 3 (SL [SA 8; SA 255]) (run_case Checked 3 (SL [SA 8; SA 255])) = true /\
  oracle 8 3 (SL [SA 16; SA 256]) (run_case Checked 3 (SL [SA 16; SA 256])) = true /\
  oracle 8 3 (SL [SA 32; SA 65536]) (run_case Checked 3 (SL [SA 32; SA 65536])) = true /\
  oracle 8 3 (SL [SA 64; SA (2 ^ 64 - 1)]) (run_case Checked 3 (SL [SA 64; SA (2 ^ 64 - 1)])) = true /\
  oracle 8 3 (SL [SA 0; SA 1]) (run_case Checked 3 (SL [SA 0; SA 1])) = true.
Proof. vm_compute. repeat split. Qed.

(* (9, 4) and (18, 4) name paths.  Domain: EVERY case that is a list of atoms (sx_bytes c = Some s), with no condition on
   the characters: well-formed paths are emitted in the specification's form and decode back, paths with a segment
   of the wrong length or more than 255 segments are refused, and the oracle does not judge four-character segments
   outside the AML name alphabet.  A case that is not a list of atoms is rejected by the oracle whatever is observed. *)
Theorem coh_path :
  forall md c s, sx_bytes c = Some s -> oracle 9 4 c (run_case md 4 c) = true.
Proof. intros md. exact coh_path_kernel. Qed.

Theorem coh_path18 :
  forall md c s, sx_bytes c = Some s -> oracle 18 4 c (run_case md 4 c) = true.
Proof. intros md. exact coh_path_kernel. Qed.

Theorem coh_path_unfolded :
  forall c s, sx_bytes c = Some s -> path_oracle c (path_case c) = true.
Proof. exact coh_path_kernel. Qed.

Theorem coh_path_domain_sharp :
  forall c impl, sx_bytes c = None -> path_oracle c impl = false.
Proof. intros c impl H. unfold path_oracle. now rewrite H. Qed.

Example coh_path_example :
  let good := SL (map SA [0x5C; 95; 83; 66; 95; 46; 80; 67; 73; 48; 46; 95; 72; 73; 68]) in     (* \_SB_.PCI0._HID *)
  let bad := SL (map SA [65; 66; 67; 46; 68; 69; 70; 71]) in                                    (* ABC.DEFG *)
  run_case Checked 4 good = [EvBytes [0x5C; 0x2F; 3; 95; 83; 66; 95; 80; 67; 73; 48; 95; 72; 73; 68]] /\
  oracle 9 4 good (run_case Checked 4 good) = true /\ oracle 18 4 good (run_case Checked 4 good) = true /\
  run_case Checked 4 bad = [EvPanic] /\
  oracle 9 4 bad (run_case Checked 4 bad) = true /\ oracle 18 4 bad (run_case Checked 4 bad) = true /\
  oracle 9 4 good [EvPanic] = false /\ oracle 9 4 bad [EvBytes [65; 66; 67; 68]] = false.
Proof. vm_compute. repeat split. Qed.

(* (16, 5) EISA ids.  Domain: every case that is a list of atoms (in particular every ASCII string): valid ids are
   emitted and decompress back, a wrong length or a non-hex character among the last four is refused. *)
Theorem coh_eisa :
  forall md c s, sx_bytes c = Some s -> oracle 16 5 c (run_case md 5 c) = true.
Proof. intros md. exact coh_eisa_kernel. Qed.

Theorem coh_eisa_unfolded :
  forall c s, sx_bytes c = Some s -> eisa_oracle c (eisa_case c) = true.
Proof. exact coh_eisa_kernel. Qed.

Example coh_eisa_example :
  let good := SL (map SA [80; 78; 80; 48; 53; 48; 49]) in          (* PNP0501 *)
  let bad := SL (map SA [80; 78; 80; 48; 53; 71; 49]) in           (* PNP05G1 *)
  run_case Checked 5 good = [EvBytes [0x0C; 0x41; 0xD0; 0x05; 0x01]] /\
  oracle 16 5 good (run_case Checked 5 good) = true /\
  run_case Checked 5 bad = [EvPanic] /\ oracle 16 5 bad (run_case Checked 5 bad) = true /\
  oracle 16 5 good [EvPanic] = false /\ oracle 16 5 bad [EvBytes [0x0C; 0x41; 0xD0; 0x05; 0x01]] = false.
Proof. vm_compute. repeat split. Qed.

(* (16, 6) UUIDs.  Domain: every case that is a list of atoms, both profiles: canonical UUIDs (either letter case) are
   emitted as a 16-byte Buffer that reads back to the same UUID, anything else is refused. *)
Theorem coh_uuid :
  forall md c s, sx_bytes c = Some s -> oracle 16 6 c (run_case md 6 c) = true.
Proof. exact coh_uuid_kernel. Qed.

Theorem coh_uuid_unfolded :
  forall md c s, sx_bytes c = Some s -> uuid_oracle c (uuid_case md c) = true.
Proof. exact coh_uuid_kernel. Qed.

Example coh_uuid_example :
  (* 01234567-89ab-cdef-ABCD-EF0123456789 *)
  let u := [48;49;50;51;52;53;54;55;45;56;57;97;98;45;99;100;101;102;45;65;66;67;68;45;69;70;48;49;50;51;52;53;54;55;56;57] in
  let good := SL (map SA u) in
  let bad := SL (map SA (upd u 9 103)) in                         (* a 'g' among the digits *)
  run_case Wrapping 6 good = [EvBytes [0x11; 19; 0x0A; 16; 0x67; 0x45; 0x23; 0x01; 0xAB; 0x89; 0xEF; 0xCD;
                                       0xAB; 0xCD; 0xEF; 0x01; 0x23; 0x45; 0x67; 0x89]] /\
  oracle 16 6 good (run_case Wrapping 6 good) = true /\
  run_case Wrapping 6 bad = [EvPanic] /\ oracle 16 6 bad (run_case Wrapping 6 bad) = true /\
  oracle 16 6 good [EvPanic] = false /\ oracle 16 6 bad (run_case Wrapping 6 good) = false.
Proof. vm_compute. repeat split. Qed.

Print Assumptions coh_ck.
Print Assumptions coh_ck_unfolded.
Print Assumptions coh_ck_domain_sharp.
Print Assumptions coh_pkglen.
Print Assumptions coh_pkglen_unfolded.
Print Assumptions coh_pkglen_c07_sizes.
Print Assumptions coh_pkglen18.
Print Assumptions coh_pkglen18_unfolded.
Print Assumptions coh_pkglen18_all_checked.
Print Assumptions coh_pkglen18_all_wrapping.
Print Assumptions coh_pkglen_wrap_counterexample.
Print Assumptions coh_int.
Print Assumptions coh_int_unfolded.
Print Assumptions coh_path.
Print Assumptions coh_path18.
Print Assumptions coh_path_unfolded.
Print Assumptions coh_path_domain_sharp.
Print Assumptions coh_eisa.
Print Assumptions coh_eisa_unfolded.
Print Assumptions coh_uuid.
Print Assumptions coh_uuid_unfolded.
