(* HEST: every error source structure an accepted add_structure pushes describes itself under the HEST rule "type u16, size
   fixed by the type" (6 -> 48, 7 -> 44, 8 -> 56, 9 -> 64, 10 -> 92) -- the walk instance for C03.
   The only count field of the table is the 32-bit Error Source Count (not narrower than 32 bits); the structures carry
   no caller-controlled count or length. *)
From Coq Require Import NArith List Lia.
From ACPI Require Import Lib.Bytes Impl.Table Impl.Fields Impl.Hest Spec.Layout Spec.SelfCheck
  Proofs.TableP Proofs.Tables Proofs.HestP Proofs.WalkP Proofs.WalkW3Common Proofs.BaseP.
Import ListNotations.
Open Scope N_scope.

(* the size-by-type header reads the table [hest_size] of Spec/SelfCheck.v *)
Lemma read_ehdr_hest t0 t1 rest :
  read_ehdr H_hest (t0 :: t1 :: rest) = option_map (pair (unle [t0; t1])) (hest_size (unle [t0; t1])).
Proof.
  cbn [read_ehdr]. generalize (unle [t0; t1]). intros [|p]; [reflexivity|].
  repeat (destruct p as [p|p|]; try reflexivity).
Qed.

Lemma hest_struct_self ty e : hest_struct ty e -> self_describing H_hest e ty.
Proof.
  intros (Hf & Hs). pose proof (proj2 (hest_size_bounds _ _ Hs)) as Hlen.
  destruct e as [|a [|b e']]; cbn [length] in Hlen; try lia.
  split; [cbn [length]; lia|]. intros rest. unfold field_at in Hf. cbn [skipn firstn] in Hf.
  cbn [app]. rewrite read_ehdr_hest, Hf, Hs. reflexivity.
Qed.

Lemma hest_addition_self s o e : hest_addition s o = Some e -> exists ty, self_describing H_hest (a_bytes e) ty.
Proof.
  unfold hest_addition. destruct (hest_entry o) as [f|] eqn:E; [|discriminate]. cbn [option_bind].
  intros H. apply Some_inj in H. subst e. cbn [a_bytes].
  destruct (hest_entry_struct o f E) as [ty Hs]. exists ty. exact (hest_struct_self ty _ Hs).
Qed.

Lemma hest_new_empty c s0 : hest_new c = Some s0 -> t_ents s0 = [].
Proof. exact (plain_new_empty KHest _ _ c s0). Qed.

Definition hest_walk : walktable :=
  {| wt_table := hest_table; wt_ehdr := H_hest; wt_self := hest_addition_self; wt_new_empty := hest_new_empty |}.

(* the walk also holds for histories with stand-alone structures interleaved: they never touch the table *)
Corollary hest_history_tiles md c ops t0 s :
  hest_new c = Some t0 -> hest_run md {| hs_tbl := t0; hs_alone := None |} ops = Some s ->
  N.of_nat (length (tbl_image (hs_tbl s))) < 2 ^ 32 ->
  exists tys,
    Forall2 (self_describing H_hest) (t_ents (hs_tbl s)) tys /\
    walk (length (t_ents (hs_tbl s))) H_hest 40 (skipn 40 (tbl_image (hs_tbl s))) = Some (walk_result 40 (t_ents (hs_tbl s)) tys) /\
    t_cnt (hs_tbl s) = N.of_nat (length (t_ents (hs_tbl s))).
Proof.
  intros Hn Hr Hfit. apply hest_run_tbl in Hr. cbn [hs_tbl] in Hr.
  destruct (walktable_tiles hest_walk md c _ t0 (hs_tbl s) Hn Hr Hfit) as (tys & HF & Hw & _ & Hc).
  destruct (addtable_reach hest_table md c _ t0 (hs_tbl s) Hn Hr Hfit) as (_ & Hk & _). cbn [at_kind hest_table] in Hk.
  cbn [wt_table wt_ehdr hest_walk] in *. rewrite Hk in Hw. change (36 + length (mid KHest (t_pre (hs_tbl s)) 0))%nat with 40%nat in Hw.
  exists tys. auto.
Qed.

(* the 32-bit Error Source Count at offset 36 is the number of structures added (not a narrow field; stated for completeness) *)
Corollary hest_source_count_exact md c ops s0 s :
  hest_new c = Some s0 -> run_adds hest_addition md s0 ops = Some s -> N.of_nat (length (tbl_image s)) < 2 ^ 32 ->
  field_at (tbl_image s) 36 4 = N.of_nat (length (t_ents s)).
Proof.
  intros Hn Hr Hfit.
  destruct (walktable_tiles hest_walk md c ops s0 s Hn Hr Hfit) as (tys & HF & _ & _ & Hc).
  pose proof (addtable_reach hest_table md c ops s0 s Hn Hr Hfit) as (I & Hk & _). cbn [at_kind hest_table] in Hk.
  unfold field_at. rewrite (image_after_header s (inv_hdr s I)), Hk. cbn [mid]. unfold d4. rewrite firstn_le_app, Hc.
  apply unle_le_small.
  (* every structure is at least one byte, so there are no more of them than bytes in the image *)
  pose proof (concat_len_ge _ (self_describing_nonempty _ _ _ HF)) as Hle.
  rewrite (length_image s (inv_hdr s I)) in Hfit. unfold t_body in Hfit. change (2 ^ (8 * N.of_nat 4)) with (2 ^ 32). lia.
Qed.

Print Assumptions hest_walk.
Print Assumptions hest_history_tiles.
Print Assumptions hest_source_count_exact.
