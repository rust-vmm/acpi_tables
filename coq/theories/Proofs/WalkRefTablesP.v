(* Property C03 on the reference images of the seven tables without handles: MADT, SRAT, MCFG, XSDT, HMAT, CEDT and RQSC
   (the same for the handle tables is in Rhct/Viot/RimtWalkRefP.v and PpttSelfP.v, for the HEST in HestSelfP.v).
   For each table <t>, every constructor argument and every history inside the domain of its Spec:
   `<t>_reference_tiles`: the Spec walker started behind the fixed part of the REFERENCE image finds exactly the entries
     that were added (type code and length of each, in order) and lands exactly on the end of the table, and the count
     fields hold: `c03_judge <t>_spec ctor r ops = true`.  No size bound and no well-formedness hypothesis is needed: every
     reference entry carries its type and length where `read_ehdr` reads them, whatever its other fields contain.
   `<t>_selfcheck`: every entry of the reference image passes the per-entry self-check of Spec/SelfCheck.v
     (`c03_self <component> r = true`).
   Both are read off `<t>_ref`, the table's [reftable] (Proofs/SelfCommonP.v), whose one obligation with content is
   `<t>_entry_good`. *)
From Coq Require Import NArith List Lia Bool Arith.
From ACPI Require Import Lib.Bytes Lib.Sx Impl.Table Spec.Layout Spec.GasS Spec.MadtS Spec.SratS Spec.McfgS Spec.XsdtS Spec.HmatS
  Spec.RimtS Spec.CedtS Spec.RqscS Spec.SelfCheck Judge Proofs.WalkP Proofs.WalkRefCommon2P Proofs.SelfCommonP Proofs.BaseP Proofs.CedtStructP Proofs.HmatStructP Proofs.MadtP Proofs.RqscWalkP.
Import ListNotations.
Open Scope N_scope.

(* MADT: interrupt controller structures (type u8, length u8), each of the size of its type *)

Lemma madt_entry_good o b : madt_entry_ref o = Some b -> entry_good H_u8_u8 12 sp_ty b.
Proof.
  intros H. destruct (madt_ref_shape o b H); cbn [madt_entry_ref] in H.
  (* 11, 12 (APLIC, PLIC): the hardware id is a string of 8 bytes *)
  all: try (destruct (sx_bytes hw) as [hwb|]; [|discriminate H]; destruct (Nat.eqb (length hwb) 8); [|discriminate H]).
  (* every structure is one layout that starts with its type code and its size *)
  all: cbn [app] in H; exact (lay_u8_u8_fixed_good 12 _ _ _ _ _ H eq_refl eq_refl (fun _ => eq_refl)).
Qed.

Definition madt_ref : reftable madt_spec 12 (fun _ => True).
Proof.
  refine (Build_reftable madt_spec 12 _ [65; 80; 73; 67] 44 H_u8_u8 sp_ty madt_entries_ref eq_refl eq_refl (fun _ _ => eq_refl) _ _).
  - intros ops es Ees. unfold madt_entries_ref in Ees. destruct (Nat.ltb 1 _); [discriminate Ees|].
    exact (opt_concat_forall _ _ madt_entry_good ops es Ees).
  - (* the constructor has a fourth argument, the local interrupt controller address *)
    intros ctor ops r H. cbn [ts_image madt_spec] in H. unfold madt_image in H.
    destruct ctor as [n|[|o [|t [|rv [|lic [|x l]]]]]]; try discriminate H.
    destruct (sx_hdr_args o t rv) as [ha|] eqn:Eha; [|discriminate H].
    destruct (match lic with SL [] => Some 0 | SL [SA a] => Some a | _ => None end) as [addr|]; [|discriminate H].
    destruct (madt_entries_ref ops) as [es|]; [|discriminate H].
    apply Some_inj in H. subst r. exists [L 36 4 addr; L 40 4 0], es.
    split; [reflexivity|]. split; [exact (ref_image_intro o t rv ha _ _ es Eha)|]. split; [reflexivity|]. split; [reflexivity|].
    intros _ o' w v [].
Defined.

Theorem madt_reference_tiles : forall ctor ops r,
  ts_image madt_spec ctor ops = Some r -> c03_judge madt_spec ctor r ops = true.
Proof. intros ctor ops r H. exact (reftable_tiles madt_ref ctor ops r H I). Qed.

Theorem madt_selfcheck : forall ctor ops r, ts_image madt_spec ctor ops = Some r -> c03_self 12 r = true.
Proof. exact (reftable_selfcheck madt_ref). Qed.

(* SRAT: affinity structures (type u8, length u8), each of the size of its type *)

Lemma srat_entry_good o b : srat_entry_ref o = Some b -> entry_good H_u8_u8 13 sp_ty b.
Proof.
  intros H. op_cases H o l of srat_entry_ref; break_sx H.
  all: try (destruct (srat_handle_ref _) as [[ty hb]|]; [|discriminate H]).
  all: try (destruct (sx_bytes _) as [ub|]; [|discriminate H]; destruct (Nat.eqb _ _); [|discriminate H]).
  all: cbn [app] in H; exact (lay_u8_u8_fixed_good 13 _ _ _ _ _ H eq_refl eq_refl (fun _ => eq_refl)).
Qed.

Definition srat_ref : reftable srat_spec 13 (fun _ => True) :=
  image3_reftable_plain srat_spec 13 _ [83; 82; 65; 84] KSrat H_u8_u8 sp_ty srat_entries_ref eq_refl eq_refl
    (fun _ _ => eq_refl) (fun _ _ => eq_refl) (opt_concat_forall _ _ srat_entry_good) (fun _ => eq_refl).

Theorem srat_reference_tiles : forall ctor ops r,
  ts_image srat_spec ctor ops = Some r -> c03_judge srat_spec ctor r ops = true.
Proof. intros ctor ops r H. exact (reftable_tiles srat_ref ctor ops r H I). Qed.

Theorem srat_selfcheck : forall ctor ops r, ts_image srat_spec ctor ops = Some r -> c03_self 13 r = true.
Proof. exact (reftable_selfcheck srat_ref). Qed.

(* MCFG: 16-byte allocation structures without a header *)

Lemma mcfg_entry_good o b : mcfg_entry_ref o = Some b -> entry_good (H_fixed 16) 11 (fun _ => 0) b.
Proof.
  intros H. unfold mcfg_entry_ref in H. break_sx H. exact (lay_fixed_good 11 _ _ _ H eq_refl (fun _ => eq_refl)).
Qed.

Definition mcfg_ref : reftable mcfg_spec 11 (fun _ => True) :=
  image3_reftable_plain mcfg_spec 11 _ [77; 67; 70; 71] KMcfg (H_fixed 16) (fun _ => 0) mcfg_entries_ref eq_refl eq_refl
    (fun _ _ => eq_refl) (fun _ _ => eq_refl) (opt_concat_forall _ _ mcfg_entry_good) (fun _ => eq_refl).

Theorem mcfg_reference_tiles : forall ctor ops r,
  ts_image mcfg_spec ctor ops = Some r -> c03_judge mcfg_spec ctor r ops = true.
Proof. intros ctor ops r H. exact (reftable_tiles mcfg_ref ctor ops r H I). Qed.

Theorem mcfg_selfcheck : forall ctor ops r, ts_image mcfg_spec ctor ops = Some r -> c03_self 11 r = true.
Proof. exact (reftable_selfcheck mcfg_ref). Qed.

(* XSDT: 8-byte entries without a header, directly behind the table header *)

Lemma xsdt_entry_good o b : xsdt_entry_ref o = Some b -> entry_good (H_fixed 8) 10 (fun _ => 0) b.
Proof.
  intros H. unfold xsdt_entry_ref in H. break_sx H. exact (lay_fixed_good 10 _ _ _ H eq_refl (fun _ => eq_refl)).
Qed.

Definition xsdt_ref : reftable xsdt_spec 10 (fun _ => True) :=
  image3_reftable_plain xsdt_spec 10 _ [88; 83; 68; 84] KXsdt (H_fixed 8) (fun _ => 0) xsdt_entries_ref eq_refl eq_refl
    (fun _ _ => eq_refl) (fun _ _ => eq_refl) (opt_concat_forall _ _ xsdt_entry_good) (fun _ => eq_refl).

Theorem xsdt_reference_tiles : forall ctor ops r,
  ts_image xsdt_spec ctor ops = Some r -> c03_judge xsdt_spec ctor r ops = true.
Proof. intros ctor ops r H. exact (reftable_tiles xsdt_ref ctor ops r H I). Qed.

Theorem xsdt_selfcheck : forall ctor ops r, ts_image xsdt_spec ctor ops = Some r -> c03_self 10 r = true.
Proof. exact (reftable_selfcheck xsdt_ref). Qed.

(* HMAT: structures (type u16, reserved u16, length u32); memory proximity domain attributes: 40 bytes; system
   locality: initiator and target counts against the length 32 + 4I + 4T + 2IT; memory side cache: SMBIOS handle count
   against the length *)

(* a structure that passed its serialiser's assert describes itself and passes the per-entry self-check: the count fields
   are read off its head and compared with its size *)
Lemma hmat_struct_good d : hmat_struct_ok d -> hmat_struct_asserts d -> entry_good H_u16_u16_u32 15 hmat_ty (hmat_struct_bytes d).
Proof.
  intros Hok Hfit. split; [exact (hmat_struct_self d Hfit)|]. rewrite hmat_struct_ty.
  destruct d as [ipd mpd|sl|pd size attrs hs]; cbn [hmat_struct_ok hmat_struct_asserts] in Hok.
  - cbn [entry_self_ok hmat_self]. rewrite hmat_struct_length. reflexivity.
  - cbn [entry_self_ok hmat_self]. unfold lenN. rewrite hmat_struct_length.
    rewrite (hmat_struct_field32 (HSysloc sl) 12 _ Hfit eq_refl), (hmat_struct_field32 (HSysloc sl) 16 _ Hfit eq_refl)
      by (cbn [hmat_struct_size]; lia).
    apply N.eqb_eq. cbn [hmat_struct_size]. lia.
  - cbn [entry_self_ok hmat_self]. unfold lenN. rewrite hmat_struct_length.
    rewrite (hmat_struct_field_below (HMsc pd size attrs hs) 30 2 _ 65536 eq_refl eq_refl) by (cbn [hmat_struct_asserts] in Hfit; lia).
    apply N.eqb_eq. cbn [hmat_struct_size]. lia.
Qed.

Lemma hmat_entry_good o e : hmat_entry_ref o = Some e -> entry_good H_u16_u16_u32 15 hmat_ty e.
Proof. intros H. apply hmat_entry_ref_cases in H as (d & _ & Hok & Hfit & ->). exact (hmat_struct_good d Hok Hfit). Qed.

Definition hmat_ref : reftable hmat_spec 15 (fun _ => True) :=
  image3_reftable_plain hmat_spec 15 _ [72; 77; 65; 84] KHmat H_u16_u16_u32 hmat_ty hmat_entries_ref eq_refl eq_refl
    (fun _ _ => eq_refl) (fun _ _ => eq_refl) (opt_concat_forall _ _ hmat_entry_good) (fun _ => eq_refl).

Theorem hmat_reference_tiles : forall ctor ops r,
  ts_image hmat_spec ctor ops = Some r -> c03_judge hmat_spec ctor r ops = true.
Proof. intros ctor ops r H. exact (reftable_tiles hmat_ref ctor ops r H I). Qed.

Theorem hmat_selfcheck : forall ctor ops r, ts_image hmat_spec ctor ops = Some r -> c03_self 15 r = true.
Proof. exact (reftable_selfcheck hmat_ref). Qed.

(* CEDT: structures (type u8, reserved u8, length u16); CHBS 32 bytes; CFMWS: one target per interleave way of its
   encoded ENIW, against the record length; CXIMS: xormap count against the record length; RDPAS 17 bytes as laid out *)

(* a decoded structure whose asserts hold passes the per-entry self-check: the ways code and the xormap count are read off
   the head of the structure and compared with its size *)
Lemma cedt_rec_good d : cedt_rec_ok d -> cedt_rec_asserts d -> entry_good H_u8_x_u16 20 sp_ty (cedt_rec_bytes d).
Proof.
  intros Hok Ha. split; [exact (cedt_rec_self d Hok Ha)|].
  rewrite cedt_rec_ty. pose proof (cedt_rec_length d Hok) as Hlen.
  destruct d as [uid ver base vl|base size ways arith gran restr qtg nw tg|gran ms|seg b proto base];
    cbn [entry_self_ok cedt_self cedt_rec_size cedt_rec_asserts] in *.
  - rewrite Hlen. reflexivity.
  - destruct Hok as [Hw _].
    rewrite (cedt_rec_field_below (RCfmws base size ways arith gran restr qtg nw tg) 24 1 ways 256 eq_refl eq_refl)
      by (destruct (num_ways_small _ _ Hw); lia).
    rewrite (Hw : eniw_ways ways = Some nw). unfold lenN. rewrite Hlen. apply N.eqb_eq. lia.
  - rewrite (cedt_rec_field_below (RCxims gran ms) 7 1 _ 256 eq_refl eq_refl) by lia.
    unfold lenN. rewrite Hlen. apply N.eqb_eq. lia.
  - rewrite Hlen. reflexivity.
Qed.

Lemma cedt_entry_good o e : cedt_entry_ref o = Some e -> entry_good H_u8_x_u16 20 sp_ty e.
Proof. intros H. apply cedt_entry_ref_cases in H as (d & _ & Hok & Ha & ->). exact (cedt_rec_good d Hok Ha). Qed.

Definition cedt_ref : reftable cedt_spec 20 (fun _ => True) :=
  image3_reftable_plain cedt_spec 20 _ [67; 69; 68; 84] KCedt H_u8_x_u16 sp_ty cedt_entries_ref eq_refl eq_refl
    (fun _ _ => eq_refl) (fun _ _ => eq_refl)
    (fun ops es H => sp_all_forall cedt_entry_ref _ cedt_entry_good ops es H) (fun _ => eq_refl).

Theorem cedt_reference_tiles : forall ctor ops r,
  ts_image cedt_spec ctor ops = Some r -> c03_judge cedt_spec ctor r ops = true.
Proof. intros ctor ops r H. exact (reftable_tiles cedt_ref ctor ops r H I). Qed.

Theorem cedt_selfcheck : forall ctor ops r, ts_image cedt_spec ctor ops = Some r -> c03_self 20 r = true.
Proof. exact (reftable_selfcheck cedt_ref). Qed.

(* RQSC: controller structures (type u8, reserved u8, length u16), each itself exactly tiled by its resource
   structures, with its ResourceCount field their number: `rqsc_entry_good` (Proofs/RqscWalkP.v), a reference controller
   being the bytes of a controller of the model *)

Definition rqsc_ref : reftable rqsc_spec 22 (fun _ => True).
Proof.
  refine (Build_reftable rqsc_spec 22 _ [82; 81; 83; 67] 40 H_u8_x_u16 sp_ty rqsc_entries_ref eq_refl eq_refl (fun _ _ => eq_refl)
            (opt_seq_forall _ _ rqsc_entry_good) _).
  (* the Spec refuses a controller count that does not fit the 32-bit ControllerCount field *)
  intros ctor ops r H. cbn [ts_image rqsc_spec] in H. unfold rqsc_image in H.
  destruct ctor as [|[|o [|t [|rr [|]]]]]; try discriminate H.
  destruct (sx_hdr_args o t rr) as [ha|] eqn:Eha; [|discriminate H].
  destruct (rqsc_entries_ref ops) as [es|]; [|discriminate H].
  destruct (N.ltb_spec (N.of_nat (length es)) (2 ^ 32)) as [Hc|]; [|discriminate H].
  apply Some_inj in H. subst r. exists [L 36 4 (N.of_nat (length es))], es.
  split; [reflexivity|]. split; [exact (ref_image_intro o t rr ha _ _ es Eha)|]. split; [reflexivity|]. split; [reflexivity|].
  intros _ o' w v [E|[]]. injection E as <- <- <-. split; [left; reflexivity|exact Hc].
Defined.

Theorem rqsc_reference_tiles : forall ctor ops r,
  ts_image rqsc_spec ctor ops = Some r -> c03_judge rqsc_spec ctor r ops = true.
Proof. intros ctor ops r H. exact (reftable_tiles rqsc_ref ctor ops r H I). Qed.

Theorem rqsc_selfcheck : forall ctor ops r, ts_image rqsc_spec ctor ops = Some r -> c03_self 22 r = true.
Proof. exact (reftable_selfcheck rqsc_ref). Qed.

Print Assumptions madt_reference_tiles.
Print Assumptions madt_selfcheck.
Print Assumptions srat_reference_tiles.
Print Assumptions srat_selfcheck.
Print Assumptions mcfg_reference_tiles.
Print Assumptions mcfg_selfcheck.
Print Assumptions xsdt_reference_tiles.
Print Assumptions xsdt_selfcheck.
Print Assumptions hmat_selfcheck.
Print Assumptions hmat_reference_tiles.
Print Assumptions cedt_selfcheck.
Print Assumptions cedt_reference_tiles.
Print Assumptions rqsc_selfcheck.
Print Assumptions rqsc_reference_tiles.
