(* The Spec walker tiles any concatenation of self-describing entries exactly (C03, generic part); what "describes itself"
   means in terms of field reads, for the entry-header formats that carry a length, and for entries of a fixed size; reference
   layouts decode to the values they were assembled from (C04, generic part): [lay_at_inv] is the one inversion of a
   checked assembly, and [layout_get], [lay_get], [lay_then_get] read a field of a laid-out entry by offset and width. *)
From Coq Require Import ZArith NArith List Lia Bool.
From ACPI Require Import Lib.Bytes Spec.Layout Spec.FixedS Spec.HmatS Proofs.BaseP.
Import ListNotations.
Open Scope N_scope.

Definition self_describing (h : ehdr) (e : list N) (ty : N) : Prop :=
  (1 <= length e)%nat /\ forall rest, read_ehdr h (e ++ rest) = Some (ty, length e).

Fixpoint walk_result (off : nat) (es : list (list N)) (tys : list N) : list (N * nat * nat) :=
  match es, tys with
  | e :: es', t :: ts' => (t, off, length e) :: walk_result (length e + off) es' ts'
  | _, _ => []
  end.

Lemma self_describing_nonempty h es tys : Forall2 (self_describing h) es tys -> Forall (fun e => (1 <= length e)%nat) es.
Proof. induction 1 as [|e t es ts [Hp _] _ IH]; constructor; assumption. Qed.

(* [walk] returns Some only when the last entry ends where the bytes end: the tiling is exact *)
Lemma walk_concat h : forall es tys off fuel,
  Forall2 (self_describing h) es tys -> (length es <= fuel)%nat ->
  walk fuel h off (concat es) = Some (walk_result off es tys).
Proof.
  induction es as [|e es IH]; intros tys off fuel HF Hfuel; inversion HF as [|? t ? ts [Hpos Hrd] Hrest]; subst.
  - destruct fuel; reflexivity.
  - cbn [concat length] in *. destruct fuel as [|f]; [lia|]. specialize (Hrd (concat es)).
    destruct (e ++ concat es) as [|x l] eqn:El; [destruct e; [cbn [length] in Hpos; lia|discriminate El]|].
    cbn [walk]. rewrite Hrd, <- El, firstn_app_exact, skipn_app_exact, Nat.eqb_refl.
    destruct (Nat.eqb_spec (length e) 0) as [E0|_]; [lia|]. cbn [orb negb].
    now rewrite (IH ts (length e + off)%nat f Hrest) by lia.
Qed.

Lemma walk_result_length off es tys : length es = length tys -> length (walk_result off es tys) = length es.
Proof.
  revert off tys; induction es as [|e es IH]; intros off [|t ts] H; cbn [length walk_result] in *; try lia. rewrite IH; lia.
Qed.

(* header formats that carry the entry's length: a type code of tw bytes, p other bytes, a length of lw bytes *)
Definition hdr_fmt (h : ehdr) : option (nat * nat * nat) :=
  match h with
  | H_u8_u8 => Some (1, 0, 1)
  | H_u16_u16_u32 => Some (2, 2, 4)
  | H_u16_u16 => Some (2, 0, 2)
  | H_u8_x_u16 => Some (1, 1, 2)
  | _ => None
  end%nat.

Lemma read_ehdr_fmt h tw p lw l : hdr_fmt h = Some (tw, p, lw) -> (tw + p + lw <= length l)%nat ->
  read_ehdr h l = Some (field_at l 0 tw, N.to_nat (field_at l (tw + p) lw)).
Proof.
  intros Hf Hl. unfold field_at. destruct h; try discriminate Hf; injection Hf as <- <- <-; cbn [Nat.add] in Hl.
  - destruct l as [|t [|n r]]; try (exfalso; cbn [length] in Hl; lia). cbn [read_ehdr Nat.add skipn firstn unle].
    now rewrite !N.mul_0_r, !N.add_0_r.
  - destruct l as [|t0 [|t1 [|r0 [|r1 [|a [|b [|c [|d r]]]]]]]]; try (exfalso; cbn [length] in Hl; lia). reflexivity.
  - destruct l as [|t0 [|t1 [|a [|b r]]]]; try (exfalso; cbn [length] in Hl; lia). reflexivity.
  - destruct l as [|t [|x [|a [|b r]]]]; try (exfalso; cbn [length] in Hl; lia). cbn [read_ehdr Nat.add skipn firstn unle].
    now rewrite !N.mul_0_r, !N.add_0_r.
Qed.

Lemma read_ehdr_short h tw p lw l : hdr_fmt h = Some (tw, p, lw) -> (length l < tw + p + lw)%nat -> read_ehdr h l = None.
Proof.
  intros Hf Hl. destruct h; try discriminate Hf; injection Hf as <- <- <-; cbn [Nat.add] in Hl.
  - destruct l as [|t [|n r]]; [reflexivity..|cbn [length] in Hl; lia].
  - destruct l as [|t0 [|t1 [|r0 [|r1 [|a [|b [|c [|d r]]]]]]]]; [reflexivity..|cbn [length] in Hl; lia].
  - destruct l as [|t0 [|t1 [|a [|b r]]]]; [reflexivity..|cbn [length] in Hl; lia].
  - destruct l as [|t [|x [|a [|b r]]]]; [reflexivity..|cbn [length] in Hl; lia].
Qed.

Theorem self_describing_iff h tw p lw e ty : hdr_fmt h = Some (tw, p, lw) ->
  self_describing h e ty <->
  (tw + p + lw <= length e)%nat /\ ty = field_at e 0 tw /\ field_at e (tw + p) lw = N.of_nat (length e).
Proof.
  intros Hf. assert (Hpos : (1 <= tw)%nat) by (destruct h; inversion Hf; lia). split.
  - intros [_ H]. specialize (H []). rewrite app_nil_r in H.
    destruct (le_lt_dec (tw + p + lw) (length e)) as [Hl|Hl]; [|now rewrite (read_ehdr_short h tw p lw e Hf Hl) in H].
    rewrite (read_ehdr_fmt h tw p lw e Hf Hl) in H. injection H as Ht Hn.
    split; [exact Hl|]. split; [now symmetry|]. now rewrite <- Hn, N2Nat.id.
  - intros (Hl & -> & Hn). split; [lia|]. intros rest.
    rewrite (read_ehdr_fmt h tw p lw (e ++ rest) Hf) by (rewrite app_length; lia).
    rewrite !field_at_app_l by lia. now rewrite Hn, Nat2N.id.
Qed.

(* the form in which it is used: the length field read back as [v mod 2^(8 lw)], with [v] the length *)
Corollary self_describing_of_len h tw p lw e v : hdr_fmt h = Some (tw, p, lw) ->
  field_at e (tw + p) lw = v mod 2 ^ (8 * N.of_nat lw) -> v = N.of_nat (length e) ->
  (tw + p + lw <= length e)%nat -> v < 2 ^ (8 * N.of_nat lw) ->
  self_describing h e (field_at e 0 tw).
Proof.
  intros Hf He -> Hl Hv. apply (self_describing_iff h tw p lw e _ Hf). rewrite N.mod_small in He by exact Hv. auto.
Qed.

Corollary self_len_field h tw p lw e ty : hdr_fmt h = Some (tw, p, lw) -> self_describing h e ty ->
  field_at e (tw + p) lw = N.of_nat (length e).
Proof. intros Hf H. exact (proj2 (proj2 (proj1 (self_describing_iff h tw p lw e ty Hf) H))). Qed.

Corollary self_ty_field h tw p lw e ty : hdr_fmt h = Some (tw, p, lw) -> self_describing h e ty -> ty = field_at e 0 tw.
Proof. intros Hf H. exact (proj1 (proj2 (proj1 (self_describing_iff h tw p lw e ty Hf) H))). Qed.

Lemma fixed_self n e : length e = n -> (1 <= n)%nat -> self_describing (H_fixed n) e 0.
Proof.
  intros Hl Hp. split; [lia|]. intros rest. destruct e as [|x e]; [cbn [length] in Hl; lia|].
  cbn [app read_ehdr]. rewrite Hl. reflexivity.
Qed.

Lemma fixed_self_length n e ty : self_describing (H_fixed n) e ty -> length e = n.
Proof.
  intros [Hp H]. specialize (H []). rewrite app_nil_r in H.
  destruct e as [|x e]; [cbn [length] in Hp; lia|]. cbn [read_ehdr] in H. now injection H.
Qed.

Lemma field_at_assemble_app : forall l off, layout_ok_from off l = true ->
  forall pre post, length pre = off ->
  forall o w v, In (o, w, v) l -> field_at (pre ++ assemble l ++ post) o w = v mod 2 ^ (8 * N.of_nat w).
Proof.
  induction l as [|[[o0 w0] v0] l IH]; intros off Hok pre post Hpre o w v Hin; [destruct Hin|].
  cbn [layout_ok_from] in Hok. apply andb_true_iff in Hok. destruct Hok as [Ho Hok]. apply Nat.eqb_eq in Ho. subst o0.
  rewrite assemble_cons, <- app_assoc. destruct Hin as [E|Hin].
  - injection E as <- <- <-. rewrite (field_at_skip pre _ off w0 Hpre). apply field_at_le_app.
  - rewrite app_assoc. apply (IH (off + w0)%nat Hok); [rewrite app_length, length_le; lia|exact Hin].
Qed.

(* [lay size l] is [lay_at 0 size l] *)
Lemma lay_at_inv off size l b : lay_at off size l = Some b ->
  layout_ok_from off l = true /\ b = assemble l /\ length b = size.
Proof.
  unfold lay_at. destruct (layout_ok_from off l); [|discriminate]. cbn [andb].
  destruct (Nat.eqb_spec (layout_size l) size) as [<-|]; [|discriminate]. intros H. apply Some_inj in H. subst b.
  split; [reflexivity|]. split; [reflexivity|apply length_assemble].
Qed.

Lemma lay_some size l b : lay size l = Some b -> b = assemble l.
Proof. intros H. exact (proj1 (proj2 (lay_at_inv 0 size l b H))). Qed.

Lemma lay_length size l b : lay size l = Some b -> length b = size.
Proof. intros H. exact (proj2 (proj2 (lay_at_inv 0 size l b H))). Qed.

Lemma lay_decodes size l img : lay size l = Some img ->
  length img = size /\ forall o w v, In (o, w, v) l -> field_at img o w = v mod 2 ^ (8 * N.of_nat w).
Proof.
  intros H. destruct (lay_at_inv 0 size l img H) as (Hok & -> & Hl). split; [exact Hl|]. intros o w v Hin.
  rewrite <- (app_nil_r (assemble l)). exact (field_at_assemble_app l 0 Hok [] [] eq_refl o w v Hin).
Qed.

(* [In (o, w, v) l] in a form that evaluation decides *)
Fixpoint layout_get (l : layout) (o w : nat) : option N :=
  match l with
  | [] => None
  | (o', w', v) :: r => if Nat.eqb o' o && Nat.eqb w' w then Some v else layout_get r o w
  end.

Lemma layout_get_In l o w v : layout_get l o w = Some v -> In (o, w, v) l.
Proof.
  induction l as [|[[o' w'] v'] l IH]; cbn [layout_get]; [discriminate|].
  destruct (Nat.eqb_spec o' o) as [->|]; destruct (Nat.eqb_spec w' w) as [->|]; cbn [andb]; try (intros H; right; exact (IH H)).
  intros H. apply Some_inj in H. subst. left. reflexivity.
Qed.

Lemma lay_get size l img o w v : lay size l = Some img -> layout_get l o w = Some v ->
  field_at img o w = v mod 2 ^ (8 * N.of_nat w).
Proof. intros H Hg. exact (proj2 (lay_decodes _ _ _ H) o w v (layout_get_In _ _ _ _ Hg)). Qed.
Arguments lay_get {size l img}.

Lemma lay_then_fields size l rest img : lay_then size l rest = Some img ->
  length img = (size + length rest)%nat /\
  forall o w v, In (o, w, v) l -> field_at img o w = v mod 2 ^ (8 * N.of_nat w).
Proof.
  unfold lay_then. destruct (lay size l) as [fixed|] eqn:E; [|discriminate]. intros H. apply Some_inj in H. subst img.
  destruct (lay_at_inv 0 size l fixed E) as (Hok & -> & Hl). split; [now rewrite app_length, Hl|].
  exact (field_at_assemble_app l 0 Hok [] rest eq_refl).
Qed.

Lemma lay_then_split size l (rest img : list N) : lay_then size l rest = Some img ->
  exists fixed, length fixed = size /\ img = fixed ++ rest.
Proof.
  unfold lay_then. destruct (lay size l) as [fixed|] eqn:E; [|discriminate]. intros H. apply Some_inj in H.
  exists fixed. split; [exact (lay_length size l fixed E)|now subst img].
Qed.

Lemma lay_then_get size l rest img o w v : lay_then size l rest = Some img -> layout_get l o w = Some v ->
  field_at img o w = v mod 2 ^ (8 * N.of_nat w).
Proof. intros H Hg. exact (proj2 (lay_then_fields _ _ _ _ H) o w v (layout_get_In _ _ _ _ Hg)). Qed.
Arguments lay_then_get {size l rest img}.

(* a field whose value is in range: [b] is given as a literal, so that what is left is a goal for lia *)
Lemma lay_then_get_below size l rest img o w v b : lay_then size l rest = Some img -> layout_get l o w = Some v ->
  b = 2 ^ (8 * N.of_nat w) -> v < b -> field_at img o w = v.
Proof. intros H Hg -> Hv. rewrite (lay_then_get o w v H Hg). now apply N.mod_small. Qed.
Arguments lay_then_get_below {size l rest img}.

Lemma lay_then_self h tw p lw size l rest img n b : hdr_fmt h = Some (tw, p, lw) -> lay_then size l rest = Some img ->
  layout_get l (tw + p) lw = Some (N.of_nat n) -> length img = n -> (tw + p + lw <= n)%nat ->
  b = 2 ^ (8 * N.of_nat lw) -> N.of_nat n < b -> self_describing h img (field_at img 0 tw).
Proof.
  intros Hf H Hg <- Hge -> Hlt.
  exact (self_describing_of_len h tw p lw img _ Hf (lay_then_get _ _ _ H Hg) eq_refl Hge Hlt).
Qed.

Lemma lay_then_nil size l e : lay size l = Some e -> lay_then size l [] = Some e.
Proof. unfold lay_then. intros ->. now rewrite app_nil_r. Qed.

Lemma lay_then_arr_field size l w vals img : lay_then size l (arr w vals) = Some img ->
  length img = (size + w * length vals)%nat /\ forall j v, nth_error vals j = Some v -> field_at img (size + w * j) w = v mod 2 ^ (8 * N.of_nat w).
Proof.
  intros H. split; [rewrite (proj1 (lay_then_fields _ _ _ _ H)), length_arr; reflexivity|].
  intros j v Hv. unfold lay_then in H. destruct (lay size l) as [fixed|] eqn:E; [|discriminate H].
  apply Some_inj in H. subst img. rewrite <- (lay_length _ _ _ E), field_at_app_r.
  rewrite <- (app_nil_r (arr w vals)). apply field_at_arr. exact Hv.
Qed.
