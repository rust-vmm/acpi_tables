(* XSDT: the body is tiled by fixed 8-byte entries (no entry header) -- the walk instance for C03.  No count or length
   field narrower than 32 bits is emitted (the entry count is implied by the table Length). *)
From Coq Require Import NArith List Lia.
From ACPI Require Import Lib.Bytes Impl.Table Impl.Xsdt Spec.Layout Proofs.TableP Proofs.Tables Proofs.XsdtP Proofs.WalkP Proofs.WalkW3Common Proofs.BaseP.
Import ListNotations.
Open Scope N_scope.

Lemma xsdt_addition_self s o e : xsdt_addition s o = Some e -> exists ty, self_describing (H_fixed 8) (a_bytes e) ty.
Proof.
  intros H. unfold xsdt_addition in H. split_matches H. apply Some_inj in H. subst e. cbn [a_bytes]. exists 0.
  apply fixed_self; [unfold q8; apply length_le|lia].
Qed.

Lemma xsdt_new_empty c s0 : xsdt_new c = Some s0 -> t_ents s0 = [].
Proof. exact (plain_new_empty KXsdt _ _ c s0). Qed.

Definition xsdt_walk : walktable :=
  {| wt_table := xsdt_table; wt_ehdr := H_fixed 8; wt_self := xsdt_addition_self; wt_new_empty := xsdt_new_empty |}.

(* the body of the emitted table is 8 bytes per added entry *)
Corollary xsdt_history_body_size md c ops s0 s :
  xsdt_new c = Some s0 -> run_adds xsdt_addition md s0 ops = Some s -> N.of_nat (length (tbl_image s)) < 2 ^ 32 ->
  Forall (fun e => length e = 8%nat) (t_ents s) /\ length (tbl_image s) = (36 + 8 * length (t_ents s))%nat.
Proof. exact (walktable_fixed_body_size xsdt_walk 8 md c ops s0 s eq_refl). Qed.

Print Assumptions xsdt_walk.
Print Assumptions xsdt_history_body_size.
