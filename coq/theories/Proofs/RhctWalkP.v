(* RHCT: walk instance (C03) and the count / length sites inside its nodes (C18).
   Every node starts with type u16, length u16 (H_u16_u16).  The sites:
     node length (u16 at offset 2 of every node),
     ISA string length, NUL included (u16 at offset 6 of an ISA string node),
     number of offsets (u16 at offset 6 of a hart info node).
   The table's node count (header area, offset 48) is a u32 written from t_cnt, which `rhct_tiles` shows to be the number of
   nodes; no lemma here reads that field back from the image. *)
From Coq Require Import NArith List Lia Arith.
From ACPI Require Import Lib.Bytes Lib.Sx Lib.Machine Impl.Table Impl.Madt Impl.Rhct Spec.Layout Proofs.TableP
  Proofs.WalkP Proofs.Tables Proofs.RhctP Proofs.WalkW3Common Proofs.BaseP Proofs.RhctStructP.
Import ListNotations.
Open Scope N_scope.

Lemma rhct_new_empty c s0 : rhct_new c = Some s0 -> t_ents s0 = [].
Proof.
  unfold rhct_new. intros H. break_sx H.
  destruct (sx_hdr _ _ _ _ _) as [h|]; [|discriminate].
  apply Some_inj in H. subst s0. reflexivity.
Qed.

(* the true size of an ISA string node: 8 fixed bytes, the string, its NUL, padded to an even size *)
Definition isa_true_len (n : nat) : nat := (9 + n + (9 + n) mod 2)%nat.

Lemma rhct_isa_size str : rhct_node_size (RhIsa str) = isa_true_len (length str).
Proof. unfold isa_true_len. cbn [rhct_node_size]. rewrite odd_mod2. lia. Qed.

Lemma isa_len_true str : isa_len str = N.of_nat (isa_true_len (length str)).
Proof. rewrite <- rhct_isa_size. exact (rhct_node_claimed_size (RhIsa str)). Qed.

(* every accepted addition is a node whose own u16 length field is its size *)
Lemma rhct_addition_self s o e : rhct_addition s o = Some e -> exists ty, self_describing H_u16_u16 (a_bytes e) ty.
Proof. intros H. apply rhct_addition_cases in H as (d & _ & Hfit & ->). eexists. exact (rhct_node_self d Hfit). Qed.

Definition rhct_walk : walktable :=
  {| wt_table := rhct_table; wt_ehdr := H_u16_u16; wt_self := rhct_addition_self; wt_new_empty := rhct_new_empty |}.

(* node length (every node kind): u16 at offset 2 = the number of bytes the node occupies *)
Lemma rhct_node_length_exact s o e : rhct_addition s o = Some e ->
  field_at (a_bytes e) 2 2 = N.of_nat (length (a_bytes e)).
Proof. exact (walktable_entry_len_field rhct_walk 2 0 2 s o e eq_refl). Qed.

(* ... and an accepted node is smaller than 2^16 bytes *)
Lemma rhct_node_length_fits s o e : rhct_addition s o = Some e -> N.of_nat (length (a_bytes e)) < 2 ^ 16.
Proof.
  intros H. apply rhct_addition_cases in H as (d & _ & Hfit & ->). cbn [rhct_node_addition rhct_add a_bytes].
  rewrite rhct_node_length. change (2 ^ 16) with 65536. lia.
Qed.

(* what an accepted add_isa_string serialises *)
Lemma rhct_addition_isa s str sb e : sx_bytes str = Some sb -> rhct_addition s (SL [SA 1; str]) = Some e ->
  N.of_nat (rhct_node_size (RhIsa sb)) <= 65535 /\ a_bytes e = rhct_node_bytes (RhIsa sb).
Proof.
  intros Hsb H. apply rhct_addition_cases in H as (d & Hop & Hfit & ->). inversion Hop as [? sb' Es| | |]; subst.
  rewrite Hsb in Es. apply Some_inj in Es. subst sb'. split; [exact Hfit|reflexivity].
Qed.

(* ISA string node, accepted: the size is the padded true size, and the string length field (NUL included) is exact *)
Lemma rhct_isa_length_exact s str sb e : sx_bytes str = Some sb -> rhct_addition s (SL [SA 1; str]) = Some e ->
  field_at (a_bytes e) 2 2 = N.of_nat (isa_true_len (length sb)) /\ length (a_bytes e) = isa_true_len (length sb).
Proof.
  intros Hsb H. rewrite (rhct_node_length_exact _ _ _ H). destruct (rhct_addition_isa _ _ _ _ Hsb H) as [Hfit ->].
  rewrite rhct_node_length, rhct_isa_size. split; reflexivity.
Qed.

Lemma rhct_isa_strlen_exact s str sb e : sx_bytes str = Some sb -> rhct_addition s (SL [SA 1; str]) = Some e ->
  field_at (a_bytes e) 6 2 = N.of_nat (length sb + 1).
Proof.
  intros Hsb H. destruct (rhct_addition_isa _ _ _ _ Hsb H) as [Hfit ->].
  apply (rhct_node_field16 (RhIsa sb) 6 (length sb + 1) Hfit eq_refl). cbn [rhct_node_size]. lia.
Qed.

(* refusal: a string whose padded node size does not fit the u16 node length is refused *)
Lemma rhct_isa_length_refuses s str sb : sx_bytes str = Some sb ->
  2 ^ 16 <= N.of_nat (isa_true_len (length sb)) -> rhct_addition s (SL [SA 1; str]) = None.
Proof.
  intros Hsb. apply refused_by_size; intros e He.
  - exact (f_equal N.of_nat (proj2 (rhct_isa_length_exact _ _ _ e Hsb He))).
  - exact (rhct_node_length_fits _ _ e He).
Qed.

(* refusal: a string whose length with its NUL does not fit the u16 string length field is refused *)
Lemma rhct_isa_strlen_refuses s str sb : sx_bytes str = Some sb ->
  2 ^ 16 <= N.of_nat (length sb + 1) -> rhct_addition s (SL [SA 1; str]) = None.
Proof.
  intros Hsb Hbig. apply (rhct_isa_length_refuses s str sb Hsb).
  change (2 ^ 16) with 65536 in *. unfold isa_true_len. lia.
Qed.

Lemma handle_refs_length s l hs : handle_refs s l = Some hs -> length hs = length l.
Proof.
  revert hs; induction l as [|x l IH]; intros hs H; cbn [handle_refs] in H.
  - apply Some_inj in H. subst hs. reflexivity.
  - destruct (handle_ref s x) as [h|]; [|discriminate H].
    destruct (handle_refs s l) as [r|]; [|discriminate H].
    apply Some_inj in H. subst hs. cbn [length]. now rewrite (IH r eq_refl).
Qed.

(* the number of offsets of a hart info node built by HartInfoNode::new(uid, isa) and one with_cmo per element of cmos *)
Definition hart_true_count (cmos : list sx) : nat := (1 + length cmos)%nat.
Definition hart_true_len (cmos : list sx) : nat := (12 + 4 * hart_true_count cmos)%nat.

(* what an accepted add_hart_info serialises *)
Lemma rhct_addition_hart s uid isa cmos e : rhct_addition s (SL [SA 4; SA uid; isa; SL cmos]) = Some e ->
  exists hs, length hs = hart_true_count cmos /\ N.of_nat (rhct_node_size (RhHart uid hs)) <= 65535 /\
    a_bytes e = rhct_node_bytes (RhHart uid hs).
Proof.
  intros H. apply rhct_addition_cases in H as (d & Hop & Hfit & ->). inversion Hop as [| | |? ? ? i cs _ Ec]; subst.
  exists (i :: cs). split; [cbn [length]; now rewrite (handle_refs_length _ _ _ Ec)|]. split; [exact Hfit|reflexivity].
Qed.

Lemma rhct_hart_count_exact s uid isa cmos e : rhct_addition s (SL [SA 4; SA uid; isa; SL cmos]) = Some e ->
  field_at (a_bytes e) 6 2 = N.of_nat (hart_true_count cmos).
Proof.
  intros H. destruct (rhct_addition_hart _ _ _ _ _ H) as (hs & <- & Hfit & ->).
  apply (rhct_node_field16 (RhHart uid hs) 6 (length hs) Hfit eq_refl). cbn [rhct_node_size]. lia.
Qed.

Lemma rhct_hart_length_exact s uid isa cmos e : rhct_addition s (SL [SA 4; SA uid; isa; SL cmos]) = Some e ->
  field_at (a_bytes e) 2 2 = N.of_nat (hart_true_len cmos) /\ length (a_bytes e) = hart_true_len cmos.
Proof.
  intros H. rewrite (rhct_node_length_exact _ _ _ H). destruct (rhct_addition_hart _ _ _ _ _ H) as (hs & Hl & Hfit & ->).
  rewrite rhct_node_length. unfold hart_true_len. rewrite <- Hl. split; reflexivity.
Qed.

(* refusal: a hart info node whose size does not fit the u16 node length is refused *)
Lemma rhct_hart_length_refuses s uid isa cmos :
  2 ^ 16 <= N.of_nat (hart_true_len cmos) -> rhct_addition s (SL [SA 4; SA uid; isa; SL cmos]) = None.
Proof.
  apply refused_by_size; intros e He.
  - exact (f_equal N.of_nat (proj2 (rhct_hart_length_exact _ _ _ _ e He))).
  - exact (rhct_node_length_fits _ _ e He).
Qed.

(* refusal: a number of offsets that does not fit the u16 count field is refused *)
Lemma rhct_hart_count_refuses s uid isa cmos :
  2 ^ 16 <= N.of_nat (hart_true_count cmos) -> rhct_addition s (SL [SA 4; SA uid; isa; SL cmos]) = None.
Proof.
  intros Hbig. apply rhct_hart_length_refuses. change (2 ^ 16) with 65536 in *. unfold hart_true_len. lia.
Qed.

(* C03 for this table: the walk over the emitted image finds exactly the nodes, and the count field's source t_cnt is their number *)
Corollary rhct_tiles md c ops s0 s :
  rhct_new c = Some s0 -> run_adds rhct_addition md s0 ops = Some s -> N.of_nat (length (tbl_image s)) < 2 ^ 32 ->
  let first := (36 + length (mid (t_kind s) (t_pre s) 0))%nat in
  exists tys,
    Forall2 (self_describing H_u16_u16) (t_ents s) tys /\
    walk (length (t_ents s)) H_u16_u16 first (skipn first (tbl_image s)) = Some (walk_result first (t_ents s) tys) /\
    concat (t_ents s) = skipn first (tbl_image s) /\
    t_cnt s = N.of_nat (length (t_ents s)).
Proof. exact (walktable_tiles rhct_walk md c ops s0 s). Qed.

(* the refusals as refusals of the public operation, in both build modes *)
Corollary rhct_isa_refused_both_modes md s str sb : sx_bytes str = Some sb ->
  2 ^ 16 <= N.of_nat (isa_true_len (length sb)) \/ 2 ^ 16 <= N.of_nat (length sb + 1) -> rhct_step md s (SL [SA 1; str]) = None.
Proof.
  intros Hsb [H|H]; apply add_step_refused;
    [eapply rhct_isa_length_refuses|eapply rhct_isa_strlen_refuses]; eassumption.
Qed.

Corollary rhct_hart_refused_both_modes md s uid isa cmos :
  2 ^ 16 <= N.of_nat (hart_true_len cmos) \/ 2 ^ 16 <= N.of_nat (hart_true_count cmos) ->
  rhct_step md s (SL [SA 4; SA uid; isa; SL cmos]) = None.
Proof.
  intros [H|H]; apply add_step_refused; [now apply rhct_hart_length_refuses|now apply rhct_hart_count_refuses].
Qed.

Print Assumptions rhct_walk.
Print Assumptions rhct_node_length_exact.
Print Assumptions rhct_node_length_fits.
Print Assumptions rhct_isa_length_exact.
Print Assumptions rhct_isa_strlen_exact.
Print Assumptions rhct_isa_length_refuses.
Print Assumptions rhct_isa_strlen_refuses.
Print Assumptions rhct_hart_count_exact.
Print Assumptions rhct_hart_length_exact.
Print Assumptions rhct_hart_length_refuses.
Print Assumptions rhct_hart_count_refuses.
Print Assumptions rhct_isa_refused_both_modes.
Print Assumptions rhct_hart_refused_both_modes.
Print Assumptions rhct_tiles.

(* every node of every accepted history carries its true size in its u16 length field *)
Corollary rhct_history_node_lengths md c ops s0 s :
  rhct_new c = Some s0 -> run_adds rhct_addition md s0 ops = Some s -> N.of_nat (length (tbl_image s)) < 2 ^ 32 ->
  Forall (fun e => field_at e 2 2 = N.of_nat (length e)) (t_ents s).
Proof. exact (walktable_history_len_fields rhct_walk 2 0 2 md c ops s0 s eq_refl). Qed.

Print Assumptions rhct_history_node_lengths.
