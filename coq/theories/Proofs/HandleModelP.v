(* C05 about the Impl MODEL image, for the four handle tables (PPTT RHCT RIMT VIOT), both build modes.
   The refinement theorems (Props/C04.v: c04_<t>_refines = <t>_refines) say that for every in-domain history the model accepts
   and emits the reference image; the reference theorems (Proofs/*WalkRefP.v, Proofs/HandleFieldsP.v) say what the reference
   image contains.  Combined here:
     <t>_model_handles   for every in-domain history pre ++ o :: post the model accepts it, the number it reports for o is --
                         when the API returns a handle for o -- the offset at which the walk over the image of the WHOLE
                         history finds the node added by o (entry number |pre|), and 0 when the API returns nothing;
   (that every reference field of o's node in that image holds the offset of the node it refers to is Props/C05.v,
   c05_<t>_model_fields, from <t>_reference_fields of Proofs/HandleFieldsP.v). *)
From Coq Require Import NArith List Lia.
From ACPI Require Import Lib.Bytes Lib.Sx Impl.Table
  Impl.Pptt Impl.Rhct Impl.Rimt Impl.Viot
  Spec.Layout Spec.PpttS Spec.RhctS Spec.RimtS Spec.ViotS
  Proofs.TableP Proofs.Tables Proofs.PpttP Proofs.RhctP Proofs.RimtP Proofs.ViotP
  Proofs.WalkP Proofs.WalkRefCommon2P Proofs.RefCommonR2P
  Proofs.PpttRefP Proofs.RhctRefP Proofs.RimtRefP Proofs.ViotRefP
  Proofs.PpttSelfP Proofs.PpttWalkRefP Proofs.RhctWalkRefP Proofs.RimtWalkRefP Proofs.ViotWalkRefP Proofs.HandleFieldsP Proofs.BaseP Proofs.RimtStructP Proofs.ViotStructP Proofs.RhctStructP Proofs.PpttStructP.
Import ListNotations.

Open Scope N_scope.

Lemma run_adds_split entry md : forall pre l post s0 s',
  run_adds entry md s0 (pre ++ SL l :: post) = Some s' ->
  exists s s1 evs, run_adds entry md s0 pre = Some s /\ add_step entry md s (SL l) = Some (s1, evs) /\
                   run_adds entry md s1 post = Some s'.
Proof.
  induction pre as [|o pre IH]; intros l post s0 s' H; cbn [app run_adds] in H |- *.
  - destruct (add_step entry md s0 (SL l)) as [[s1 evs]|] eqn:E; [|discriminate H]. exists s0, s1, evs. auto.
  - destruct o as [n|lo]; [exact (IH _ _ _ _ H)|].
    destruct (add_step entry md s0 (SL lo)) as [[s1 evs]|]; [|discriminate H]. exact (IH _ _ _ _ H).
Qed.

(* refinement + the reference image cut at one operation + the model's handle theorem *)
Section ModelHandles.
  Variable T : addtable.
  Variable ts : tspec.
  Variable first : nat.
  Variable eh : ehdr.
  Variable tyf : list N -> N.
  Variable Q : list (list N) -> sx -> list N -> list (list N) -> Prop.
  Hypothesis refines : forall md ctor ops r, ts_image ts ctor ops = Some r -> N.of_nat (length r) < 2 ^ 32 ->
    exists s0 s, at_new T ctor = Some s0 /\ run_adds (at_entry T) md s0 ops = Some s /\ tbl_image s = r /\ all_calls ops.
  Hypothesis split_at : forall ctor pre o post r, ts_image ts ctor (pre ++ o :: post) = Some r ->
    cut_at ts first eh tyf Q ctor pre o post r.
  Hypothesis returns_agree : forall s o e, at_entry T s o = Some e -> a_returns e = ts_returns ts o.

  Theorem model_handles_gen md ctor pre o post r :
    ts_image ts ctor (pre ++ o :: post) = Some r -> N.of_nat (length r) < 2 ^ 32 ->
    exists s0 s s1 s' h found,
      at_new T ctor = Some s0 /\ run_adds (at_entry T) md s0 pre = Some s /\
      add_step (at_entry T) md s o = Some (s1, [EvNum h]) /\ run_adds (at_entry T) md s1 post = Some s' /\
      tbl_image s' = r /\
      walk (S (length (tbl_image s'))) eh first (skipn first (tbl_image s')) = Some found /\
      length found = length (pre ++ o :: post) /\
      exists ty off len, nth_error found (length pre) = Some (ty, off, len) /\
        h = if ts_returns ts o then N.of_nat off else 0.
  Proof.
    intros H Hfit.
    destruct (split_at ctor pre o post r H) as (es1 & e & tail & r1 & _ & Hl1 & Htl & Hsk & HF & Hpre & Hlr1 & Hle).
    destruct (refines md ctor _ r H Hfit) as (s0 & s' & Hn & Hr & Hi & Hc).
    (* the model accepts atoms nowhere, so [o] is a call *)
    apply Forall_app in Hc. destruct Hc as [_ Hc]. apply Forall_inv in Hc. destruct o as [|l]; [destruct Hc|].
    destruct (run_adds_split _ md pre l post s0 s' Hr) as (s & s1 & evs & Hrp & Hst & Hrpost).
    assert (Hfit1 : N.of_nat (length r1) < 2 ^ 32) by (clear - Hle Hfit; lia).
    destruct (refines md ctor pre r1 Hpre Hfit1) as (s0' & sp & Hn' & Hrp' & Hi' & _).
    rewrite Hn in Hn'. apply Some_inj in Hn'. subst s0'. rewrite Hrp in Hrp'. apply Some_inj in Hrp'. subst sp.
    destruct (handle_offset_from_ctor T md ctor pre s0 s (SL l) s1 evs post s' Hn Hrp Hst Hrpost) as (a & tl & Ha & Hev & _ & _).
    { rewrite Hi. exact Hfit. }
    exists s0, s, s1, s', (if a_returns a then N.of_nat (length (tbl_image s)) else 0),
           (walked first tyf (es1 ++ e :: tail)).
    split; [exact Hn|]. split; [exact Hrp|]. split; [rewrite <- Hev; exact Hst|]. split; [exact Hrpost|].
    split; [exact Hi|]. rewrite Hi. split; [exact (cut_walk r first eh tyf es1 e tail Hsk HF)|].
    split; [rewrite walked_length, !app_length, Hl1; cbn [length]; rewrite Htl; reflexivity|].
    exists (tyf e), (first + length (concat es1))%nat, (length e). split; [rewrite <- Hl1; exact (cut_nth first tyf es1 e tail)|].
    rewrite (returns_agree _ _ _ Ha), Hi', Hlr1. reflexivity.
  Qed.

End ModelHandles.

Lemma pptt_returns_agree s o e : pptt_addition s o = Some e -> a_returns e = ts_returns pptt_spec o.
Proof. intros H. apply pptt_addition_cases in H as (d & _ & _ & ->). reflexivity. Qed.

Theorem pptt_model_handles : forall md ctor pre o post r,
  ts_image pptt_spec ctor (pre ++ o :: post) = Some r -> N.of_nat (length r) < 2 ^ 32 ->
  exists s0 s s1 s' h found,
    pptt_new ctor = Some s0 /\ run_adds pptt_addition md s0 pre = Some s /\
    add_step pptt_addition md s o = Some (s1, [EvNum h]) /\ run_adds pptt_addition md s1 post = Some s' /\
    tbl_image s' = r /\
    walk (S (length (tbl_image s'))) H_u8_u8 36 (skipn 36 (tbl_image s')) = Some found /\
    length found = length (pre ++ o :: post) /\
    exists ty off len, nth_error found (length pre) = Some (ty, off, len) /\
      h = if ts_returns pptt_spec o then N.of_nat off else 0.
Proof.
  exact (model_handles_gen pptt_table pptt_spec 36 H_u8_u8 sp_ty _ pptt_refines_calls pptt_cut pptt_returns_agree).
Qed.


Lemma rhct_returns_agree s o e : rhct_addition s o = Some e -> a_returns e = ts_returns rhct_spec o.
Proof.
  intros H. apply rhct_addition_cases in H as (d & Hop & _ & ->). destruct Hop; reflexivity.
Qed.

Theorem rhct_model_handles : forall md ctor pre o post r,
  ts_image rhct_spec ctor (pre ++ o :: post) = Some r -> N.of_nat (length r) < 2 ^ 32 ->
  exists s0 s s1 s' h found,
    rhct_new ctor = Some s0 /\ run_adds rhct_addition md s0 pre = Some s /\
    add_step rhct_addition md s o = Some (s1, [EvNum h]) /\ run_adds rhct_addition md s1 post = Some s' /\
    tbl_image s' = r /\
    walk (S (length (tbl_image s'))) H_u16_u16 56 (skipn 56 (tbl_image s')) = Some found /\
    length found = length (pre ++ o :: post) /\
    exists ty off len, nth_error found (length pre) = Some (ty, off, len) /\
      h = if ts_returns rhct_spec o then N.of_nat off else 0.
Proof.
  exact (model_handles_gen rhct_table rhct_spec 56 H_u16_u16 rhct_ty _ rhct_refines_calls rhct_cut rhct_returns_agree).
Qed.


Lemma rimt_returns_agree s o e : rimt_addition s o = Some e -> a_returns e = ts_returns rimt_spec o.
Proof.
  intros H. apply rimt_addition_cases in H as (d & [] & _ & _ & ->); reflexivity.
Qed.

Theorem rimt_model_handles : forall md ctor pre o post r,
  ts_image rimt_spec ctor (pre ++ o :: post) = Some r -> N.of_nat (length r) < 2 ^ 32 ->
  exists s0 s s1 s' h found,
    rimt_new ctor = Some s0 /\ run_adds rimt_addition md s0 pre = Some s /\
    add_step rimt_addition md s o = Some (s1, [EvNum h]) /\ run_adds rimt_addition md s1 post = Some s' /\
    tbl_image s' = r /\
    walk (S (length (tbl_image s'))) H_u8_x_u16 48 (skipn 48 (tbl_image s')) = Some found /\
    length found = length (pre ++ o :: post) /\
    exists ty off len, nth_error found (length pre) = Some (ty, off, len) /\
      h = if ts_returns rimt_spec o then N.of_nat off else 0.
Proof.
  exact (model_handles_gen rimt_table rimt_spec 48 H_u8_x_u16 sp_ty _ rimt_refines_calls rimt_cut rimt_returns_agree).
Qed.


Lemma viot_returns_agree s o e : viot_addition s o = Some e -> a_returns e = ts_returns viot_spec o.
Proof.
  intros H. apply viot_addition_cases in H as (d & [] & ->); reflexivity.
Qed.

(* the VIOT Spec bounds the table by 2^16 (node offsets are 16 bits wide), so its refinement theorem has no size hypothesis *)
Lemma viot_image_small ctor ops r : ts_image viot_spec ctor ops = Some r -> N.of_nat (length r) < 2 ^ 32.
Proof.
  intros H. pose proof (viot_image_small16 ctor ops r H). change (2 ^ 16) with 65536 in *. change (2 ^ 32) with 4294967296. lia.
Qed.

Theorem viot_model_handles : forall md ctor pre o post r,
  ts_image viot_spec ctor (pre ++ o :: post) = Some r ->
  exists s0 s s1 s' h found,
    viot_new ctor = Some s0 /\ run_adds viot_addition md s0 pre = Some s /\
    add_step viot_addition md s o = Some (s1, [EvNum h]) /\ run_adds viot_addition md s1 post = Some s' /\
    tbl_image s' = r /\
    walk (S (length (tbl_image s'))) H_u8_x_u16 48 (skipn 48 (tbl_image s')) = Some found /\
    length found = length (pre ++ o :: post) /\
    exists ty off len, nth_error found (length pre) = Some (ty, off, len) /\
      h = if ts_returns viot_spec o then N.of_nat off else 0.
Proof.
  intros md ctor pre o post r H.
  exact (model_handles_gen viot_table viot_spec 48 H_u8_x_u16 sp_ty _ (fun md c o r H _ => viot_refines_calls md c o r H)
           viot_cut viot_returns_agree md ctor pre o post r H (viot_image_small _ _ _ H)).
Qed.


Print Assumptions pptt_model_handles.
Print Assumptions rhct_model_handles.
Print Assumptions rimt_model_handles.
Print Assumptions viot_model_handles.
