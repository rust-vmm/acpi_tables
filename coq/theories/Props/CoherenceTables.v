(* Coherence of the executable judgement (Judge.v: oracle, run_case) with the theorems about the Impl model, for the 21 table
   components 10..30.  The theorems are statements: each applies, in a line or a few, a general theorem of Proofs/CoherenceTablesP.v to
   its table: [covered_coherent] to <t>_covers for the 13 tables with a variable body (CoherenceAddP.v),
   [fixed_coherent] to <t>_model for the eight fixed-layout structures (CoherenceFixedP.v); the consequences common to all are
   in CoherenceAllP.v.

   For every WELL-FORMED case c = (ctor op ...) (every atom among the operations is the observation marker 1: [markers_ok])
   whose history [real_ops ops] lies inside the Spec's domain (ts_image = Some r: what Judge.judged reports, except for the
   SLIT 14, where judged answers true without computing the reference image), in both build profiles, the oracles of C04 (also C11, C12), C01 and C02 ACCEPT the model's own observation stream:

       oracle 4 comp c (run_case md comp c) = true /\ oracle 1 comp c (run_case md comp c) = true /\
       oracle 2 comp c (run_case md comp c) = true

   Hence (no_false_alarm) whenever the correspondence K holds on such a case -- K as the driver computes it, through
   Judge.project -- the oracle accepts the implementation's stream: an ORACLE alarm on an in-domain case implies a
   disagreement between crate and model.  The executable judgement agrees with the theorems on ALL in-domain histories,
   not only the sampled ones.

   Hypotheses kept from the refinement theorems (Props/C04.v): the u32 Length bound on the reference image of the WHOLE
   history (the bound at the intermediate observations is derived: reference images do not shrink along a history),
   [madt_ops_wf] / [srat_ops_wf] (builder lists contain builder calls), [fadt_ctor_bytes] / [rsdp_ctor_bytes] (byte-array
   arguments are bytes), and for the HEST the restriction of c04_hest_refines to histories without stand-alone structures.

   The generic statement (Proofs/CoherenceTablesP.v, shows_c04): for a model (new, step, image) run
   through run_history such that every accepted operation emits exactly one EvNum, which accepts the whole history and whose
   image at every prefix having a reference image IS that reference image,
       c04_oracle ts c (run_history image step new c) = true,
   and every boolean predicate true of the model's image after every prefix is true of every observed image.  A model meets
   this when it [covers] its Spec: its refinement theorem holds on a part of the Spec's domain that is closed under prefixes
   (covered_coherent), or when the theorem's side condition speaks of the constructor only (fixed_coherent). *)
From Coq Require Import NArith List.
From ACPI Require Import Lib.Sx Spec.Layout Judge.
From ACPI Require Import Spec.XsdtS Spec.McfgS Spec.MadtS Spec.SratS Spec.SlitS Spec.HmatS Spec.PpttS Spec.RhctS Spec.RimtS
  Spec.ViotS Spec.CedtS Spec.HestS Spec.RqscS Spec.Tpm2S Spec.FadtS Spec.BertS Spec.SpcrS Spec.FacsS Spec.RsdpS.
From ACPI Require Import Proofs.MadtRefP Proofs.SratRefP Proofs.FadtRefP Proofs.RsdpRefP Proofs.HandleModelP.
From ACPI Require Import Proofs.CoherenceTablesP Proofs.CoherenceFixedP Proofs.CoherenceAddP Proofs.CoherenceAllP.
Import ListNotations.
Open Scope N_scope.

Theorem coherence_xsdt : forall md ctor ops r,
  markers_ok ops = true ->
  ts_image xsdt_spec ctor (real_ops ops) = Some r ->
  N.of_nat (length r) < 2 ^ 32 ->
  let c := SL (ctor :: ops) in
  oracle 4 10 c (run_case md 10 c) = true /\ oracle 1 10 c (run_case md 10 c) = true /\ oracle 2 10 c (run_case md 10 c) = true.
Proof. exact (covered_coherent xsdt_covers). Qed.

Theorem coherence_mcfg : forall md ctor ops r,
  markers_ok ops = true ->
  ts_image mcfg_spec ctor (real_ops ops) = Some r ->
  N.of_nat (length r) < 2 ^ 32 ->
  let c := SL (ctor :: ops) in
  oracle 4 11 c (run_case md 11 c) = true /\ oracle 1 11 c (run_case md 11 c) = true /\ oracle 2 11 c (run_case md 11 c) = true.
Proof. exact (covered_coherent mcfg_covers). Qed.

Theorem coherence_madt : forall md ctor ops r,
  markers_ok ops = true ->
  madt_ops_wf (real_ops ops) ->
  ts_image madt_spec ctor (real_ops ops) = Some r ->
  N.of_nat (length r) < 2 ^ 32 ->
  let c := SL (ctor :: ops) in
  oracle 4 12 c (run_case md 12 c) = true /\ oracle 1 12 c (run_case md 12 c) = true /\ oracle 2 12 c (run_case md 12 c) = true.
Proof. intros md ctor ops r Hm Hw Ht Hf. exact (covered_coherent madt_covers md ctor ops r Hm Ht (conj Hw Hf)). Qed.

Theorem coherence_srat : forall md ctor ops r,
  markers_ok ops = true ->
  srat_ops_wf (real_ops ops) ->
  ts_image srat_spec ctor (real_ops ops) = Some r ->
  N.of_nat (length r) < 2 ^ 32 ->
  let c := SL (ctor :: ops) in
  oracle 4 13 c (run_case md 13 c) = true /\ oracle 1 13 c (run_case md 13 c) = true /\ oracle 2 13 c (run_case md 13 c) = true.
Proof. intros md ctor ops r Hm Hw Ht Hf. exact (covered_coherent srat_covers md ctor ops r Hm Ht (conj Hw Hf)). Qed.

Theorem coherence_slit : forall md ctor ops r,
  markers_ok ops = true ->
  ts_image slit_spec ctor (real_ops ops) = Some r ->
  let c := SL (ctor :: ops) in
  oracle 4 14 c (run_case md 14 c) = true /\ oracle 1 14 c (run_case md 14 c) = true /\ oracle 2 14 c (run_case md 14 c) = true.
Proof. intros md ctor ops r Hm Ht. exact (covered_coherent slit_covers md ctor ops r Hm Ht I). Qed.

Theorem coherence_hmat : forall md ctor ops r,
  markers_ok ops = true ->
  ts_image hmat_spec ctor (real_ops ops) = Some r ->
  N.of_nat (length r) < 2 ^ 32 ->
  let c := SL (ctor :: ops) in
  oracle 4 15 c (run_case md 15 c) = true /\ oracle 1 15 c (run_case md 15 c) = true /\ oracle 2 15 c (run_case md 15 c) = true.
Proof. exact (covered_coherent hmat_covers). Qed.

Theorem coherence_pptt : forall md ctor ops r,
  markers_ok ops = true ->
  ts_image pptt_spec ctor (real_ops ops) = Some r ->
  N.of_nat (length r) < 2 ^ 32 ->
  let c := SL (ctor :: ops) in
  oracle 4 16 c (run_case md 16 c) = true /\ oracle 1 16 c (run_case md 16 c) = true /\ oracle 2 16 c (run_case md 16 c) = true.
Proof. exact (covered_coherent pptt_covers). Qed.

Theorem coherence_rhct : forall md ctor ops r,
  markers_ok ops = true ->
  ts_image rhct_spec ctor (real_ops ops) = Some r ->
  N.of_nat (length r) < 2 ^ 32 ->
  let c := SL (ctor :: ops) in
  oracle 4 17 c (run_case md 17 c) = true /\ oracle 1 17 c (run_case md 17 c) = true /\ oracle 2 17 c (run_case md 17 c) = true.
Proof. exact (covered_coherent rhct_covers). Qed.

Theorem coherence_rimt : forall md ctor ops r,
  markers_ok ops = true ->
  ts_image rimt_spec ctor (real_ops ops) = Some r ->
  N.of_nat (length r) < 2 ^ 32 ->
  let c := SL (ctor :: ops) in
  oracle 4 18 c (run_case md 18 c) = true /\ oracle 1 18 c (run_case md 18 c) = true /\ oracle 2 18 c (run_case md 18 c) = true.
Proof. exact (covered_coherent rimt_covers). Qed.

Theorem coherence_viot : forall md ctor ops r,
  markers_ok ops = true ->
  ts_image viot_spec ctor (real_ops ops) = Some r ->
  let c := SL (ctor :: ops) in
  oracle 4 19 c (run_case md 19 c) = true /\ oracle 1 19 c (run_case md 19 c) = true /\ oracle 2 19 c (run_case md 19 c) = true.
Proof. intros md ctor ops r Hm Ht. exact (covered_coherent viot_covers md ctor ops r Hm Ht (viot_image_small _ _ _ Ht)). Qed.

Theorem coherence_cedt : forall md ctor ops r,
  markers_ok ops = true ->
  ts_image cedt_spec ctor (real_ops ops) = Some r ->
  N.of_nat (length r) < 2 ^ 32 ->
  let c := SL (ctor :: ops) in
  oracle 4 20 c (run_case md 20 c) = true /\ oracle 1 20 c (run_case md 20 c) = true /\ oracle 2 20 c (run_case md 20 c) = true.
Proof. exact (covered_coherent cedt_covers). Qed.

Theorem coherence_hest : forall md ctor ops r,
  markers_ok ops = true ->
  forallb (fun o => negb (is_alone_op o)) (real_ops ops) = true ->
  ts_image hest_spec ctor (real_ops ops) = Some r ->
  N.of_nat (length r) < 2 ^ 32 ->
  let c := SL (ctor :: ops) in
  oracle 4 21 c (run_case md 21 c) = true /\ oracle 1 21 c (run_case md 21 c) = true /\ oracle 2 21 c (run_case md 21 c) = true.
Proof. intros md ctor ops r Hm Hna Ht Hf. exact (covered_coherent hest_covers md ctor ops r Hm Ht (conj Hna Hf)). Qed.

Theorem coherence_rqsc : forall md ctor ops r,
  markers_ok ops = true ->
  ts_image rqsc_spec ctor (real_ops ops) = Some r ->
  N.of_nat (length r) < 2 ^ 32 ->
  let c := SL (ctor :: ops) in
  oracle 4 22 c (run_case md 22 c) = true /\ oracle 1 22 c (run_case md 22 c) = true /\ oracle 2 22 c (run_case md 22 c) = true.
Proof. exact (covered_coherent rqsc_covers). Qed.

Theorem coherence_tpm2 : forall md ctor ops r,
  markers_ok ops = true ->
  ts_image tpm2_spec ctor (real_ops ops) = Some r ->
  let c := SL (ctor :: ops) in
  oracle 4 23 c (run_case md 23 c) = true /\ oracle 1 23 c (run_case md 23 c) = true /\ oracle 2 23 c (run_case md 23 c) = true.
Proof. intros md ctor ops r Hm Ht. exact (fixed_coherent tpm2_model md ctor ops r Hm I Ht). Qed.

Theorem coherence_tpmserver : forall md ctor ops r,
  markers_ok ops = true ->
  ts_image tpmserver_spec ctor (real_ops ops) = Some r ->
  let c := SL (ctor :: ops) in
  oracle 4 24 c (run_case md 24 c) = true /\ oracle 1 24 c (run_case md 24 c) = true /\ oracle 2 24 c (run_case md 24 c) = true.
Proof. intros md ctor ops r Hm Ht. exact (fixed_coherent tpmserver_model md ctor ops r Hm I Ht). Qed.

Theorem coherence_tpmclient : forall md ctor ops r,
  markers_ok ops = true ->
  ts_image tpmclient_spec ctor (real_ops ops) = Some r ->
  let c := SL (ctor :: ops) in
  oracle 4 25 c (run_case md 25 c) = true /\ oracle 1 25 c (run_case md 25 c) = true /\ oracle 2 25 c (run_case md 25 c) = true.
Proof. intros md ctor ops r Hm Ht. exact (fixed_coherent tpmclient_model md ctor ops r Hm I Ht). Qed.

Theorem coherence_fadt : forall md ctor ops r,
  markers_ok ops = true ->
  fadt_ctor_bytes ctor ->
  ts_image fadt_spec ctor (real_ops ops) = Some r ->
  let c := SL (ctor :: ops) in
  oracle 4 26 c (run_case md 26 c) = true /\ oracle 1 26 c (run_case md 26 c) = true /\ oracle 2 26 c (run_case md 26 c) = true.
Proof. exact (fixed_coherent fadt_model). Qed.

Theorem coherence_bert : forall md ctor ops r,
  markers_ok ops = true ->
  ts_image bert_spec ctor (real_ops ops) = Some r ->
  let c := SL (ctor :: ops) in
  oracle 4 27 c (run_case md 27 c) = true /\ oracle 1 27 c (run_case md 27 c) = true /\ oracle 2 27 c (run_case md 27 c) = true.
Proof. intros md ctor ops r Hm Ht. exact (fixed_coherent bert_model md ctor ops r Hm I Ht). Qed.

Theorem coherence_spcr : forall md ctor ops r,
  markers_ok ops = true ->
  ts_image spcr_spec ctor (real_ops ops) = Some r ->
  let c := SL (ctor :: ops) in
  oracle 4 28 c (run_case md 28 c) = true /\ oracle 1 28 c (run_case md 28 c) = true /\ oracle 2 28 c (run_case md 28 c) = true.
Proof. intros md ctor ops r Hm Ht. exact (fixed_coherent spcr_model md ctor ops r Hm I Ht). Qed.

Theorem coherence_facs : forall md ctor ops r,
  markers_ok ops = true ->
  ts_image facs_spec ctor (real_ops ops) = Some r ->
  let c := SL (ctor :: ops) in
  oracle 4 29 c (run_case md 29 c) = true /\ oracle 1 29 c (run_case md 29 c) = true /\ oracle 2 29 c (run_case md 29 c) = true.
Proof.
  intros md ctor ops r Hm Ht. destruct (fixed_coherent facs_model md ctor ops r Hm I Ht) as (H4 & _ & H2).
  exact (conj H4 (conj eq_refl H2)).
Qed.

Theorem coherence_rsdp : forall md ctor ops r,
  markers_ok ops = true ->
  rsdp_ctor_bytes ctor ->
  ts_image rsdp_spec ctor (real_ops ops) = Some r ->
  let c := SL (ctor :: ops) in
  oracle 4 30 c (run_case md 30 c) = true /\ oracle 1 30 c (run_case md 30 c) = true /\ oracle 2 30 c (run_case md 30 c) = true.
Proof. exact (fixed_coherent rsdp_model). Qed.

(* the other properties judged by the same functions: C11 (= the judgement of C04) and C12 (C04 and C01) *)
Theorem coherence_c11_c12 : forall comp md c,
  In comp [10; 11; 12; 13; 14; 15; 16; 17; 18; 19; 20; 21; 22; 23; 24; 25; 26; 27; 28; 29; 30] ->
  oracle 4 comp c (run_case md comp c) = true /\ oracle 1 comp c (run_case md comp c) = true /\
  oracle 2 comp c (run_case md comp c) = true ->
  oracle 11 comp c (run_case md comp c) = true /\ oracle 12 comp c (run_case md comp c) = true.
Proof. exact coherent_c11_c12. Qed.

(* K (the driver's check, through Judge.project) implies the oracle's acceptance, on every case covered above *)
Theorem coherence_no_false_alarm : forall comp md c impl,
  In comp [10; 11; 12; 13; 14; 15; 16; 17; 18; 19; 20; 21; 22; 23; 24; 25; 26; 27; 28; 29; 30] ->
  oracle 4 comp c (run_case md comp c) = true /\ oracle 1 comp c (run_case md comp c) = true /\
  oracle 2 comp c (run_case md comp c) = true ->
  (evs_eqb (project 4 comp (run_case md comp c)) (project 4 comp impl) = true -> oracle 4 comp c impl = true) /\
  (evs_eqb (project 1 comp (run_case md comp c)) (project 1 comp impl) = true -> oracle 1 comp c impl = true) /\
  (evs_eqb (project 2 comp (run_case md comp c)) (project 2 comp impl) = true -> oracle 2 comp c impl = true).
Proof. exact no_false_alarm. Qed.

(* the well-formedness condition is needed: with a stray atom 2 the history is in the domain, the model refuses the atom,
   and the oracle rejects the model's own stream (the generators never emit such a case) *)
Theorem coherence_markers_ok_needed :
  let c := SL [SL [SL [SA 0; SA 0; SA 0; SA 0; SA 0; SA 0]; SL [SA 0; SA 0; SA 0; SA 0; SA 0; SA 0; SA 0; SA 0]; SA 0]; SA 2] in
  markers_ok [SA 2] = false /\ judged 4 10 c = true /\ run_case Wrapping 10 c = [EvPanic] /\
  oracle 4 10 c (run_case Wrapping 10 c) = false.
Proof. exact markers_ok_needed. Qed.

(* non-vacuity: concrete histories with observation markers (cases produced by the harness generators) *)
Definition ex_madt_ctor : sx := SL [SL [SA 255; SA 255; SA 255; SA 255; SA 255; SA 255]; SL [SA 255; SA 255; SA 255; SA 255; SA 255; SA 255; SA 255; SA 255]; SA 16567578; SL []].
Definition ex_madt_ops : list sx :=
  [SA 1; SL [SA 2; SA 35; SA 2147483648; SA 1]; SA 1; SL [SA 11; SA 254; SL [SA 118; SA 57; SA 141; SA 138; SA 206; SA 213; SA 243; SA 137]; SA 2147; SA 2779096485; SA 4557430888798830399; SA 1175481320; SA 65534]; SA 1].

Example coherence_madt_not_vacuous :
  let c := SL (ex_madt_ctor :: ex_madt_ops) in
  markers_ok ex_madt_ops = true /\ (exists r, ts_image madt_spec ex_madt_ctor (real_ops ex_madt_ops) = Some r /\ N.of_nat (length r) < 2 ^ 32) /\
  oracle 4 12 c (run_case Wrapping 12 c) = true /\ oracle 4 12 c (run_case Checked 12 c) = true /\
  oracle 1 12 c (run_case Wrapping 12 c) = true /\ oracle 2 12 c (run_case Wrapping 12 c) = true /\
  existsb (fun e => match e with EvBytes _ => true | _ => false end) (run_case Wrapping 12 c) = true.
Proof.
  intros c. apply and_use; [vm_compute; reflexivity|eexists; split; [vm_compute; reflexivity|vm_compute; reflexivity]|intros Hm (r & Ht & Hf)].
  apply both_profiles; [intros md|vm_compute; reflexivity].
  apply (coherence_madt md _ _ r Hm); [vm_compute; repeat constructor|exact Ht|exact Hf].
Qed.

Definition ex_rimt_ctor : sx := SL [SL [SA 255; SA 255; SA 255; SA 255; SA 255; SA 255]; SL [SA 255; SA 255; SA 255; SA 255; SA 255; SA 255; SA 255; SA 255]; SA 4294967295].
Definition ex_rimt_ops : list sx :=
  [SA 1; SL [SA 1; SA 32; SL []; SL []; SL []; SL [SL [SL [SA 117901063; SA 0; SA 0; SA 65534]]]]; SA 1; SL [SA 3; SA 0; SL [SA 51; SA 95; SA 69; SA 55; SA 71; SA 52; SA 46; SA 52; SA 84; SA 49; SA 76; SA 50; SA 51; SA 82; SA 50; SA 65; SA 55; SA 82; SA 95; SA 75; SA 68; SA 77; SA 52; SA 69; SA 46; SA 80; SA 48; SA 78; SA 84; SA 53; SA 89; SA 83; SA 66; SA 66; SA 74; SA 54; SA 49]; SL [SL [SL [SA 1819483724; SA 4294967294; SA 1233489677; SL [SA 104; SA 0]; SA 0; SA 0; SA 1]]]]; SA 1].

Example coherence_rimt_not_vacuous :
  let c := SL (ex_rimt_ctor :: ex_rimt_ops) in
  markers_ok ex_rimt_ops = true /\ (exists r, ts_image rimt_spec ex_rimt_ctor (real_ops ex_rimt_ops) = Some r /\ N.of_nat (length r) < 2 ^ 32) /\
  oracle 4 18 c (run_case Wrapping 18 c) = true /\ oracle 4 18 c (run_case Checked 18 c) = true /\
  oracle 1 18 c (run_case Wrapping 18 c) = true /\ oracle 2 18 c (run_case Wrapping 18 c) = true /\
  existsb (fun e => match e with EvBytes _ => true | _ => false end) (run_case Wrapping 18 c) = true.
Proof.
  intros c. apply and_use; [vm_compute; reflexivity|eexists; split; [vm_compute; reflexivity|vm_compute; reflexivity]|intros Hm (r & Ht & Hf)].
  apply both_profiles; [intros md|vm_compute; reflexivity].
  exact (coherence_rimt md _ _ r Hm Ht Hf).
Qed.

Definition ex_fadt_ctor : sx := SL [SL [SA 70; SA 79; SA 79; SA 66; SA 65; SA 82]; SL [SA 67; SA 65; SA 70; SA 69; SA 68; SA 69; SA 65; SA 68]; SA 3200171710].
Definition ex_fadt_ops : list sx :=
  [SA 1; SL [SA 7; SA 5]; SA 1; SL [SA 7; SA 23]; SA 1].

Example coherence_fadt_not_vacuous :
  let c := SL (ex_fadt_ctor :: ex_fadt_ops) in
  markers_ok ex_fadt_ops = true /\ (exists r, ts_image fadt_spec ex_fadt_ctor (real_ops ex_fadt_ops) = Some r /\ N.of_nat (length r) < 2 ^ 32) /\
  oracle 4 26 c (run_case Wrapping 26 c) = true /\ oracle 4 26 c (run_case Checked 26 c) = true /\
  oracle 1 26 c (run_case Wrapping 26 c) = true /\ oracle 2 26 c (run_case Wrapping 26 c) = true /\
  existsb (fun e => match e with EvBytes _ => true | _ => false end) (run_case Wrapping 26 c) = true.
Proof.
  intros c. apply and_use; [vm_compute; reflexivity|eexists; split; [vm_compute; reflexivity|vm_compute; reflexivity]|intros Hm (r & Ht & Hf)].
  apply both_profiles; [intros md|vm_compute; reflexivity].
  apply (coherence_fadt md _ _ r Hm); [split; intros b [= <-]; reflexivity|exact Ht].
Qed.

Definition ex_slit_ctor : sx := SL [SL [SA 255; SA 255; SA 255; SA 255; SA 255; SA 255]; SL [SA 255; SA 255; SA 255; SA 255; SA 255; SA 255; SA 255; SA 255]; SA 3970050675; SA 2].
Definition ex_slit_ops : list sx :=
  [SA 1; SL [SA 1; SA 1; SA 1; SA 219]; SA 1; SL [SA 1; SA 0; SA 0; SA 16]; SA 1].

Example coherence_slit_not_vacuous :
  let c := SL (ex_slit_ctor :: ex_slit_ops) in
  markers_ok ex_slit_ops = true /\ (exists r, ts_image slit_spec ex_slit_ctor (real_ops ex_slit_ops) = Some r /\ N.of_nat (length r) < 2 ^ 32) /\
  oracle 4 14 c (run_case Wrapping 14 c) = true /\ oracle 4 14 c (run_case Checked 14 c) = true /\
  oracle 1 14 c (run_case Wrapping 14 c) = true /\ oracle 2 14 c (run_case Wrapping 14 c) = true /\
  existsb (fun e => match e with EvBytes _ => true | _ => false end) (run_case Wrapping 14 c) = true.
Proof.
  intros c. apply and_use; [vm_compute; reflexivity|eexists; split; [vm_compute; reflexivity|vm_compute; reflexivity]|intros Hm (r & Ht & Hf)].
  apply both_profiles; [intros md|vm_compute; reflexivity].
  exact (coherence_slit md _ _ r Hm Ht).
Qed.

Definition ex_rqsc_ctor : sx := SL [SL [SA 0; SA 0; SA 0; SA 0; SA 0; SA 0]; SL [SA 0; SA 0; SA 0; SA 0; SA 0; SA 0; SA 0; SA 0]; SA 3193990782].
Definition ex_rqsc_ops : list sx :=
  [SA 1; SL [SA 1; SA 0; SL [SA 1; SA 0; SA 3; SA 245; SA 254; SA 1]; SA 0; SA 531838662; SA 65534; SL [SL [SA 1; SA 56852; SL [SA 1; SA 0; SA 1374463283923456787]]]]; SA 1].

Example coherence_rqsc_not_vacuous :
  let c := SL (ex_rqsc_ctor :: ex_rqsc_ops) in
  markers_ok ex_rqsc_ops = true /\ (exists r, ts_image rqsc_spec ex_rqsc_ctor (real_ops ex_rqsc_ops) = Some r /\ N.of_nat (length r) < 2 ^ 32) /\
  oracle 4 22 c (run_case Wrapping 22 c) = true /\ oracle 4 22 c (run_case Checked 22 c) = true /\
  oracle 1 22 c (run_case Wrapping 22 c) = true /\ oracle 2 22 c (run_case Wrapping 22 c) = true /\
  existsb (fun e => match e with EvBytes _ => true | _ => false end) (run_case Wrapping 22 c) = true.
Proof.
  intros c. apply and_use; [vm_compute; reflexivity|eexists; split; [vm_compute; reflexivity|vm_compute; reflexivity]|intros Hm (r & Ht & Hf)].
  apply both_profiles; [intros md|vm_compute; reflexivity].
  exact (coherence_rqsc md _ _ r Hm Ht Hf).
Qed.

Definition ex_hest_ctor : sx := SL [SL [SA 70; SA 79; SA 79; SA 66; SA 65; SA 82]; SL [SA 67; SA 65; SA 70; SA 69; SA 68; SA 69; SA 65; SA 68]; SA 2878343556].
Definition ex_hest_ops : list sx :=
  [SA 1; SL [SA 1; SL [SA 0]; SL [SL [SA 1; SA 268435456]; SL [SA 2; SA 2689582908]; SL [SA 4; SA 918286735]; SL [SA 5; SA 2593595240]; SL [SA 7; SA 3570717908]]]; SA 1].

Example coherence_hest_not_vacuous :
  let c := SL (ex_hest_ctor :: ex_hest_ops) in
  markers_ok ex_hest_ops = true /\ (exists r, ts_image hest_spec ex_hest_ctor (real_ops ex_hest_ops) = Some r /\ N.of_nat (length r) < 2 ^ 32) /\
  oracle 4 21 c (run_case Wrapping 21 c) = true /\ oracle 4 21 c (run_case Checked 21 c) = true /\
  oracle 1 21 c (run_case Wrapping 21 c) = true /\ oracle 2 21 c (run_case Wrapping 21 c) = true /\
  existsb (fun e => match e with EvBytes _ => true | _ => false end) (run_case Wrapping 21 c) = true.
Proof.
  intros c. apply and_use; [vm_compute; reflexivity|eexists; split; [vm_compute; reflexivity|vm_compute; reflexivity]|intros Hm (r & Ht & Hf)].
  apply both_profiles; [intros md|vm_compute; reflexivity].
  apply (coherence_hest md _ _ r Hm); [vm_compute; reflexivity|exact Ht|exact Hf].
Qed.

Print Assumptions coherence_xsdt.
Print Assumptions coherence_mcfg.
Print Assumptions coherence_madt.
Print Assumptions coherence_srat.
Print Assumptions coherence_slit.
Print Assumptions coherence_hmat.
Print Assumptions coherence_pptt.
Print Assumptions coherence_rhct.
Print Assumptions coherence_rimt.
Print Assumptions coherence_viot.
Print Assumptions coherence_cedt.
Print Assumptions coherence_hest.
Print Assumptions coherence_rqsc.
Print Assumptions coherence_tpm2.
Print Assumptions coherence_tpmserver.
Print Assumptions coherence_tpmclient.
Print Assumptions coherence_fadt.
Print Assumptions coherence_bert.
Print Assumptions coherence_spcr.
Print Assumptions coherence_facs.
Print Assumptions coherence_rsdp.
Print Assumptions coherence_c11_c12.
Print Assumptions coherence_no_false_alarm.
Print Assumptions coherence_markers_ok_needed.
