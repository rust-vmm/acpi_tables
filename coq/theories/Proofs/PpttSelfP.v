(* PPTT, property C03 on the reference image: for every history in the domain of Spec/PpttS.v the reference image is exactly
   tiled by nodes that describe themselves (type u8, length u8) and pass the per-entry self-check (processor node:
   private-resource count against the node length; cache node: 28 bytes). *)
From Coq Require Import NArith List Lia Arith.
From ACPI Require Import Lib.Bytes Lib.Sx Impl.Table Spec.Layout Spec.MadtS Spec.HmatS Spec.PpttS Spec.SelfCheck Judge
  Proofs.WalkP Proofs.WalkRefCommon2P Proofs.SelfCommonP Proofs.PpttStructP.
Import ListNotations.
Open Scope N_scope.

(* a node that fits the length byte passes the per-entry self-check: the resource count of a processor node, read off its
   head, against its size; the 28 bytes of a cache node *)
Lemma pptt_node_good d : (pptt_node_size d <= 255)%nat -> entry_good H_u8_u8 16 sp_ty (pptt_node_bytes d).
Proof.
  intros Hfit. split; [exact (pptt_node_self d Hfit)|]. pose proof (pptt_node_length d) as Hlen.
  rewrite pptt_node_ty.
  destruct d as [p|fl nl sz sets asso attr ls id]; cbn [pptt_node_size entry_self_ok pptt_self] in *.
  - rewrite (pptt_node_field_below (NProc p) 16 4 _ 4294967296 eq_refl eq_refl) by lia.
    unfold lenN. rewrite Hlen. apply N.eqb_eq. lia.
  - rewrite Hlen. reflexivity.
Qed.

Lemma pptt_entry_good p o e : pptt_entry_ref p o = Some e -> entry_good H_u8_u8 16 sp_ty e.
Proof. intros H. apply pptt_entry_ref_cases in H as (d & _ & Hfit & ->). exact (pptt_node_good d Hfit). Qed.

Lemma pptt_entries_good ops es : pptt_entries_ref ops = Some es -> Forall (entry_good H_u8_u8 16 sp_ty) es.
Proof.
  unfold pptt_entries_ref. rewrite pptt_entries_from_pl. intros H.
  exact (bk_entries_forall _ pptt_entry_good ops _ _ es H).
Qed.

Definition pptt_ref : reftable pptt_spec 16 (fun _ => True) :=
  image3_reftable_plain pptt_spec 16 _ [80; 80; 84; 84] KPptt H_u8_u8 sp_ty pptt_entries_ref eq_refl eq_refl
    (fun _ _ => eq_refl) (fun _ _ => eq_refl) pptt_entries_good (fun _ => eq_refl).

Lemma pptt_image_body ctor ops r : ts_image pptt_spec ctor ops = Some r ->
  exists es, pptt_entries_ref ops = Some es /\ skipn 36 r = concat es /\
    Forall (fun e => self_describing H_u8_u8 e (sp_ty e)) es.
Proof. exact (reftable_body pptt_ref ctor ops r). Qed.

Theorem pptt_selfcheck : forall ctor ops r, ts_image pptt_spec ctor ops = Some r -> c03_self 16 r = true.
Proof. exact (reftable_selfcheck pptt_ref). Qed.

Theorem pptt_reference_tiles : forall ctor ops r,
  ts_image pptt_spec ctor ops = Some r -> c03_judge pptt_spec ctor r ops = true.
Proof. intros ctor ops r H. exact (reftable_tiles pptt_ref ctor ops r H I). Qed.

Print Assumptions pptt_selfcheck.
Print Assumptions pptt_reference_tiles.
