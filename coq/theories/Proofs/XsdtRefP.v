(* XSDT: the Impl model refines the Spec (property C04 as a theorem): for every constructor argument and every finite history
   in the specification's domain, in both build modes, the model accepts the history and its image is the reference image. *)
From Coq Require Import NArith List.
From ACPI Require Import Lib.Bytes Lib.Sx Impl.Table Impl.Xsdt
  Spec.Layout Spec.XsdtS Proofs.TableP Proofs.XsdtP Proofs.RefCommonP Proofs.BaseP.
Import ListNotations.
Open Scope N_scope.

(* sink.qword(entry) is the reference 8-byte entry, for every entry value *)
Theorem xsdt_entries_are_reference s o b : xsdt_entry_ref o = Some b ->
  exists e, xsdt_addition s o = Some e /\ a_bytes e = b /\ a_flag e = t_flag s /\ a_returns e = false.
Proof.
  intros H. unfold xsdt_entry_ref in H. break_sx H.
  eexists. split; [reflexivity|]. cbn [a_bytes a_flag a_returns]. split; [|split; reflexivity].
  apply Some_inj. rewrite <- H.
  unfold lay, assemble, q8. cbn [layout_ok_from layout_size Nat.eqb Nat.add andb map concat fst snd]. now rewrite app_nil_r.
Qed.

Lemma xsdt_agrees s o b : xsdt_entry_ref o = Some b -> exists e, xsdt_addition s o = Some e /\ a_bytes e = b.
Proof. intros H. destruct (xsdt_entries_are_reference s o b H) as (e & He & Hb & _). now exists e. Qed.

Lemma xsdt_refines_calls md ctor ops r :
  ts_image xsdt_spec ctor ops = Some r -> N.of_nat (length r) < 2 ^ 32 ->
  exists s0 s, xsdt_new ctor = Some s0 /\ run_adds xsdt_addition md s0 ops = Some s /\ tbl_image s = r /\ all_calls ops.
Proof.
  exact (plain3_accepts KXsdt [88; 83; 68; 84] xsdt_addition xsdt_entry_ref ltac:(discriminate) xsdt_addition_sound eq_refl
           (fun _ => eq_refl) xsdt_agrees md ctor ops r).
Qed.

Theorem xsdt_refines : forall md ctor ops r,
  ts_image xsdt_spec ctor ops = Some r ->
  N.of_nat (length r) < 2 ^ 32 ->
  exists s0 s, xsdt_new ctor = Some s0 /\ run_adds xsdt_addition md s0 ops = Some s /\ tbl_image s = r.
Proof. intros md ctor ops r H Hfit. exact (accepted_refines (xsdt_refines_calls md ctor ops r H Hfit)). Qed.

Lemma xsdt_no_handle s o e : xsdt_addition s o = Some e -> a_returns e = false.
Proof.
  unfold xsdt_addition. intros H. break_sx H. injection H as <-. reflexivity.
Qed.

Theorem xsdt_case_refines : forall md ctor ops r,
  ts_image xsdt_spec ctor ops = Some r -> N.of_nat (length r) < 2 ^ 32 ->
  xsdt_case md (SL (ctor :: ops ++ [SA 1])) = map (fun _ => EvNum 0) ops ++ [EvBytes r].
Proof.
  intros md ctor ops r Himg Hfit.
  exact (case_zeros (xsdt_refines_calls md ctor ops r Himg Hfit) xsdt_no_handle).
Qed.

Print Assumptions xsdt_entries_are_reference.
Print Assumptions xsdt_refines.
Print Assumptions xsdt_case_refines.
