(* FADT (component 26): the Impl model refines the Spec.
   For every constructor argument and every finite sequence of builder calls and direct assignments of public body fields
   (scalar fields: op 10, GAS fields: op 11) inside the specification's domain, in both build modes, the model accepts the
   history and the finalized image is byte for byte the reference image (`ref_table "FACP" 6 hdr body`, body = the ACPI 6.5
   layout in which every field holds the value last written to it).  Consequences: the Flags dword of the image is the last
   directly assigned value (0 if none) united with the bits of the flags requested after it (C11). *)
From Coq Require Import NArith List Lia Bool Arith.
From ACPI Require Import Proofs.RefCommonP Proofs.BaseP.
From ACPI Require Import Lib.Bytes Lib.Sx Impl.Checksum Impl.Table Impl.Fields Impl.Gas Impl.Fadt
  Spec.Layout Spec.FadtS Proofs.FixedP Proofs.FadtP Proofs.RefFixedCommonP.
Import ListNotations.

Open Scope N_scope.

(* a GAS whose five fields hold the values written at table offsets off .. off+4 *)
Definition gas_flds (v : fadt_vals) (off : N) : flds :=
  [F 1 (val v off); F 1 (val v (off + 1)); F 1 (val v (off + 2)); F 1 (val v (off + 3)); F 8 (val v (off + 4))].

(* the fields after the header (indices 30..128), holding the values of [v] *)
Definition fadt_body_flds (v : fadt_vals) : flds :=
  [F 4 (val v 36); F 4 (val v 40); F 1 0; F 1 (val v 45); F 2 (val v 46); F 4 (val v 48); F 1 (val v 52); F 1 (val v 53);
   F 1 (val v 54); F 1 (val v 55);
   F 4 (val v 56); F 4 (val v 60); F 4 (val v 64); F 4 (val v 68); F 4 (val v 72); F 4 (val v 76); F 4 (val v 80); F 4 (val v 84);
   F 1 (val v 88); F 1 (val v 89); F 1 (val v 90); F 1 (val v 91); F 1 (val v 92); F 1 (val v 93); F 1 (val v 94); F 1 (val v 95);
   F 2 (val v 96); F 2 (val v 98); F 2 (val v 100); F 2 (val v 102); F 1 (val v 104); F 1 (val v 105); F 1 (val v 106);
   F 1 (val v 107); F 1 (val v 108); F 2 (val v 109); F 1 0; F 4 (val v 112)]
  ++ gas_flds v 116 ++ [F 1 (val v 128); F 2 (val v 129); F 1 (val v 131); F 8 (val v 132); F 8 (val v 140)]
  ++ gas_flds v 148 ++ gas_flds v 160 ++ gas_flds v 172 ++ gas_flds v 184 ++ gas_flds v 196
  ++ gas_flds v 208 ++ gas_flds v 220 ++ gas_flds v 232 ++ gas_flds v 244 ++ gas_flds v 256
  ++ [F 8 (val v 268)].

(* the whole struct, with checksum byte [c] *)
Definition fadt_flds (oem tbl : list N) (orev c : N) (v : fadt_vals) : flds :=
  fbytes [70; 65; 67; 80]
  ++ [F 4 FADT_LEN; F 1 6; F 1 c] ++ fbytes oem ++ fbytes tbl ++ [F 4 orev] ++ fbytes CREATOR_ID ++ fbytes CREATOR_REVISION
  ++ fadt_body_flds v.

Lemma fadt_new_flds_abs oem tbl orev : fadt_new_flds oem tbl orev = fadt_flds oem tbl orev 0 fadt_vals0.
Proof. reflexivity. Qed.

Lemma fadt_flds_set_ck oem tbl orev c c' v :
  fset (fadt_flds oem tbl orev c v) I_CHECKSUM c' = fadt_flds oem tbl orev c' v.
Proof. reflexivity. Qed.

Lemma fadt_flds_widths oem tbl orev c v : length oem = 6%nat -> length tbl = 8%nat ->
  widths (fadt_flds oem tbl orev c v) = FADT_WIDTHS.
Proof.
  intros Ho Ht.
  destruct oem as [|o0 [|o1 [|o2 [|o3 [|o4 [|o5 [|]]]]]]]; try discriminate.
  destruct tbl as [|t0 [|t1 [|t2 [|t3 [|t4 [|t5 [|t6 [|t7 [|]]]]]]]]]; try discriminate.
  reflexivity.
Qed.

(* consecutive fields of widths [ws], the first at offset [off], each holding what [g] gives at its offset *)
Fixpoint keyed (g : N -> N) (off : N) (ws : list nat) : flds :=
  match ws with [] => [] | w :: r => (w, g off) :: keyed g (off + N.of_nat w) r end.

(* the offset of field i *)
Fixpoint key_of (off : N) (ws : list nat) (i : nat) : option N :=
  match ws, i with
  | [], _ => None
  | _ :: _, O => Some off
  | w :: r, S i => key_of (off + N.of_nat w) r i
  end.

Definition fun_upd (o x : N) (g : N -> N) (o' : N) : N := if o =? o' then x else g o'.

Lemma keyed_ext g g' ws : (forall o, g o = g' o) -> forall off, keyed g off ws = keyed g' off ws.
Proof. intros H. induction ws as [|w r IH]; intros off; cbn [keyed]; [reflexivity|]. now rewrite H, IH. Qed.

Lemma key_of_le ws : forall off i o, key_of off ws i = Some o -> off <= o.
Proof.
  induction ws as [|w r IH]; intros off [|i] o H; cbn [key_of] in H; try discriminate.
  - injection H as <-. lia.
  - apply IH in H. lia.
Qed.

Lemma keyed_fun_upd_below o x g ws : forall off, o < off -> keyed (fun_upd o x g) off ws = keyed g off ws.
Proof.
  induction ws as [|w r IH]; intros off H; cbn [keyed]; [reflexivity|].
  rewrite IH by lia. unfold fun_upd. destruct (N.eqb_spec o off); [lia|reflexivity].
Qed.

(* fields of positive width start at distinct offsets: assigning field i is writing at its offset *)
Lemma keyed_fset g x ws : forallb (Nat.ltb 0) ws = true -> forall off i o, key_of off ws i = Some o ->
  fset (keyed g off ws) i x = keyed (fun_upd o x g) off ws.
Proof.
  induction ws as [|w r IH]; intros Hw off i o H; [discriminate H|].
  cbn [forallb] in Hw. apply andb_true_iff in Hw. destruct Hw as [Hw Hr]. apply Nat.ltb_lt in Hw.
  destruct i as [|i]; cbn [key_of] in H; cbn [keyed fset].
  - injection H as <-. rewrite keyed_fun_upd_below by lia. unfold fun_upd. now rewrite N.eqb_refl.
  - rewrite (IH Hr _ _ _ H). apply key_of_le in H. unfold fun_upd at 2. destruct (N.eqb_spec o off); [lia|reflexivity].
Qed.

Lemma fset_app_r a b n i x : length a = n -> (n <=? i)%nat = true -> fset (a ++ b) i x = a ++ fset b (i - n) x.
Proof.
  intros <- H. apply Nat.leb_le in H. revert i H. induction a as [|[w y] a IH]; intros i H; cbn [length app].
  - now rewrite Nat.sub_0_r.
  - destruct i as [|i]; [inversion H|]. cbn [fset Nat.sub]. f_equal. apply IH. cbn [length] in H. lia.
Qed.

Definition fadt_hdr_flds (oem tbl : list N) (orev c : N) : flds :=
  fbytes [70; 65; 67; 80]
  ++ [F 4 FADT_LEN; F 1 6; F 1 c] ++ fbytes oem ++ fbytes tbl ++ [F 4 orev] ++ fbytes CREATOR_ID ++ fbytes CREATOR_REVISION.

Lemma fadt_flds_split oem tbl orev c v : fadt_flds oem tbl orev c v = fadt_hdr_flds oem tbl orev c ++ fadt_body_flds v.
Proof. unfold fadt_flds, fadt_hdr_flds. rewrite <- !app_assoc. reflexivity. Qed.

Lemma fadt_hdr_length oem tbl orev c : length oem = 6%nat -> length tbl = 8%nat -> length (fadt_hdr_flds oem tbl orev c) = 30%nat.
Proof. intros Ho Ht. unfold fadt_hdr_flds, fbytes. rewrite !app_length, !map_length, Ho, Ht. reflexivity. Qed.

(* the two private bytes _reserved0 / _reserved1 hold 0 *)
Definition fadt_reserved (o : N) : bool := (o =? 44) || (o =? 111).

Lemma fadt_body_keyed v :
  fadt_body_flds v = keyed (fun o => if fadt_reserved o then 0 else val v o) 36 (skipn 30 FADT_WIDTHS).
Proof. reflexivity. Qed.

(* field i of the struct is a public field of the body and starts at offset o *)
Definition fadt_fld (i : nat) (o : N) : bool :=
  (30 <=? i)%nat && negb (fadt_reserved o) &&
  match key_of 36 (skipn 30 FADT_WIDTHS) (i - 30) with Some o' => o' =? o | None => false end.

Lemma fadt_flds_fset oem tbl orev c v i x o : length oem = 6%nat -> length tbl = 8%nat -> fadt_fld i o = true ->
  fset (fadt_flds oem tbl orev c v) i x = fadt_flds oem tbl orev c ((o, x) :: v).
Proof.
  intros Ho Ht H. unfold fadt_fld in H.
  destruct (key_of 36 (skipn 30 FADT_WIDTHS) (i - 30)) as [o'|] eqn:Hk; [|now rewrite andb_false_r in H].
  apply andb_true_iff in H. destruct H as [H Ho']. apply N.eqb_eq in Ho'. subst o'.
  apply andb_true_iff in H. destruct H as [Hi Hres]. apply negb_true_iff in Hres.
  rewrite !fadt_flds_split, (fset_app_r _ _ 30 i x (fadt_hdr_length _ _ _ _ Ho Ht) Hi).
  f_equal. rewrite !fadt_body_keyed, (keyed_fset _ x (skipn 30 FADT_WIDTHS) eq_refl 36 _ o Hk). apply keyed_ext. intros p.
  unfold fun_upd. cbn [val]. destruct (N.eqb_spec o p) as [<-|]; [now rewrite Hres|reflexivity].
Qed.

Lemma flag_bits_ref i : flag_bits i = flag_ref i.
Proof.
  unfold flag_bits, flag_ref. destruct (i <=? 21).
  - rewrite N.shiftl_mul_pow2, N.mul_1_l. reflexivity.
  - repeat (destruct i as [|i]; try reflexivity; destruct i as [i|i|]; try reflexivity).
Qed.

(* the two tables of assignable scalar fields agree: entry k of the model's is the field that starts at the offset in entry k
   of the Spec's, with the same width *)
Lemma fadt_scalar_field k off w : nth_error fadt_scalars k = Some (off, w) ->
  exists i, nth_error FADT_ASSIGNABLE k = Some (i, w) /\ fadt_fld i off = true.
Proof.
  intros H.
  apply (checki_nth (fun k s => match nth_error FADT_ASSIGNABLE k with
                                | Some (i, w) => (w =? snd s)%nat && fadt_fld i (fst s)
                                | None => false
                                end) fadt_scalars 0 eq_refl) in H. cbn [fst snd Nat.add] in H.
  destruct (nth_error FADT_ASSIGNABLE k) as [[i w']|]; [|discriminate].
  apply andb_true_iff in H. destruct H as [Hw Hi]. apply Nat.eqb_eq in Hw. subst w'. eauto.
Qed.

(* direct assignment of scalar field k: the Spec writes at the field's offset what the model stores in the field *)
Lemma fadt_assign_sim oem tbl orev c v k x v' : length oem = 6%nat -> length tbl = 8%nat ->
  fadt_assign v k x = Some v' -> fadt_assign_m (fadt_flds oem tbl orev c v) k x = Some (fadt_flds oem tbl orev c v').
Proof.
  intros Ho Ht. unfold fadt_assign, fadt_assign_m.
  destruct (nth_error fadt_scalars (N.to_nat k)) as [[off w]|] eqn:E; [|discriminate].
  destruct (fadt_scalar_field _ _ _ E) as (i & -> & Hi).
  destruct (x <? 2 ^ (8 * N.of_nat w)) eqn:Hx; [|discriminate]. apply N.ltb_lt in Hx. intros [= <-].
  rewrite (N.mod_small _ _ Hx). f_equal. now apply fadt_flds_fset.
Qed.

(* the struct depends on the written values only through [val] *)
Lemma fadt_flds_ext oem tbl orev c v v' : (forall o, val v o = val v' o) -> fadt_flds oem tbl orev c v = fadt_flds oem tbl orev c v'.
Proof. intros H. rewrite !fadt_flds_split, !fadt_body_keyed. f_equal. apply keyed_ext. intros o. now rewrite H. Qed.

(* the model assigns the five fields of a GAS in declaration order, the Spec lists them newest first *)
Lemma val_gas_rev v off a b c d e o :
  val ((off + 4, e) :: (off + 3, d) :: (off + 2, c) :: (off + 1, b) :: (off, a) :: v) o =
  val ((off, a) :: (off + 1, b) :: (off + 2, c) :: (off + 3, d) :: (off + 4, e) :: v) o.
Proof.
  cbn [val].
  destruct (N.eqb_spec (off + 4) o), (N.eqb_spec (off + 3) o), (N.eqb_spec (off + 2) o), (N.eqb_spec (off + 1) o),
    (N.eqb_spec off o); try reflexivity; lia.
Qed.

(* the two tables of GAS-typed fields agree: the five fields of entry g of the model's start at the offset in entry g of the
   Spec's and at the next four *)
Definition fadt_gas_at (i : nat) (off : N) : bool :=
  fadt_fld i off && fadt_fld (1 + i) (off + 1) && fadt_fld (2 + i) (off + 2) && fadt_fld (3 + i) (off + 3) &&
  fadt_fld (4 + i) (off + 4).

Lemma fadt_gas_field g off : nth_error fadt_gas_offs g = Some off ->
  exists i, nth_error FADT_GAS_FIELDS g = Some i /\ fadt_gas_at i off = true.
Proof.
  intros H.
  apply (checki_nth (fun g off => match nth_error FADT_GAS_FIELDS g with Some i => fadt_gas_at i off | None => false end)
           fadt_gas_offs 0 eq_refl) in H. cbn [Nat.add] in H.
  destruct (nth_error FADT_GAS_FIELDS g) as [i|]; [eauto|discriminate].
Qed.

Lemma fadt_assign_gas_sim oem tbl orev c v g sp bw bo ac addr v' : length oem = 6%nat -> length tbl = 8%nat ->
  fadt_assign_gas v g sp bw bo ac addr = Some v' ->
  fadt_assign_gas_m (fadt_flds oem tbl orev c v) g sp bw bo ac addr = Some (fadt_flds oem tbl orev c v').
Proof.
  intros Ho Ht. unfold fadt_assign_gas, fadt_assign_gas_m.
  destruct (nth_error fadt_gas_offs (N.to_nat g)) as [off|] eqn:E; [|discriminate].
  destruct (fadt_gas_field _ _ E) as (i & -> & K). unfold fadt_gas_at in K. rewrite !andb_true_iff in K.
  destruct K as ((((K0 & K1) & K2) & K3) & K4).
  destruct (_ && _); [|discriminate]. intros [= <-].
  cbn [fvals gas_new gas_mk F map snd fset_seq]. f_equal.
  rewrite (fadt_flds_fset _ _ _ _ _ i _ _ Ho Ht K0), (fadt_flds_fset _ _ _ _ _ (1 + i) _ _ Ho Ht K1),
    (fadt_flds_fset _ _ _ _ _ (2 + i) _ _ Ho Ht K2), (fadt_flds_fset _ _ _ _ _ (3 + i) _ _ Ho Ht K3),
    (fadt_flds_fset _ _ _ _ _ (4 + i) _ _ Ho Ht K4).
  apply fadt_flds_ext, val_gas_rev.
Qed.

(* one call: whenever the Spec accepts it on the values [v], the model accepts it on the abstraction of [v] and reaches the
   abstraction of the Spec's new values.  The nine builder methods are fixed updates of named fields. *)
Lemma fadt_builder_sim oem tbl orev c v o v' : length oem = 6%nat -> length tbl = 8%nat ->
  fadt_apply v o = Some v' -> fadt_builder (fadt_flds oem tbl orev c v) o = Some (fadt_flds oem tbl orev c v').
Proof.
  intros Ho Ht. unfold fadt_apply, fadt_builder.
  repeat (match goal with
          | |- match flag_ref ?i with _ => _ end = Some _ -> _ => rewrite <- (flag_bits_ref i); destruct (flag_bits i)
          | |- match ?x with _ => _ end = Some _ -> _ => destruct x
          end; try discriminate);
  try (apply fadt_assign_sim; assumption); try (apply fadt_assign_gas_sim; assumption); intros [= <-];
  destruct oem as [|o0 [|o1 [|o2 [|o3 [|o4 [|o5 [|]]]]]]]; try discriminate;
  destruct tbl as [|t0 [|t1 [|t2 [|t3 [|t4 [|t5 [|t6 [|t7 [|]]]]]]]]]; try discriminate; reflexivity.
Qed.

Lemma fadt_run_sim md oem tbl orev c ops : length oem = 6%nat -> length tbl = 8%nat ->
  forall v v', fadt_fold v ops = Some v' ->
  run_steps (fadt_step md) (fadt_flds oem tbl orev c v) ops = Some (fadt_flds oem tbl orev c v').
Proof.
  intros Ho Ht. apply (fold_run_sim fadt_apply); try reflexivity.
  intros v o v' H. unfold fadt_step. rewrite (fadt_builder_sim _ _ _ _ _ _ _ Ho Ht H). eexists. reflexivity.
Qed.

(* the reference layout of the body (Spec/FadtS.v `fadt_layout`) assembles for all values *)
Lemma fadt_body_layout v : fadt_body v = Some (assemble (fadt_layout v)).
Proof. reflexivity. Qed.

(* per-field content: the packed struct after the header serialises to the reference layout, for all values *)
Lemma fadt_body_flds_ref v : ser_flds (fadt_body_flds v) = assemble (fadt_layout v).
Proof. reflexivity. Qed.

Lemma fadt_flds_ser oem tbl orev c v : bytes_ok oem = true -> bytes_ok tbl = true ->
  ser_flds (fadt_flds oem tbl orev c v) =
  ref_header [70; 65; 67; 80] 276 6 c oem tbl orev ++ assemble (fadt_layout v).
Proof.
  intros Bo Bt. rewrite fadt_flds_split, ser_flds_app, fadt_body_flds_ref. f_equal.
  unfold fadt_hdr_flds. rewrite !ser_flds_app, !ser_flds_fbytes, (mod256_bytes oem Bo), (mod256_bytes tbl Bt). reflexivity.
Qed.

Theorem fadt_image_is_reference oem tbl orev c v :
  length oem = 6%nat -> length tbl = 8%nat -> bytes_ok oem = true -> bytes_ok tbl = true ->
  fadt_image (fadt_flds oem tbl orev c v) =
  ref_table [70; 65; 67; 80] 6 {| ha_oem := oem; ha_tbl := tbl; ha_orev := orev |} (assemble (fadt_layout v)).
Proof.
  intros Ho Ht Bo Bt.
  pose proof (fadt_image_sum _ (fadt_flds_widths oem tbl orev c v Ho Ht)) as Hs.
  unfold fadt_image in *. rewrite fadt_finalize_eq in *. rewrite !fadt_flds_set_ck in *.
  set (g := generate_checksum _) in *. clearbody g.
  rewrite (fadt_flds_ser oem tbl orev g v Bo Bt) in *.
  apply (ref_table_unique [70; 65; 67; 80] 6 {| ha_oem := oem; ha_tbl := tbl; ha_orev := orev |}); [|exact Hs].
  rewrite length_assemble. reflexivity.
Qed.

Definition fadt_ctor_bytes (ctor : sx) : Prop :=
  match ctor with SL (o :: t :: _) => sx_is_bytes o /\ sx_is_bytes t | _ => True end.

(* an in-domain history contains no observation marker, and the model follows it to the reference image *)
Lemma fadt_refines_dom ctor ops r : ts_image fadt_spec ctor ops = Some r ->
  no_markers ops = true /\
  forall md, fadt_ctor_bytes ctor ->
    exists f0 f, fadt_new ctor = Some f0 /\ run_steps (fadt_step md) f0 ops = Some f /\ fadt_image f = r.
Proof.
  intros H. cbn [ts_image fadt_spec] in H. unfold fadt_ref_image in H.
  destruct ctor as [|l]; [discriminate|].
  destruct l as [|o [|t [|r0 [|x l]]]]; try discriminate.
  destruct (sx_hdr_args o t r0) as [ha|] eqn:Eh; [|discriminate].
  destruct (fadt_fold fadt_vals0 ops) as [v|] eqn:Ef; [|discriminate].
  split; [revert Ef; apply (fold_no_markers fadt_apply); reflexivity|intros md Hb].
  rewrite fadt_body_layout in H. injection H as <-.
  destruct (sx_hdr_args_inv _ _ _ _ Eh) as (Eo & Et & Er & Lo & Lt).
  destruct Hb as [Bo Bt]. specialize (Bo _ Eo). specialize (Bt _ Et).
  exists (fadt_flds (ha_oem ha) (ha_tbl ha) (ha_orev ha) 0 fadt_vals0),
         (fadt_flds (ha_oem ha) (ha_tbl ha) (ha_orev ha) 0 v).
  split; [|split].
  - unfold fadt_new. rewrite (sx_arr_of_bytes 6 o _ Eo Lo), (sx_arr_of_bytes 8 t _ Et Lt), Er. reflexivity.
  - apply fadt_run_sim; assumption.
  - rewrite (fadt_image_is_reference _ _ _ _ _ Lo Lt Bo Bt). destruct ha; reflexivity.
Qed.

Theorem fadt_refines :
  forall md ctor ops r,
    ts_image fadt_spec ctor ops = Some r ->
    fadt_ctor_bytes ctor ->
    exists f0 f, fadt_new ctor = Some f0 /\
                 run_steps (fadt_step md) f0 ops = Some f /\
                 fadt_image f = r.
Proof. intros md ctor ops r H. exact (proj2 (fadt_refines_dom ctor ops r H) md). Qed.

Corollary fadt_refines_run md ctor ops r :
  ts_image fadt_spec ctor ops = Some r -> fadt_ctor_bytes ctor ->
  exists f0 f, fadt_new ctor = Some f0 /\ fadt_run md f0 ops = Some f /\ fadt_image f = r.
Proof.
  intros H Hb. destruct (fadt_refines md ctor ops r H Hb) as (f0 & f & H1 & H2 & H3).
  exists f0, f. rewrite fadt_run_steps. auto.
Qed.

(* The excluded class: byte-array arguments that are not bytes.  The Spec puts the elements of oem_id / oem_table_id into the
   reference image as they are; the model serialises the [u8; 6] / [u8; 8] fields of the packed struct with `le 1` (mod 256).
   An S-expression case with an element >= 256 (which no Rust caller can express: the arguments are u8 arrays) is therefore
   inside the Spec's domain with a different image. *)
Example fadt_refines_refuted :
  exists ctor ops r,
    ts_image fadt_spec ctor ops = Some r /\
    forall md f0 f, fadt_new ctor = Some f0 -> run_steps (fadt_step md) f0 ops = Some f -> fadt_image f <> r.
Proof.
  exists (SL [SL [SA 256; SA 0; SA 0; SA 0; SA 0; SA 0]; SL [SA 0; SA 0; SA 0; SA 0; SA 0; SA 0; SA 0; SA 0]; SA 0]), [].
  exists (ref_table [70; 65; 67; 80] 6 {| ha_oem := [256; 0; 0; 0; 0; 0]; ha_tbl := repeatN 0 8; ha_orev := 0 |}
            (assemble (fadt_layout fadt_vals0))).
  split; [reflexivity|]. intros md f0 f [= <-] [= <-] E.
  (* byte 10, the first of oem_id: 256 in the reference image, 0 in the model's *)
  apply (f_equal (fun l => nth 10 l 0)) in E. discriminate E.
Qed.

(* the values the Spec's fold computes for the flags: the union (N.lor) of the requested flags' bits *)
Definition spec_flag_call (o : sx) : list N :=
  match o with
  | SL [SA 7; SA i] => match flag_ref i with Some b => [b] | None => [] end
  | _ => []
  end.

Lemma flag_call_spec o : flag_call o = spec_flag_call o.
Proof.
  unfold flag_call, spec_flag_call.
  repeat match goal with |- match ?x with _ => _ end = match ?x with _ => _ end => destruct x; try reflexivity end.
  rewrite flag_bits_ref. reflexivity.
Qed.

(* inside the Spec's domain a directly assigned Flags value is a dword *)
Lemma flags_cut_fits ops : forall v v' x, fadt_fold v ops = Some v' -> fst (flags_cut ops) = Some x -> x < 2 ^ 32.
Proof.
  induction ops as [|o ops IH]; intros v v' x H; [discriminate|]. cbn [fadt_fold] in H.
  destruct (fadt_apply v o) as [v1|] eqn:Ea; [|discriminate].
  cbn [flags_cut]. destruct (flags_cut ops) as [[y|] post] eqn:Ec; cbn [fst]; [intros Hc; apply (IH _ _ _ H); rewrite ?Ec; exact Hc|].
  destruct (flags_assigned o) as [y|] eqn:Ef; [|discriminate]. intros [= ->]. unfold flags_assigned in Ef.
  repeat match type of Ef with match ?z with _ => _ end = _ => destruct z; try discriminate Ef end. injection Ef as ->.
  change (fadt_apply v _) with (if x <? 2 ^ 32 then Some ((112, x) :: v) else None) in Ea.
  destruct (x <? 2 ^ 32) eqn:Hx; [now apply N.ltb_lt|discriminate].
Qed.

(* the Spec's Flags value is the model's Flags field (simulation), which obeys the flag law of Proofs/FadtP.v *)
Lemma fadt_fold_flags ops : forall v v', fadt_fold v ops = Some v' ->
  val v' 112 = fold_left N.lor (concat (map spec_flag_call (snd (flags_cut ops))))
                         (match fst (flags_cut ops) with Some x => x | None => val v 112 end).
Proof.
  intros v v' H.
  pose proof (fadt_run_sim Wrapping (repeatN 0 6) (repeatN 0 8) 0 0 ops eq_refl eq_refl v v' H) as Hr.
  rewrite <- fadt_run_steps in Hr. apply fadt_flag_law in Hr; [|apply Nat.ltb_lt; reflexivity].
  change (val v' 112 = fold_left N.lor (flag_calls (snd (flags_cut ops)))
                         (match fst (flags_cut ops) with Some x => x mod 2 ^ 32 | None => val v 112 end)) in Hr.
  rewrite Hr. unfold flag_calls. rewrite (map_ext _ _ flag_call_spec).
  destruct (fst (flags_cut ops)) as [x|] eqn:Ec; [|reflexivity].
  now rewrite (N.mod_small x) by exact (flags_cut_fits _ _ _ _ H Ec).
Qed.

(* C11 through the refinement: in every in-domain history, the Flags dword (offset 112) of the MODEL's finalized image is the
   value of the last direct assignment `b.flags = v` (op (10 35 v); 0 when the history has none) united with the bits of the
   flags requested by the flag() calls made after that assignment ((base, post) = flags_cut ops, Proofs/FadtP.v), whatever
   the order, the repetitions and the other builder calls and assignments *)
Corollary fadt_refines_flags md ctor ops r :
  ts_image fadt_spec ctor ops = Some r -> fadt_ctor_bytes ctor ->
  exists f0 f, fadt_new ctor = Some f0 /\ run_steps (fadt_step md) f0 ops = Some f /\
               field_at (fadt_image f) 112 4 =
               fold_left N.lor (concat (map spec_flag_call (snd (flags_cut ops))))
                         (match fst (flags_cut ops) with Some v => v | None => 0 end) mod 2 ^ 32.
Proof.
  intros H Hb. destruct (fadt_refines md ctor ops r H Hb) as (f0 & f & Hn & Hr & Hi).
  exists f0, f. split; [exact Hn|]. split; [exact Hr|].
  rewrite <- fadt_run_steps in Hr.
  rewrite (fadt_flags_in_image md ctor ops f0 f Hn Hr). unfold flag_calls. now rewrite (map_ext _ _ flag_call_spec).
Qed.

(* the two readings: no direct assignment of `flags` in the history: the union of all the flags requested;
   a last assignment `flags = v` followed by [post]: v united with post's flags *)
Corollary fadt_refines_flags_no_assign md ctor ops r :
  ts_image fadt_spec ctor ops = Some r -> fadt_ctor_bytes ctor -> no_flags_assignment ops ->
  exists f0 f, fadt_new ctor = Some f0 /\ run_steps (fadt_step md) f0 ops = Some f /\
               field_at (fadt_image f) 112 4 = fold_left N.lor (concat (map spec_flag_call ops)) 0 mod 2 ^ 32.
Proof.
  intros H Hb Hn. destruct (fadt_refines_flags md ctor ops r H Hb) as (f0 & f & H1 & H2 & H3).
  exists f0, f. rewrite (flags_cut_none ops Hn) in H3. auto.
Qed.

Corollary fadt_refines_flags_after_assign md ctor pre v post r :
  ts_image fadt_spec ctor (pre ++ SL [SA 10; SA 35; SA v] :: post) = Some r -> fadt_ctor_bytes ctor ->
  no_flags_assignment post ->
  exists f0 f, fadt_new ctor = Some f0 /\ run_steps (fadt_step md) f0 (pre ++ SL [SA 10; SA 35; SA v] :: post) = Some f /\
               field_at (fadt_image f) 112 4 = fold_left N.lor (concat (map spec_flag_call post)) v mod 2 ^ 32.
Proof.
  intros H Hb Hn. destruct (fadt_refines_flags md ctor _ r H Hb) as (f0 & f & H1 & H2 & H3).
  exists f0, f. rewrite (flags_cut_last pre v post Hn) in H3. auto.
Qed.

(* Non-vacuity, a history mixing builder calls, direct assignments and observations: dsdt_64, flag(Wbinvd), sci_int = 9, hypervisor_vendor_identity with a non-zero upper half, x_pm1a_evt_blk = GAS::new(SystemIo,
   32, 0, DwordAccess, 0x600), flags = 0x00100000 (dropping Wbinvd), flag(Headless), fadt_minor_version = 4, dsdt = 0x1234 (direct:
   X_DSDT keeps the dsdt_64 value), gpe_info, gpe1_base = 7 (direct, after gpe_info): the Spec accepts it, the model's case
   entry point emits the reference image at each of the three observations, the image sums to 0, carries every value at its
   ACPI 6.5 offset, and its last four bytes are the upper half of the vendor identity. *)
Definition fadt_example_ctor : sx :=
  SL [SL [SA 79; SA 69; SA 77; SA 95; SA 73; SA 68]; SL [SA 84; SA 65; SA 66; SA 76; SA 69; SA 95; SA 73; SA 68]; SA 1].
Definition fadt_example_ops1 : list sx :=
  [SL [SA 2; SA 0x800000000000]; SL [SA 7; SA 0]; SL [SA 10; SA 3; SA 9]; SL [SA 10; SA 41; SA 0xA1B2C3D400000005]].
Definition fadt_example_ops2 : list sx :=
  [SL [SA 11; SA 1; SA 1; SA 32; SA 0; SA 3; SA 0x600]; SL [SA 10; SA 35; SA 0x100000]; SL [SA 7; SA 12]].
Definition fadt_example_ops3 : list sx :=
  [SL [SA 10; SA 38; SA 4]; SL [SA 10; SA 1; SA 0x1234]; SL [SA 8; SA 0x1800; SA 0x1900; SA 32; SA 32; SA 16]; SL [SA 10; SA 23; SA 7]].
Definition fadt_example_ops : list sx := fadt_example_ops1 ++ fadt_example_ops2 ++ fadt_example_ops3.

Example fadt_refines_nonvacuous :
  exists r1 r2 r,
    ts_image fadt_spec fadt_example_ctor fadt_example_ops1 = Some r1 /\
    ts_image fadt_spec fadt_example_ctor (fadt_example_ops1 ++ fadt_example_ops2) = Some r2 /\
    ts_image fadt_spec fadt_example_ctor fadt_example_ops = Some r /\
    (forall md, exists evs1 evs2 evs3,
        fadt_case md (SL (fadt_example_ctor :: fadt_example_ops1 ++ [SA 1] ++ fadt_example_ops2 ++ [SA 1]
                                            ++ fadt_example_ops3 ++ [SA 1]))
        = evs1 ++ [EvBytes r1] ++ evs2 ++ [EvBytes r2] ++ evs3 ++ [EvBytes r]) /\
    length r = 276%nat /\ sum8 r = 0 /\
    field_at r 46 2 = 9 /\                                  (* SCI_INT *)
    field_at r 40 4 = 0x1234 /\ field_at r 140 8 = 0x800000000000 /\     (* DSDT (direct), X_DSDT (dsdt_64) *)
    field_at r 112 4 = 0x101000 /\                          (* Flags: assigned HwReducedAcpi, then flag(Headless); Wbinvd gone *)
    field_at r 131 1 = 4 /\                                 (* FADT minor version *)
    field_at r 94 1 = 7 /\ field_at r 92 1 = 32 /\          (* GPE1_BASE (direct, last writer), GPE0_BLK_LEN (gpe_info) *)
    firstn 12 (skipn 148 r) = [1; 32; 0; 3; 0; 6; 0; 0; 0; 0; 0; 0] /\    (* X_PM1a_EVT_BLK *)
    field_at r 268 8 = 0xA1B2C3D400000005 /\ skipn 272 r = [0xD4; 0xC3; 0xB2; 0xA1] /\
    field_at r1 112 4 = 1 /\ field_at r2 112 4 = 0x101000.
Proof.
  eexists; eexists; eexists.
  split; [vm_compute; reflexivity|]. split; [vm_compute; reflexivity|]. split; [vm_compute; reflexivity|].
  split.
  - intros md. exists [EvNum 0; EvNum 0; EvNum 0; EvNum 0], [EvNum 0; EvNum 0; EvNum 0], [EvNum 0; EvNum 0; EvNum 0; EvNum 0].
    vm_compute. reflexivity.
  - vm_compute. repeat split; reflexivity.
Qed.

Print Assumptions fadt_refines.
Print Assumptions fadt_refines_refuted.
Print Assumptions fadt_refines_flags.
Print Assumptions fadt_refines_nonvacuous.
