(* HEST, property C03, per-entry part.
   The statement "the reference image of every in-domain history passes the self-check" is FALSE as such for the HEST
   component: by the observation protocol of component 21 (Spec/HestS.v) the "image" observed right after a stand-alone
   error structure (ops 20 / 21) is that structure, not the table ([hest_selfcheck_refuted]).  For every other history it
   holds ([hest_selfcheck]): the error sources have the size the specification assigns to their type, the notification
   structure embedded in a generic hardware error source carries its length 28, and the walk lands on the end. *)
From Coq Require Import NArith List Lia Arith.
From ACPI Require Import Lib.Bytes Lib.Sx Spec.Layout Spec.GasS Spec.HestS Spec.SelfCheck Judge
  Proofs.WalkP Proofs.WalkRefCommon2P Proofs.SelfCommonP Proofs.BaseP Proofs.HestP Proofs.HestWalkP Proofs.HestRefP.
Import ListNotations.
Open Scope N_scope.

Definition hest_ty (e : list N) : N := field_at e 0 2.

Lemma notif_ref_len nty nst nt : notif_ref nty nst = Some nt -> exists n0 rest, nt = n0 :: 28 :: rest.
Proof.
  unfold notif_ref. destruct (_ && _); [|discriminate]. intros H.
  unfold lay in H. destruct (_ && _); [|discriminate H]. apply Some_inj in H. subst nt.
  unfold L. rewrite !assemble_cons. cbn [le app]. eexists. eexists. reflexivity.
Qed.

(* the notification structure embedded in a generic hardware error source (offset 32) carries its length *)
Lemma ghes_ref_notif_len ty id en st e : ghes_ref ty id en st = Some e -> field_at e 33 1 = 28.
Proof.
  intros H. unfold ghes_ref in H.
  destruct (_ && _); [|discriminate H].
  destruct (gas_arg 4 st) as [esa|]; [|discriminate H].
  match type of H with | match ?n with _ => _ end = Some _ => destruct n as [nt|] eqn:Ent; [|discriminate H] end.
  destruct (gas_arg 7 st) as [rar|]; [|discriminate H].
  assert (Hshape : exists n0 rest, nt = n0 :: 28 :: rest).
  { destruct (last_call 5 st None) as [[|[|nty] [|[|nst] [|]]]|]; try discriminate Ent; exact (notif_ref_len _ _ _ Ent). }
  destruct Hshape as (n0 & nrest & ->).
  rewrite (proj2 (lay_decodes _ _ _ H) 33%nat 1%nat 28); [reflexivity|].
  apply in_or_app. right. apply in_or_app. right. apply in_or_app. left. cbn [LB]. right. left. reflexivity.
Qed.

(* The reference entry is the model's structure for the same source (strand 3), which has the type code and size of its type
   (`hest_src_struct`): that is the first half of the self-check and the size test of the second. *)
Lemma hest_src_good d e : hest_src_ok d -> hest_src_ref d = Some e -> entry_good H_hest 21 hest_ty e.
Proof.
  intros Hok H. destruct (hest_src_agrees d e Hok H) as (f & Hf & <-).
  pose proof (hest_src_struct d f Hok Hf) as Hst.
  unfold entry_good, hest_ty. rewrite (proj1 Hst). split; [exact (hest_struct_self _ _ Hst)|].
  cbn [entry_self_ok]. unfold hest_self. rewrite (proj2 Hst). cbn [fixed_ok]. rewrite Nat.eqb_refl.
  destruct d as [ty c st|ty id en st]; cbn [hest_src_ty hest_src_ok hest_src_ref] in *.
  - destruct Hok as [->|[->| ->]]; reflexivity.
  - rewrite (ghes_ref_notif_len _ _ _ _ _ H). destruct Hok as [->| ->]; reflexivity.
Qed.

Lemma hest_entry_good o e : hest_entry_ref o = Some e -> entry_good H_hest 21 hest_ty e.
Proof.
  intros H. destruct (hest_entry_ref_cases o e H) as (d & Hop & Hd). exact (hest_src_good d e (hest_op_ok o d Hop) Hd).
Qed.

Lemma hest_image_shape ctor ops r : ts_image hest_spec ctor ops = Some r -> shows_alone ops = false ->
  exists es, hest_entries_ref ops = Some es /\ N.of_nat (length es) < 2 ^ 32 /\
    Forall (entry_good H_hest 21 hest_ty) es /\ ref_image [72; 69; 83; 84] [L 36 4 (N.of_nat (length es))] es r.
Proof.
  intros H Hal. cbn [ts_image hest_spec] in H. unfold hest_image in H.
  destruct ctor as [|[|o [|t [|rr [|]]]]]; try discriminate H.
  destruct (sx_hdr_args o t rr) as [ha|] eqn:Eha; [|discriminate H].
  destruct (hest_entries_ref ops) as [es|] eqn:Ees; [|discriminate H].
  rewrite Hal in H.
  destruct (N.ltb_spec (N.of_nat (length es)) (2 ^ 32)) as [Hc|]; [|discriminate H].
  apply Some_inj in H. subst r. exists es. split; [reflexivity|]. split; [exact Hc|]. split.
  - exact (opt_seq_forall _ _ hest_entry_good _ es Ees).
  - exact (ref_image_intro o t rr ha _ _ es Eha).
Qed.

Theorem hest_selfcheck : forall ctor ops r,
  ts_image hest_spec ctor ops = Some r -> shows_alone ops = false -> c03_self 21 r = true.
Proof.
  intros ctor ops r H Hal. destruct (hest_image_shape ctor ops r H Hal) as (es & _ & _ & HG & Hr).
  exact (ref_image_selfcheck 21 H_hest _ _ _ es r Hr eq_refl HG).
Qed.

(* the reference image is also exactly tiled, with the right source count, in the sense of [c03_judge] *)
Theorem hest_reference_tiles : forall ctor ops r,
  ts_image hest_spec ctor ops = Some r -> c03_judge hest_spec ctor r ops = true.
Proof.
  intros ctor ops r H.
  destruct (shows_alone ops) eqn:Hal.
  { unfold c03_judge. cbn [ts_walk ts_entries hest_spec]. rewrite Hal. reflexivity. }
  destruct (hest_image_shape ctor ops r H Hal) as (es & Ees & Hc & HG & Hr).
  apply (ref_image_tiles _ _ es r Hr eq_refl hest_spec ctor ops H_hest hest_ty); try reflexivity.
  - cbn [ts_entries hest_spec]. rewrite Hal, Ees. reflexivity.
  - exact (entry_good_self _ _ _ es HG).
  - intros o w v [E|[]]. injection E as <- <- <-. split; [left; reflexivity|exact Hc].
Qed.

(* the unrestricted statement fails: after a stand-alone generic error status block the observation is that 20-byte block *)
Definition hest_ctor_ex : sx := SL [SL (map SA [65;66;67;68;69;70]); SL (map SA [1;2;3;4;5;6;7;8]); SA 1].
Definition hest_ops_ex : list sx := [SL [SA 20; SL [SA 0; SA 1]; SA 1]].

Example hest_selfcheck_refuted :
  exists r, ts_image hest_spec hest_ctor_ex hest_ops_ex = Some r /\ c03_self 21 r = false.
Proof. eexists. split; [vm_compute; reflexivity|vm_compute; reflexivity]. Qed.

Print Assumptions hest_selfcheck.
Print Assumptions hest_reference_tiles.
Print Assumptions hest_selfcheck_refuted.
