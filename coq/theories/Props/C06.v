(* C06 -- emitted AML parses back to exactly the term tree the caller built.  Statements; the proofs are in
   Proofs/AmlRoundTrip.v and Proofs/EncBytesP.v.

   c06_roundtrip is the full parse-back statement for every tree over the constructors
     ZERO ONE ONES, integers (all five carrier types), strings, Path, field names, EISAName, Uuid, BufferData, Arg, Local,
     ObjectType SizeOf Return DeRefOf BufferTerm VarPackageTerm, the six comparisons, Store Notify ToBuffer ToInteger,
     the 17 binary operators, CreateField Mid, Name Device Scope Scope::raw Method PowerResource OpRegion Mutex Acquire
     Release MethodCall, Field (name, flags byte, field list of named / reserved entries), Package PackageBuilder,
     ResourceTemplate (a Buffer whose payload is its descriptors' bytes and the end tag), If Else While
   of any shape, depth and body size (all four PkgLength widths).  Well-formedness (Proofs/AmlRoundTrip.v [wf]) asks of a
   Field: access < 16, lock <= 1, update < 4, every named entry a NameSeg, every width < 2^28; of a ResourceTemplate: every
   child a bare descriptor.  A bare descriptor is not an AML object, so it is not a term of its own here (only a child of a
   ResourceTemplate); the descriptors' own layout is the subject of the C10 theorems. *)
From Coq Require Import NArith List.
From ACPI Require Import Lib.Bytes Lib.Sx Impl.AmlCore Impl.AmlTerm Spec.AmlCoreS Spec.AmlTermS
  Proofs.PkgLenP Proofs.FrameSitesP Proofs.AmlRoundTrip Proofs.EncBytesP.
Import ListNotations.
Open Scope N_scope.

(* For every arity environment env (the only outside knowledge: how many arguments each invoked name takes), every
   well-formed term t, in term position or package-element position (el), in both build profiles: if the implementation
   model emits bytes b for t, then the tree [norm el t] exists and the Spec parser, given any fuel above the nesting depth,
   reads from b ++ r exactly that tree and stops exactly at r -- for every continuation r.  In particular (r = []) the
   bytes are consumed completely, and every length-delimited object ends exactly where its last child ends. *)
Theorem c06_roundtrip :
  forall env t el md b,
    wf env el t -> enc md t = Some b -> N.of_nat (length b) < 2 ^ 63 ->
    exists g, norm el t = Some g /\
              forall f, (depth t < f)%nat -> forall r, parse env f el (b ++ r) = Some (g, r).
Proof. intros env t. exact (roundtrip env t). Qed.

(* every length-delimited object: the PkgLength the code computes for a body makes the Spec's object splitter
   recover exactly that body and stop exactly at its end, whatever follows (all four widths, all body sizes) *)
Theorem c06_frames :
  forall md body pl r,
    N.of_nat (length body) < 2 ^ 63 ->
    pkg_len md (N.of_nat (length body)) true = Some pl ->
    take_pkg (pl ++ body ++ r) = Some (body, r).
Proof. exact take_pkg_framed. Qed.

(* non-vacuity: a nested tree (Device { Name(_HID, EISA) ; Method(1 arg){ If (Arg0 == 5) { Return (Local0) } } }) is
   well-formed, is emitted, and parses back *)
Definition c06_demo : term :=
  TDevice [95; 83; 66; 95; 46; 67; 79; 77; 49]
    [TName [95; 72; 73; 68] (TEisa [80; 78; 80; 48; 53; 48; 49]);
     TMethod [84; 69; 83; 84] 1 0 [TIf (TOp2 0 (TArg 0) (TInt 8 5)) [TOp1 2 (TLocal 0)]]].

Example c06_demo_parses :
  match enc Wrapping c06_demo with
  | Some b => parse (fun _ => O) 10 false b = option_map (fun g => (g, [])) (norm false c06_demo) /\ norm false c06_demo <> None
  | None => False
  end.
Proof. vm_compute. split; [reflexivity|discriminate]. Qed.

Print Assumptions c06_roundtrip.
Print Assumptions c06_frames.

(* In the model the encoder returns a list of natural numbers; in Rust it feeds a sink of u8.  This is the missing link:
   if every constructor argument that the encoder copies into its output as it stands is inside the range of the type it
   has in the crate's API -- [typed t]: the u8 arguments (a u8 integer, PowerResource level, Mutex sync level, OpRegion
   space, IO alignment/length, the four Register bytes) < 256; the bool arguments (Method serialized, Memory32Fixed and
   AddressSpace read_write, the four Interrupt flags) <= 1; Field access < 16, lock <= 1, update < 4; AddressSpace type one
   of the three constructors; strings, name texts, field names, named field entries and BufferData made of bytes -- then
   in both build profiles everything the encoder emits for t is a byte.  No hypothesis is needed for anything else: the
   other arguments go through a cast, a little-endian image, a mask, a PkgLength or a refusal before they reach the output.
   The check is decidable ([typed t] is [typedb t = true]). *)
Theorem c06_encoder_emits_bytes :
  forall md t b, typed t -> enc md t = Some b -> bytes_ok b = true.
Proof. exact enc_bytes_ok. Qed.

(* the pieces, each on its own: child lists, descriptors, field entries, PkgLength *)
Theorem c06_encoder_pieces_emit_bytes :
  (forall md ks b, Forall typed ks -> encs md ks = Some b -> bytes_ok b = true) /\
  (forall d b, typed_desc d -> enc_desc d = Some b -> bytes_ok b = true) /\
  (forall md e b, typed_fentry e -> enc_fentry md e = Some b -> bytes_ok b = true) /\
  (forall md len incl b, pkg_len md len incl = Some b -> bytes_ok b = true).
Proof. exact (conj encs_bytes_ok (conj enc_desc_bytes_ok (conj enc_fentry_bytes_ok pkg_len_bytes_ok))). Qed.

(* For the terms c06_roundtrip speaks about most of [typed] is already implied: a well-formed term is typed as soon as
   its strings and BufferData are made of bytes and the descriptors inside its ResourceTemplates are typed ([rawb t]). *)
Theorem c06_wellformed_is_typed :
  forall env el t, wf env el t -> rawb t = true -> typed t.
Proof. exact wf_raw_typed. Qed.

(* non-vacuity: the demo tree is typed and its encoding (both profiles) is a byte list; and the hypothesis is needed:
   a string with a 300 in it is well-formed, is not typed, and the 300 is emitted *)
Example c06_demo_typed :
  typed c06_demo /\
  match enc Wrapping c06_demo, enc Checked c06_demo with
  | Some b, Some b' => bytes_ok b = true /\ bytes_ok b' = true /\ b <> []
  | _, _ => False
  end.
Proof. vm_compute. repeat split; discriminate. Qed.

Example c06_typed_needed :
  typedb (TStr [300]) = false /\ enc Checked (TStr [300]) = Some [0x0D; 300; 0] /\ bytes_ok [0x0D; 300; 0] = false.
Proof. vm_compute. repeat split. Qed.

Print Assumptions c06_encoder_emits_bytes.
Print Assumptions c06_encoder_pieces_emit_bytes.
Print Assumptions c06_wellformed_is_typed.
