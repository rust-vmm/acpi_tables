(* VIOT: every node an accepted add_* pushes describes itself (type u8, reserved u8, length u16) -- the walk instance for
   C03 -- and the narrow fields of the table hold the true values (C18):
     node length (u16 at offset 2 of each node), the table's node count (u16 at offset 36) and node offset (u16 at 38).
   The node count is emitted as `nodes.len() as u16` (a truncating cast), but the u16 handle offset is advanced with
   checked_add(..).expect(..), which refuses -- in both build profiles -- as soon as the table would reach 65536 bytes;
   every node has at least one byte, so there are fewer nodes than bytes and the cast never truncates. *)
From Coq Require Import NArith List Lia.
From ACPI Require Import Lib.Bytes Lib.Machine Impl.Table Impl.Viot Spec.Layout Proofs.TableP Proofs.FixedP Proofs.WalkP
  Proofs.Tables Proofs.ViotP Proofs.WalkW3Common Proofs.BaseP Proofs.ViotStructP.
Import ListNotations.
Open Scope N_scope.

(* every node describes itself; it has no caller-controlled size, so there is nothing to refuse at this site *)
Lemma viot_addition_self s o e : viot_addition s o = Some e -> exists ty, self_describing H_u8_x_u16 (a_bytes e) ty.
Proof. intros H. apply viot_addition_cases in H as (d & _ & ->). eexists. exact (viot_node_self d). Qed.

Lemma viot_new_empty c s0 : viot_new c = Some s0 -> t_ents s0 = [].
Proof. exact (plain_new_empty KViot _ _ c s0). Qed.

Definition viot_walk : walktable :=
  {| wt_table := viot_table; wt_ehdr := H_u8_x_u16; wt_self := viot_addition_self; wt_new_empty := viot_new_empty |}.

(* the u16 at offset 2 of every node is the number of bytes the node occupies *)
Lemma viot_node_length_exact s o e :
  viot_addition s o = Some e -> field_at (a_bytes e) 2 2 = N.of_nat (length (a_bytes e)).
Proof. exact (walktable_entry_len_field viot_walk 1 1 2 s o e eq_refl). Qed.

(* the size of a node is one of the constants 24 / 16, which is also the length the table header is advanced by *)
Lemma viot_node_sizes s o e : viot_addition s o = Some e ->
  (length (a_bytes e) = 24%nat \/ length (a_bytes e) = 16%nat) /\ a_claimed e = N.of_nat (length (a_bytes e)).
Proof.
  intros H. apply viot_addition_cases in H as (d & _ & ->). cbn [viot_node_addition a_bytes a_claimed].
  rewrite viot_node_length. split; [exact (viot_node_size_cases d)|reflexivity].
Qed.

(* one accepted step keeps the kind and leaves the u16 handle offset below 2^16: checked_add(..).expect(..) *)
Lemma viot_step_hoff md s o s' evs :
  t_kind s = KViot -> add_step viot_addition md s o = Some (s', evs) -> t_kind s' = KViot /\ t_hoff s' < 2 ^ 16.
Proof.
  intros Hk H. destruct (add_step_Some _ _ _ _ _ _ H) as (e & s1 & h & _ & Ha & -> & _).
  destruct (tbl_add_Some _ _ _ _ _ _ _ Ha) as (_ & Hk1 & _ & _ & _ & _ & _ & _ & _ & Hrest).
  rewrite Hk in Hrest. destruct (add_c_Some _ _ _ _ (proj2 Hrest)) as [Hr Hlt].
  split; [exact (eq_trans Hk1 Hk)|]. cbn [set_flag t_hoff]. rewrite Hr. exact Hlt.
Qed.

Lemma viot_run_hoff md ops : forall s s',
  t_kind s = KViot -> t_hoff s < 2 ^ 16 -> run_adds viot_addition md s ops = Some s' -> t_kind s' = KViot /\ t_hoff s' < 2 ^ 16.
Proof.
  intros s s' Hk Hh. rewrite run_adds_run_steps.
  apply (run_steps_inv _ (fun s => t_kind s = KViot /\ t_hoff s < 2 ^ 16)); [|now split].
  intros s1 o s2 evs [Hk1 _]. now apply viot_step_hoff.
Qed.

Lemma lt_u16_u32 n : n < 2 ^ 16 -> n < 2 ^ 32.
Proof. change (2 ^ 16) with 65536. change (2 ^ 32) with 4294967296. lia. Qed.

(* the invariant together with "shorter than 2^16 bytes" is preserved by every accepted step: the image grows by 24 or
   16 bytes, so it stays below 2^32, where the generic invariant applies; and the invariant says that the handle offset
   is the image size *)
Lemma viot_run_small md ops s s' :
  Inv2 KViot s -> N.of_nat (length (tbl_image s)) < 2 ^ 16 -> run_adds viot_addition md s ops = Some s' ->
  Inv2 KViot s' /\ N.of_nat (length (tbl_image s')) < 2 ^ 16.
Proof.
  intros I Hl. rewrite run_adds_run_steps.
  apply (run_steps_inv _ (fun s => Inv2 KViot s /\ N.of_nat (length (tbl_image s)) < 2 ^ 16)); [|now split].
  clear. intros s o s1 evs [I Hl] E. pose proof I as (I0 & HK & _).
  pose proof (viot_step_hoff md s o s1 evs HK E) as [_ Hh1].
  destruct (add_step_length viot_addition md s o s1 evs (inv_hdr s I0) E) as (e & Ee & Hlen).
  pose proof (viot_node_sizes s o e Ee) as [Hsz _].
  assert (Hfit : N.of_nat (length (tbl_image s1)) < 2 ^ 32).
  { rewrite Hlen. change (2 ^ 16) with 65536 in Hl. change (2 ^ 32) with 4294967296. destruct Hsz as [Hz|Hz]; rewrite Hz; lia. }
  pose proof (add_step_inv KViot viot_addition viot_addition_sound md s o s1 evs I E Hfit) as (I1 & _).
  split; [exact I1|]. rewrite <- (inv_hoff s1 (proj1 I1)). exact Hh1.
Qed.

(* every accepted history: the table is shorter than 2^16 bytes *)
Lemma viot_history_small md c ops s0 s :
  viot_new c = Some s0 -> run_adds viot_addition md s0 ops = Some s -> N.of_nat (length (tbl_image s)) < 2 ^ 16.
Proof.
  intros Hn Hr. pose proof (viot_new_inv c s0 Hn) as I0. refine (proj2 (viot_run_small md ops s0 s I0 _ Hr)).
  rewrite <- (inv_hoff s0 (proj1 I0)). destruct (plain_new_shape KViot _ _ c s0 Hn) as [h ->]. reflexivity.
Qed.

(* the u16 node count at offset 36 is the number of nodes added, and the u16 node offset at 38 is where the first node
   starts (48), after every accepted history, in both build profiles *)
Theorem viot_node_count_exact md c ops s0 s :
  viot_new c = Some s0 -> run_adds viot_addition md s0 ops = Some s ->
  field_at (tbl_image s) 36 2 = N.of_nat (length (t_ents s)) /\
  field_at (tbl_image s) 38 2 = 48 /\
  (36 + length (mid (t_kind s) (t_pre s) 0))%nat = 48%nat.
Proof.
  intros Hn Hr.
  pose proof (viot_history_small md c ops s0 s Hn Hr) as Hlen.
  pose proof (addtable_reach viot_table md c ops s0 s Hn Hr (lt_u16_u32 _ Hlen)) as I2. cbn [at_kind viot_table] in I2.
  pose proof I2 as (I & Hk & _).
  (* fewer nodes than bytes *)
  assert (Hcnt : (length (t_ents s) <= length (tbl_image s))%nat) by (apply (Inv2_ents_fit KViot s I2); now rewrite Hk).
  change (2 ^ 16) with 65536 in Hlen. unfold field_at.
  change 38%nat with (36 + 2)%nat. rewrite <- skipn_skipn_add, (image_after_header s (inv_hdr s I)), Hk. cbn [mid].
  unfold w2. rewrite <- !app_assoc, skipn_le_app, !firstn_le_app, (inv_cnt s I).
  split; [|split; reflexivity]. apply (unle_le_below 2 _ 65536 eq_refl). lia.
Qed.

(* refusal: an addition that would take the table to 65536 bytes or more is refused in both build profiles (this is
   what keeps the node count inside its field) *)
Theorem viot_offset_refuses md s o e :
  t_kind s = KViot -> viot_addition s o = Some e -> 2 ^ 16 <= t_hoff s + N.of_nat (length (a_bytes e)) ->
  add_step viot_addition md s o = None.
Proof.
  intros Hk He Hbig. unfold add_step. rewrite He. cbn [option_bind].
  destruct (viot_node_sizes s o e He) as [Hsz Hcl].
  unfold tbl_add. rewrite Hk.
  destruct (add_c U32 (cast U32 (a_claimed e)) (t_len s)); [|reflexivity]. cbn [option_bind].
  unfold add_c, cast, U16. rewrite (N.mod_small (a_claimed e)).
  - rewrite Hcl. destruct (N.ltb_spec (t_hoff s + N.of_nat (length (a_bytes e))) (2 ^ 16)); [lia|reflexivity].
  - rewrite Hcl. change (2 ^ 16) with 65536. destruct Hsz as [Hz|Hz]; rewrite Hz; lia.
Qed.

(* after every accepted history every node carries its true size *)
Corollary viot_history_node_lengths md c ops s0 s :
  viot_new c = Some s0 -> run_adds viot_addition md s0 ops = Some s ->
  Forall (fun e => field_at e 2 2 = N.of_nat (length e)) (t_ents s).
Proof.
  intros Hn Hr. apply (walktable_history_len_fields viot_walk 1 1 2 md c ops s0 s eq_refl Hn Hr).
  exact (lt_u16_u32 _ (viot_history_small md c ops s0 s Hn Hr)).
Qed.

Print Assumptions viot_walk.
Print Assumptions viot_node_length_exact.
Print Assumptions viot_history_small.
Print Assumptions viot_node_count_exact.
Print Assumptions viot_offset_refuses.
Print Assumptions viot_history_node_lengths.
