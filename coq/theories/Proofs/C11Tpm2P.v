(* TCPA server table (tpm2.rs TpmServer1_2).  What a history leaves in the model state: the 64-byte body is the fold of the
   builder over the calls, the header is the constructor's, the checksum byte is recomputed (`srv_body_run`, `srv_frame`).
   What one builder call writes into the body (two flag bytes: device flags and interrupt flags) and which calls carry which
   bit (`tcpa_step`): from it checksum and length of every emitted table (`tpmserver_sum_len`), and the theorem about the 100
   emitted bytes, c11_tcpa_server in Props/C11.v. *)
From Coq Require Import NArith List Lia.
From ACPI Require Import Lib.Bytes Lib.Sx Impl.Checksum Impl.Table Impl.Fields Impl.Madt Impl.Tpm2 Spec.Layout Spec.OptionsS
  Proofs.ChecksumP Proofs.FadtP Proofs.TableP Proofs.FixedP Proofs.C11CommonP Proofs.BaseP.
Import ListNotations.
Open Scope N_scope.

Definition TCPA_WS : list nat := Eval vm_compute in widths tpmserver_body0.

(* one element of a history: observation markers (atoms) are skipped by the runner *)
Definition tcpa_st (f : flds) (o : sx) : option flds := match o with SA _ => Some f | _ => tpmserver_builder f o end.

Lemma tpmserver_new_shape c s : tpmserver_new c = Some s ->
  hdr_ok (sv_hdr s) = true /\ sv_body s = tpmserver_body0 /\ sum8 (tpmserver_bytes s) = 0.
Proof.
  destruct c as [|[|o [|t [|r [|]]]]]; try discriminate. cbn [tpmserver_new].
  destruct (sx_hdr _ _ o t r) as [h|] eqn:Eh; [|discriminate]. intros H. apply Some_inj in H. subst s.
  pose proof (sx_hdr_ok _ _ _ _ _ _ Eh eq_refl) as Hh.
  split; [exact Hh|]. split; [reflexivity|].
  unfold tpmserver_bytes, tpmserver_bytes_ck. cbn [sv_hdr sv_cks sv_body]. rewrite <- !ck_append_app.
  (* only the two non-zero fields of the default body are fed to the checksum *)
  apply hdr_image_good; [exact Hh|now rewrite !zsum_app|reflexivity|reflexivity].
Qed.

(* the runner accepts a history exactly when the builder chain does, and then holds the chain's body *)
Lemma srv_body_run md : forall ops s,
  option_map sv_body (run_steps (tpmserver_step md) s ops) = fold_opt tcpa_st (sv_body s) ops.
Proof.
  induction ops as [|o ops IH]; intros s; [reflexivity|]. cbn [run_steps fold_opt].
  destruct o as [n|l]; [exact (IH s)|]. unfold tpmserver_step. cbn [tcpa_st].
  destruct (tpmserver_builder (sv_body s) (SL l)) as [f|]; [|reflexivity]. exact (IH (tpmserver_update s f)).
Qed.

(* every builder recomputes the checksum over the whole struct: the byte does not depend on the previous one *)
Lemma srv_frame md s0 ops s : run_steps (tpmserver_step md) s0 ops = Some s ->
  sv_hdr s = sv_hdr s0 /\ (s = s0 \/ sv_cks s = generate_checksum (tpmserver_bytes_ck s 0)).
Proof.
  apply (run_steps_inv (tpmserver_step md)
           (fun s => sv_hdr s = sv_hdr s0 /\ (s = s0 \/ sv_cks s = generate_checksum (tpmserver_bytes_ck s 0)))).
  - intros s1 o s' e [Hh _]. unfold tpmserver_step. destruct (tpmserver_builder _ o); [|discriminate]. intros [= <- _].
    split; [exact Hh|right; reflexivity].
  - split; [reflexivity|now left].
Qed.

Lemma tpmserver_run md ops s0 s : run_steps (tpmserver_step md) s0 ops = Some s ->
  sv_hdr s = sv_hdr s0 /\ fold_opt tcpa_st (sv_body s0) ops = Some (sv_body s).
Proof. intros H. split; [exact (proj1 (srv_frame md s0 ops s H))|]. rewrite <- (srv_body_run md), H. reflexivity. Qed.

Lemma set_gas_len f i a b c d e : flds_len (set_gas f i a b c d e) = flds_len f.
Proof. unfold set_gas. now rewrite !flds_len_fset. Qed.

(* where body field j lies in the table: the body follows the 36-byte header *)
Definition tcpa_at (j : nat) : nat * nat := (36 + foff TCPA_WS j, fwid TCPA_WS j)%nat.

(* one call: its bits go into the two flag bytes, and it writes no other field outside the ranges it governs *)
Lemma tcpa_step f o f' : tcpa_st f o = Some f' ->
  (exists b, writes 6 (fun k => In (tcpa_at k) (tcpa_intflags_at :: tcpa_call_ranges o)) f b f' /\ b = tcpa_dev_bit o) /\
  (exists c, writes 7 (fun _ => True) f c f' /\ c = tcpa_int_bit o).
Proof.
  revert f'. apply opt_case. unfold tcpa_st, tpmserver_builder.
  dmatch_goal; try (destruct (pci_ok _ _); [|exact I]); cbv beta iota delta [option_bind set_gas];
    cbn [tcpa_dev_bit tcpa_int_bit tcpa_call_ranges Nat.add];
    split; eexists; (split; [writes_tac|reflexivity]).
Qed.

Lemma tcpa_dev_bit_small o : tcpa_dev_bit o < 2 ^ 8.
Proof. unfold tcpa_dev_bit. dmatch_goal; reflexivity. Qed.
Lemma tcpa_int_bit_small o : tcpa_int_bit o < 2 ^ 8.
Proof. unfold tcpa_int_bit. dmatch_goal; reflexivity. Qed.

(* which calls carry which bit *)
Lemma tcpa_dev_gate k b o : In (k, b) [(7, 0); (6, 1); (9, 2)] -> N.testbit (tcpa_dev_bit o) b = tcpa_calls k o.
Proof.
  intros Hk. cbn [In] in Hk. destruct Hk as [Hk|[Hk|[Hk|[]]]]; inversion Hk; subst k b;
    unfold tcpa_dev_bit, tcpa_calls; dmatch_goal; reflexivity.
Qed.
Lemma tcpa_int_gate k b o : In (k, b) [(3, 0); (2, 1); (4, 2); (5, 3)] -> N.testbit (tcpa_int_bit o) b = tcpa_calls k o.
Proof.
  intros Hk. cbn [In] in Hk. destruct Hk as [Hk|[Hk|[Hk|[Hk|[]]]]]; inversion Hk; subst k b;
    unfold tcpa_int_bit, tcpa_calls; dmatch_goal; reflexivity.
Qed.

(* C01, C02: the widths are those [tcpa_step] derives for each call; the checksum byte is the constructor's or a recomputed one *)
Theorem tpmserver_sum_len md c ops s0 s :
  tpmserver_new c = Some s0 -> run_steps (tpmserver_step md) s0 ops = Some s ->
  sum8 (tpmserver_bytes s) = 0 /\ field_at (tpmserver_bytes s) 4 4 = N.of_nat (length (tpmserver_bytes s)).
Proof.
  intros Hn Hr. destruct (tpmserver_new_shape c s0 Hn) as (Hh0 & Hb0 & Hs0).
  destruct (tpmserver_run md ops s0 s Hr) as [Hh E]. rewrite Hb0 in E.
  destruct (writes_image tcpa_st TCPA_WS 6 22 1 tcpa_dev_bit _ eq_refl eq_refl (fun f o f' H => proj1 (tcpa_step f o f' H))
              tcpa_dev_bit_small ops tpmserver_body0 _ eq_refl E) as (Hlen & _ & _).
  split.
  - destruct (proj2 (srv_frame md s0 ops s Hr)) as [->|Hc]; [exact Hs0|].
    unfold tpmserver_bytes. rewrite Hc. apply hdr_gen_sum8_zero.
  - unfold tpmserver_bytes, tpmserver_bytes_ck. rewrite Hh.
    rewrite hdr_len_field by (exact Hh0 || reflexivity). rewrite hdr_image_length by exact Hh0. rewrite Hlen. reflexivity.
Qed.

Lemma tcpa_options_distinct :
  distinct_single_bits tcpa_dev_table && below (2 ^ 8) tcpa_dev_table && distinct_single_bits tcpa_int_table && below (2 ^ 8) tcpa_int_table = true.
Proof. reflexivity. Qed.
