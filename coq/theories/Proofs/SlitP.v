(* SLIT: checksum, length and matrix refinement for every constructor argument and every sequence of
   set_distance calls (C01, C02, C12).  The SLIT is not an addition table: its invariant [SInv] is proved here directly.
   A state stands for a header, a locality count and a matrix ([slit_sim]); the constructor, set_distance and the
   histories are followed on what the state stands for, and the image is read off it (Proofs/SlitRefP.v). *)
From Coq Require Import NArith ZArith List Lia Bool.
From ACPI Require Import Lib.Bytes Lib.Sx Lib.Machine Impl.Checksum Impl.Table Impl.Madt Impl.Slit Spec.Layout
  Proofs.ChecksumP Proofs.TableP Proofs.FixedP Proofs.BaseP.
Import ListNotations.

Open Scope N_scope.

Lemma vlen_vlist x : vlen x = N.of_nat (length (vlist x)).
Proof. destruct x as [n v|l]; cbn [vlen vlist]; [|reflexivity]. rewrite length_repeatN. lia. Qed.

Lemma vget_ok x i : i < vlen x -> vget x i = Some (nth (N.to_nat i) (vlist x) 0).
Proof.
  intros H. unfold vget. apply N.ltb_lt in H as H'. rewrite H'. f_equal.
  destruct x as [n v|l]; cbn [vlist vlen] in *; [|reflexivity].
  symmetry. apply nth_repeatN. lia.
Qed.

Lemma vset_ok x i v : i < vlen x -> vset x i v = Some (VList (upd (vlist x) (N.to_nat i) v)).
Proof. intros H. unfold vset. apply N.ltb_lt in H. rewrite H. reflexivity. Qed.

Lemma vget_spec x i o : vget x i = Some o -> i < vlen x /\ o = nth (N.to_nat i) (vlist x) 0.
Proof.
  intros H. destruct (N.ltb_spec i (vlen x)) as [Hlt|Hge].
  - rewrite (vget_ok x i Hlt) in H. apply Some_inj in H. now split.
  - unfold vget in H. apply N.ltb_ge in Hge. now rewrite Hge in H.
Qed.

Lemma vset_spec x i v x' : vset x i v = Some x' -> i < vlen x /\ vlist x' = upd (vlist x) (N.to_nat i) v.
Proof.
  intros H. destruct (N.ltb_spec i (vlen x)) as [Hlt|Hge].
  - rewrite (vset_ok x i v Hlt) in H. apply Some_inj in H. subst x'. now split.
  - unfold vset in H. apply N.ltb_ge in Hge. now rewrite Hge in H.
Qed.

Lemma ck_append_fill_spec s v k : s < 256 -> ck_append s (repeatN v k) = ck_append_fill s v (N.of_nat k).
Proof. intros H. rewrite ck_append_sum8 by exact H. rewrite sumN_repeatN. unfold ck_append_fill. f_equal. lia. Qed.

Lemma zsum_upd l : forall i v, (i < length l)%nat -> zsum (upd l i v) = (zsum l - Z.of_N (nth i l 0%N) + Z.of_N v)%Z.
Proof.
  induction l as [|x l IH]; intros [|i] v H; cbn [length] in H; try lia; cbn [upd zsum nth]; [lia|].
  rewrite IH by lia. lia.
Qed.

Definition cells (s : slit) : list N := vlist (st_ents s).

Definition slit_image0 (s : slit) : list N := hdr_bytes (st_hdr s) (st_len s) 0 ++ q8 (st_loc s) ++ cells s.

Record SInv (s : slit) : Prop := {
  si_hdr : hdr_ok (st_hdr s) = true;
  si_shape : vlen (st_ents s) = st_loc s * st_loc s;
  si_len : st_len s = 44 + st_loc s * st_loc s;
  si_fit : st_len s < 2 ^ 32;
  si_ck_lt : st_ck s < 256;
  si_ck : (Z.of_N (st_ck s) mod 256 = zsum (slit_image0 s) mod 256)%Z;
  si_hck : st_hck s = ck_value (st_ck s)
}.

Lemma length_cells s : SInv s -> N.of_nat (length (cells s)) = st_loc s * st_loc s.
Proof. intros I. unfold cells. rewrite <- vlen_vlist. exact (si_shape s I). Qed.

Lemma length_slit_image s : SInv s -> N.of_nat (length (slit_image s)) = st_len s.
Proof.
  intros I. unfold slit_image. rewrite !app_length, (length_hdr_bytes _ _ _ (si_hdr s I)). unfold q8. rewrite length_le.
  fold (cells s). pose proof (length_cells s I) as Hs. rewrite (si_len s I). lia.
Qed.

Lemma sinv_sum8 s : SInv s -> sum8 (slit_image s) = 0.
Proof.
  intros I. unfold slit_image. rewrite (si_hck s I).
  apply hdr_sum8_zero; [exact (si_ck_lt s I)|]. rewrite <- zsum_app. exact (si_ck s I).
Qed.

Lemma sinv_len_field s : SInv s -> field_at (slit_image s) 4 4 = N.of_nat (length (slit_image s)).
Proof.
  intros I. rewrite (length_slit_image s I). unfold slit_image. apply hdr_len_field; [exact (si_hdr s I)|exact (si_fit s I)].
Qed.

Lemma loc_small s : SInv s -> st_loc s < 65536.
Proof.
  intros I. pose proof (si_len s I) as Hl. pose proof (si_fit s I) as Hf. rewrite Hl in Hf.
  destruct (N.lt_ge_cases (st_loc s) 65536) as [H|H]; [exact H|].
  pose proof (N.mul_le_mono 65536 (st_loc s) 65536 (st_loc s) H H) as Hm. lia.
Qed.

Definition nowrap (md : mode) (a b : N) : Prop := md = Checked \/ (a < 4294967296 /\ b < 4294967296).

Lemma slit_idx_ok md s a b : SInv s -> a < st_loc s -> b < st_loc s -> slit_idx md s a b = Some (a + st_loc s * b).
Proof.
  intros I Ha Hb. pose proof (loc_small s I) as HL. unfold slit_idx, mul_m, add_m.
  assert (Hb' : b < 65536) by lia.
  pose proof (N.mul_lt_mono (st_loc s) 65536 b 65536 HL Hb') as Hm.
  assert (HU : U64 = 18446744073709551616) by reflexivity. rewrite HU.
  destruct (N.ltb_spec (st_loc s * b) 18446744073709551616); [|lia]. cbn [option_bind].
  destruct (N.ltb_spec (a + st_loc s * b) 18446744073709551616); [reflexivity|lia].
Qed.

Lemma cell_index_lt L a b : a < L -> b < L -> a + L * b < L * L.
Proof.
  intros Ha Hb. assert (H : L * b + L <= L * L).
  { replace (L * b + L) with (L * (b + 1)) by lia. apply N.mul_le_mono_l. lia. }
  lia.
Qed.

Lemma cell_index_inj L a b a' b' : a < L -> a' < L -> a + L * b = a' + L * b' -> a = a' /\ b = b'.
Proof. intros H1 H2 H. destruct (N.div_mod_unique L b b' a a' H1 H2 ltac:(lia)). split; congruence. Qed.

Lemma upd_idem {A} (l : list A) i v : upd (upd l i v) i v = upd l i v.
Proof. revert i; induction l as [|x l IH]; intros [|i]; cbn [upd]; try reflexivity. now rewrite IH. Qed.

(* update_header: replacing the cells by a vector of the same size, after delete(old values) and append(new values) on the
   running checksum, keeps the invariant *)
Lemma slit_with_inv s olds news l : SInv s -> length l = length (cells s) ->
  (zsum l = zsum (cells s) - zsum olds + zsum news)%Z ->
  SInv (slit_with s (ck_append (ck_delete (st_ck s) olds) news) (VList l)).
Proof.
  intros I Hl Hz. constructor; cbn [slit_with st_hdr st_len st_ck st_hck st_ents st_loc vlen];
    try reflexivity; try (destruct I; assumption).
  - rewrite Hl. exact (length_cells s I).
  - apply ck_append_lt. unfold ck_delete. apply fold_wsub8_lt. exact (si_ck_lt s I).
  - change (ck_append (ck_delete (st_ck s) olds) news) with (fold_left ck_step [CkDelete olds; CkAppend news] (st_ck s)).
    rewrite (ck_fold_tracks _ _ _ (si_ck s I)).
    unfold slit_image0, cells in *. cbn [slit_with st_hdr st_len st_ents st_loc vlist net op_added op_removed].
    rewrite !zsum_app, Hz. f_equal. lia.
Qed.

(* Entry[i][j] as the image lays the matrix out, row after row *)
Definition mcell (s : slit) (i j : N) : N := nth (N.to_nat (i * st_loc s + j)) (cells s) 0.

(* set_distance(a, b, v) writes at a + L * b and at b + L * a: the two mirrored cells, one cell on the diagonal *)
Lemma two_cell_update (l : list N) L a b i j v : N.of_nat (length l) = L * L ->
  a < L -> b < L -> i < L -> j < L ->
  nth (N.to_nat (i * L + j)) (upd (upd l (N.to_nat (a + L * b)) v) (N.to_nat (b + L * a)) v) 0 =
  if ((a =? i) && (b =? j)) || ((a =? j) && (b =? i)) then v else nth (N.to_nat (i * L + j)) l 0.
Proof.
  intros Hlen Ha Hb Hi Hj. replace (i * L + j) with (j + L * i) by lia.
  pose proof (cell_index_lt L j i Hj Hi) as Hk. pose proof (cell_index_lt L a b Ha Hb) as H1.
  pose proof (cell_index_lt L b a Hb Ha) as H2.
  destruct (N.eq_dec (j + L * i) (b + L * a)) as [E2|N2].
  - destruct (cell_index_inj L j i b a Hj Hb E2) as [-> ->]. rewrite !N.eqb_refl. cbn [andb orb].
    apply nth_upd_same. rewrite length_upd. lia.
  - rewrite nth_upd_other by (intros Heq; apply N2Nat.inj in Heq; congruence).
    destruct (N.eq_dec (j + L * i) (a + L * b)) as [E1|N1].
    + destruct (cell_index_inj L j i a b Hj Ha E1) as [-> ->]. rewrite !N.eqb_refl. cbn [andb]. rewrite orb_true_r.
      apply nth_upd_same. lia.
    + rewrite nth_upd_other by (intros Heq; apply N2Nat.inj in Heq; congruence).
      destruct (((a =? i) && (b =? j)) || ((a =? j) && (b =? i))) eqn:E; [exfalso|reflexivity].
      apply orb_true_iff in E. destruct E as [E|E]; apply andb_true_iff in E; destruct E as [Ea Eb];
        apply N.eqb_eq in Ea, Eb; subst.
      * now apply N2.
      * now apply N1.
Qed.

Record slit_sim (h : hdr) (n : N) (M : N -> N -> N) (s : slit) : Prop := {
  sim_inv : SInv s;
  sim_hdr : st_hdr s = h;
  sim_loc : st_loc s = n;
  sim_cell : forall i j, i < n -> j < n -> mcell s i j = M i j
}.

Definition mset (a b v : N) (M : N -> N -> N) : N -> N -> N :=
  fun i j => if ((a =? i) && (b =? j)) || ((a =? j) && (b =? i)) then v else M i j.

Lemma slit_sim_new c s0 : slit_new c = Some s0 -> slit_sim (st_hdr s0) (st_loc s0) (fun _ _ => 10) s0.
Proof.
  destruct c as [|[|o [|t [|r [|[loc|] [|]]]]]]; try discriminate. cbn [slit_new].
  destruct (sx_hdr _ _ o t r) as [h|] eqn:Eh; [|discriminate]. cbn [option_bind].
  unfold mul_c. destruct (N.ltb_spec (loc * loc) U32) as [Hm|]; [|discriminate]. cbn [option_bind].
  destruct (add_c U32 (loc * loc) 44) as [len|] eqn:Ea; [|discriminate]. cbn [option_bind].
  apply add_c_Some in Ea as [-> Hfit]. intros H. apply Some_inj in H. subst s0.
  (* the closed form used for a non-empty matrix is the byte-by-byte accumulation over the filled vector *)
  set (ck0 := ck_append (ck_append 0 (hdr_bytes h (loc * loc + 44) 0)) (q8 loc)).
  assert (Hck : (if 0 <? loc * loc then ck_append_fill ck0 10 (loc * loc) else ck0)
                = ck_append ck0 (repeatN 10 (N.to_nat (loc * loc)))).
  { destruct (N.ltb_spec 0 (loc * loc)) as [Hp|Hz].
    - rewrite ck_append_fill_spec, N2Nat.id by (do 2 apply ck_append_lt; lia). reflexivity.
    - replace (loc * loc) with 0 by lia. reflexivity. }
  rewrite Hck. unfold ck0. rewrite <- !ck_append_app. constructor; [|reflexivity|reflexivity|].
  - constructor; cbn [st_hdr st_len st_ck st_hck st_ents st_loc vlen]; try reflexivity.
    + exact (sx_hdr_ok _ _ _ _ _ _ Eh eq_refl).
    + lia.
    + exact Hfit.
    + apply ck_append_lt. lia.
    + rewrite ck_append_Z. reflexivity.
  - intros i j Hi Hj. unfold mcell, cells. cbn [st_ents st_loc vlist] in *. apply nth_repeatN. nia.
Qed.

Lemma set_distance_sim md h n M s a b v : slit_sim h n M s -> a < n -> b < n ->
  exists s', slit_set_distance md s a b v = Some s' /\ slit_sim h n (mset a b v M) s'.
Proof.
  intros [I <- <- Hc] Ha Hb. pose proof (si_shape s I) as Hshape. pose proof (length_cells s I) as Hlen.
  pose proof (cell_index_lt _ a b Ha Hb) as H1. pose proof (cell_index_lt _ b a Hb Ha) as H2.
  unfold slit_set_distance. apply N.ltb_lt in Ha as Ha'. apply N.ltb_lt in Hb as Hb'. rewrite Ha', Hb'.
  cbn [andb assert option_bind].
  rewrite (slit_idx_ok md s a b I Ha Hb), (slit_idx_ok md s b a I Hb Ha). cbn [option_bind].
  rewrite !vget_ok by (rewrite Hshape; assumption). cbn [option_bind].
  rewrite (vset_ok (st_ents s)) by (rewrite Hshape; assumption). cbn [option_bind].
  rewrite vset_ok by (cbn [vlen]; rewrite length_upd, <- vlen_vlist, Hshape; exact H2). cbn [option_bind vlist].
  fold (cells s). set (k1 := N.to_nat (a + st_loc s * b)) in *. set (k2 := N.to_nat (b + st_loc s * a)) in *.
  (* whichever branch ran, the cells are now [upd (upd (cells s) k1 v) k2 v]: on the diagonal k1 = k2 and the one write is both *)
  assert (Hsim : forall ck l, l = upd (upd (cells s) k1 v) k2 v -> SInv (slit_with s ck (VList l)) ->
                 slit_sim (st_hdr s) (st_loc s) (mset a b v M) (slit_with s ck (VList l))).
  { intros ck l -> I'. constructor; [exact I'|reflexivity|reflexivity|].
    intros i j Hi Hj. unfold mset. rewrite <- (Hc i j Hi Hj). now apply two_cell_update. }
  destruct (N.eqb_spec a b) as [<-|Hab]; eexists; (split; [reflexivity|]); apply Hsim.
  - symmetry. apply upd_idem.
  - apply slit_with_inv; [exact I|now rewrite length_upd|]. rewrite zsum_upd by lia. cbn [zsum]. lia.
  - reflexivity.
  - assert (Hne : k1 <> k2).
    { intros Heq. apply N2Nat.inj in Heq. destruct (cell_index_inj _ a b b a Ha Hb Heq). congruence. }
    apply slit_with_inv; [exact I|now rewrite !length_upd|].
    rewrite zsum_upd by (rewrite length_upd; lia). rewrite nth_upd_other by exact Hne.
    rewrite zsum_upd by lia. cbn [zsum]. lia.
Qed.

Lemma accepted_in_range md s a b v s' : slit_set_distance md s a b v = Some s' -> a < st_loc s /\ b < st_loc s.
Proof.
  unfold slit_set_distance. destruct ((a <? st_loc s) && (b <? st_loc s)) eqn:E; [|discriminate]. intros _.
  apply andb_true_iff in E. destruct E as [E1 E2]. apply N.ltb_lt in E1, E2. split; assumption.
Qed.

Lemma slit_sim_step md h n M s a b v s' : slit_sim h n M s -> slit_set_distance md s a b v = Some s' ->
  a < n /\ b < n /\ slit_sim h n (mset a b v M) s'.
Proof.
  intros HS H. destruct (accepted_in_range _ _ _ _ _ _ H) as [Ha Hb]. rewrite (sim_loc _ _ _ _ HS) in Ha, Hb.
  destruct (set_distance_sim md h n M s a b v HS Ha Hb) as (s1 & E & HS1). rewrite H in E. apply Some_inj in E. subst s1.
  exact (conj Ha (conj Hb HS1)).
Qed.

Fixpoint slit_run (md : mode) (s : slit) (ops : list (N * N * N)) : option slit :=
  match ops with
  | [] => Some s
  | (a, b, v) :: r => match slit_set_distance md s a b v with Some s' => slit_run md s' r | None => None end
  end.

Lemma slit_step_is md s a b v :
  slit_step md s (SL [SA 1; SA a; SA b; SA v]) =
  option_map (fun s' => (s', [EvNum 0])) (slit_set_distance md s a b (cast U8 v)).
Proof. unfold slit_step. destruct (slit_set_distance md s a b (cast U8 v)); reflexivity. Qed.

Lemma slit_step_inv md s o s' e : slit_step md s o = Some (s', e) ->
  exists a b v, o = SL [SA 1; SA a; SA b; SA v] /\ slit_set_distance md s a b (cast U8 v) = Some s' /\ e = [EvNum 0].
Proof.
  unfold slit_step. intros H. break_sx H. eexists _, _, _. split; [reflexivity|].
  destruct (slit_set_distance md s _ _ _); [|discriminate H]. cbn [option_bind] in H.
  apply Some_inj in H. injection H as <- <-. now split.
Qed.

(* the abstract matrix: the last value assigned to the unordered pair {i, j}; d if never assigned *)
Fixpoint slit_last (i j : N) (ops : list (N * N * N)) (d : N) : N :=
  match ops with
  | [] => d
  | (a, b, v) :: r => slit_last i j r (if ((a =? i) && (b =? j)) || ((a =? j) && (b =? i)) then v else d)
  end.

Lemma slit_last_sym i j ops : forall d, slit_last i j ops d = slit_last j i ops d.
Proof.
  induction ops as [|[[a b] v] r IH]; intros d; cbn [slit_last]; [reflexivity|].
  rewrite IH. rewrite (orb_comm ((a =? i) && (b =? j))). reflexivity.
Qed.

Definition op_nowrap (md : mode) (o : N * N * N) : Prop := nowrap md (fst (fst o)) (snd (fst o)).
Definition op_in_range (L : N) (o : N * N * N) : Prop := fst (fst o) < L /\ snd (fst o) < L.

Theorem slit_sim_run md h n ops : forall M s s', slit_sim h n M s -> slit_run md s ops = Some s' ->
  Forall (op_in_range n) ops /\ slit_sim h n (fun i j => slit_last i j ops (M i j)) s'.
Proof.
  induction ops as [|[[a b] v] r IH]; intros M s s' HS H; cbn [slit_run] in H.
  - apply Some_inj in H. subst s'. split; [constructor|exact HS].
  - destruct (slit_set_distance md s a b v) as [s1|] eqn:E; [|discriminate].
    destruct (slit_sim_step md h n M s a b v s1 HS E) as (Ha & Hb & HS1).
    destruct (IH _ s1 s' HS1 H) as [Hr HS']. split; [constructor; [split; assumption|exact Hr]|exact HS'].
Qed.

Theorem slit_sim_total md h n ops : forall M s, slit_sim h n M s -> Forall (op_in_range n) ops ->
  exists s', slit_run md s ops = Some s'.
Proof.
  induction ops as [|[[a b] v] r IH]; intros M s HS Hr; cbn [slit_run]; [eexists; reflexivity|].
  inversion Hr as [|x l [Ha Hb] Hr']; subst. cbn [fst snd] in Ha, Hb.
  destruct (set_distance_sim md h n M s a b v HS Ha Hb) as (s1 & -> & HS1). exact (IH _ s1 HS1 Hr').
Qed.

(* Entry[i][j] of the image: the byte at offset 44 + i * localities + j *)
Definition image_cell (s : slit) (i j : N) : N := nth (44 + N.to_nat (i * st_loc s + j)) (slit_image s) 0.

Lemma image_cell_mcell s i j : SInv s -> image_cell s i j = mcell s i j.
Proof.
  intros I. unfold image_cell, mcell, slit_image, cells.
  rewrite app_nth2 by (rewrite (length_hdr_bytes _ _ _ (si_hdr s I)); lia).
  rewrite (length_hdr_bytes _ _ _ (si_hdr s I)).
  rewrite app_nth2 by (unfold q8; rewrite length_le; lia).
  unfold q8. rewrite length_le. f_equal. lia.
Qed.

(* C12 / C01 / C02 for the SLIT, for every constructor argument and every accepted sequence of set_distance calls,
   in both build profiles *)
Theorem slit_correct_all md c ops s0 s :
  slit_new c = Some s0 -> slit_run md s0 ops = Some s ->
  sum8 (slit_image s) = 0 /\
  field_at (slit_image s) 4 4 = N.of_nat (length (slit_image s)) /\
  Forall (op_in_range (st_loc s0)) ops /\
  forall i j, i < st_loc s0 -> j < st_loc s0 ->
    image_cell s i j = slit_last i j ops 10 /\ image_cell s j i = slit_last i j ops 10.
Proof.
  intros Hn Hr. destruct (slit_sim_run md _ _ ops _ s0 s (slit_sim_new c s0 Hn) Hr) as [Hin [I _ _ Hc]].
  split; [exact (sinv_sum8 s I)|]. split; [exact (sinv_len_field s I)|]. split; [exact Hin|].
  intros i j Hi Hj. rewrite !(image_cell_mcell s) by exact I. rewrite (Hc i j Hi Hj), (Hc j i Hj Hi).
  split; [reflexivity|apply slit_last_sym].
Qed.

(* the same with the locality count, under the unused side condition *)
Theorem slit_correct md c ops s0 s :
  slit_new c = Some s0 -> slit_run md s0 ops = Some s -> Forall (op_nowrap md) ops ->
  sum8 (slit_image s) = 0 /\
  field_at (slit_image s) 4 4 = N.of_nat (length (slit_image s)) /\
  st_loc s = st_loc s0 /\
  Forall (op_in_range (st_loc s0)) ops /\
  forall i j, i < st_loc s0 -> j < st_loc s0 ->
    image_cell s i j = slit_last i j ops 10 /\ image_cell s j i = slit_last i j ops 10.
Proof.
  intros Hn Hr _. destruct (slit_correct_all md c ops s0 s Hn Hr) as (H1 & H2 & H4 & H5).
  destruct (slit_sim_run md _ _ ops _ s0 s (slit_sim_new c s0 Hn) Hr) as [_ HS]. pose proof (sim_loc _ _ _ _ HS). auto.
Qed.

(* a history of the case vocabulary, as the calls it makes (observation markers dropped) *)
Definition op_call (o : sx) : N * N * N :=
  match o with SL [SA 1; SA a; SA b; SA v] => (a, b, cast U8 v) | _ => (0, 0, 0) end.
Definition calls (ops : list sx) : list (N * N * N) := map op_call (real_ops ops).

Lemma run_steps_calls md : forall ops s s', run_steps (slit_step md) s ops = Some s' -> slit_run md s (calls ops) = Some s'.
Proof.
  induction ops as [|[k|l] ops IH]; intros s s' H; [exact H|exact (IH s s' H)|].
  cbn [run_steps] in H. destruct (slit_step md s (SL l)) as [[s1 e]|] eqn:E; [|discriminate].
  destruct (slit_step_inv md s _ s1 e E) as (a & b & v & -> & E1 & _).
  unfold calls. cbn [real_ops filter map op_call slit_run]. rewrite E1. exact (IH _ _ H).
Qed.
