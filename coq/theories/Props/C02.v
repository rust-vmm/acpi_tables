(* C02 -- declared table length equals the number of bytes emitted. *)
From Coq Require Import NArith List.
From ACPI Require Import Impl.Table Spec.Layout Proofs.TableP Proofs.Tables Proofs.Registry.
Import ListNotations.
Open Scope N_scope.

(* Incrementally maintained tables: after every history the 32-bit little-endian field at offset 4 of the image,
   read by the Spec layer's field decoder, equals the number of bytes of the image. *)
Theorem c02_add_tables :
  forall T, In T add_tables ->
  forall md c ops s0 s,
    at_new T c = Some s0 -> run_adds (at_entry T) md s0 ops = Some s ->
    N.of_nat (length (tbl_image s)) < 2 ^ 32 ->
    field_at (tbl_image s) 4 4 = N.of_nat (length (tbl_image s)).
Proof. intros T _. exact (add_tables_len T). Qed.

(* the fixed structures, incl. RSDP (36 at offset 20) and FACS (64 at offset 4): fixed_len_statement in Proofs/Registry.v *)
Theorem c02_fixed_tables : fixed_len_statement.
Proof. exact fixed_len. Qed.

(* RQSC, FADT, SLIT, HEST histories: special_len_statement in Proofs/Registry.v *)
Theorem c02_special_tables : special_len_statement.
Proof. exact special_len. Qed.

Print Assumptions c02_add_tables.
Print Assumptions c02_fixed_tables.
Print Assumptions c02_special_tables.
