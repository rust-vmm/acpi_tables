(* RSDP (component 30): the Impl model refines the Spec.  The only public operation is the constructor Rsdp::new(oem_id,
   xsdt_addr); the Spec's domain is the empty history.  For every constructor argument whose oem_id elements are bytes, the
   emitted 36 bytes are the reference image: same fields, and both checksums (ACPI 1.0 checksum over the first 20 bytes,
   extended checksum over all 36) are the values the reference computes from content. *)
From Coq Require Import NArith List Lia Arith.
From ACPI Require Import Proofs.RefCommonP.
From ACPI Require Import Lib.Bytes Lib.Sx Impl.Checksum Impl.Rsdp
  Spec.Layout Spec.FixedS Spec.RsdpS Proofs.BaseP Proofs.FixedP Proofs.RefFixedCommonP.
Import ListNotations.

Open Scope N_scope.

(* the crate's generate_checksum is the reference's two's-complement of the byte sum *)
Lemma generate_checksum_neg8 l : generate_checksum l = neg8 (sumN l).
Proof.
  unfold generate_checksum, neg8, ck_value. rewrite fold_wadd8_mod by lia. rewrite N.add_0_l.
  pose proof (N.mod_lt (sumN l) 256 ltac:(lia)) as Hlt.
  generalize dependent (sumN l mod 256). intros s Hs. f_equal. lia.
Qed.

(* per-entry content: for all field values (oem_id being bytes), the packed struct is the reference layout *)
Lemma rsdp_entries_are_reference oem x c e : length oem = 6%nat -> bytes_ok oem = true ->
  rsdp_lay oem x c e = Some (rsdp_bytes {| rs_cks := c; rs_oem := oem; rs_xsdt := x; rs_ext := e |}).
Proof.
  intros Ho Bo.
  destruct oem as [|o0 [|o1 [|o2 [|o3 [|o4 [|o5 [|]]]]]]]; try discriminate.
  unfold rsdp_lay.
  match goal with |- lay 36 ?L = _ => change (lay 36 L) with (Some (assemble L)) end.
  f_equal. rewrite !assemble_app, (assemble_bytes _ _ Bo).
  unfold rsdp_bytes, RSDP_SIG, b1, d4, q8, assemble. cbn [rs_cks rs_oem rs_xsdt rs_ext map concat fst snd].
  rewrite !app_nil_r. rewrite <- ?app_assoc. reflexivity.
Qed.

Definition rsdp_ctor_bytes (ctor : sx) : Prop :=
  match ctor with SL (o :: _) => sx_is_bytes o | _ => True end.

Theorem rsdp_refines :
  forall md ctor ops r,
    ts_image rsdp_spec ctor ops = Some r ->
    rsdp_ctor_bytes ctor ->
    exists s0 s, rsdp_new ctor = Some s0 /\
                 run_steps (rsdp_step md) s0 ops = Some s /\
                 rsdp_bytes s = r.
Proof.
  intros md ctor ops r H Hb. cbn [ts_image rsdp_spec fixed_spec] in H.
  apply ctor_only_some in H. destruct H as [-> H]. unfold rsdp_ref in H.
  destruct ctor as [|l]; [discriminate|].
  destruct l as [|o [|[xsdt|] [|]]]; try discriminate.
  destruct (sx_bytes o) as [oem|] eqn:Eo; [|discriminate].
  destruct (Nat.eqb (length oem) 6) eqn:El; [|discriminate]. apply Nat.eqb_eq in El.
  pose proof (Hb _ Eo) as Bo.
  (* the reference lays the struct out three times: with both checksums 0, with the 20-byte checksum, with the extended one *)
  rewrite (rsdp_entries_are_reference oem xsdt 0 0 El Bo) in H.
  rewrite <- generate_checksum_neg8 in H.
  rewrite (rsdp_entries_are_reference oem xsdt _ 0 El Bo) in H.
  rewrite <- generate_checksum_neg8 in H.
  rewrite (rsdp_entries_are_reference oem xsdt _ _ El Bo) in H.
  injection H as <-.
  exists (rsdp_make oem xsdt), (rsdp_make oem xsdt).
  split; [|split; reflexivity].
  unfold rsdp_new. rewrite (sx_arr_of_bytes 6 o oem Eo El). reflexivity.
Qed.

(* the excluded class: an oem_id element that is not a byte (no Rust caller can express it: the argument is [u8; 6]).
   Here it is the model that keeps the element as it is, and the Spec's layout that truncates it. *)
Example rsdp_refines_refuted :
  exists ctor ops r,
    ts_image rsdp_spec ctor ops = Some r /\
    forall md s0 s, rsdp_new ctor = Some s0 -> run_steps (rsdp_step md) s0 ops = Some s -> rsdp_bytes s <> r.
Proof.
  exists (SL [SL [SA 256; SA 0; SA 0; SA 0; SA 0; SA 0]; SA 0]), [].
  eexists. split; [vm_compute; reflexivity|].
  intros md s0 s Hn Hr. vm_compute in Hn. inversion Hn; subst s0; clear Hn.
  cbn [run_steps] in Hr. inversion Hr; subst s; clear Hr.
  vm_compute. discriminate.
Qed.

Print Assumptions rsdp_refines.
Print Assumptions rsdp_refines_refuted.
