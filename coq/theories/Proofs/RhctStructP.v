(* RHCT: the node an add_* call receives (rhct.rs `IsaStringNode`, `MmuNode`, `CmoNode`, `HartInfoNode` with its handles already
   offsets), as a value between the operation and the bytes.  Both entry functions -- the model's `rhct_addition` and the
   Spec's `rhct_entry_ref` -- are "decode the operation to a node, check that it fits 16 bits, serialise it"
   (`rhct_addition_cases` / `_intro`, `rhct_entry_ref_cases`); they differ only in how the two handle arguments of a hart info
   node are resolved.  The layout of a node is stated once (`rhct_node_lay`); its size, fields and self-description are read
   off it.  Every other RHCT file starts from these. *)
From Coq Require Import NArith List Lia Arith ZifyNat.
From ACPI Require Import Lib.Bytes Lib.Sx Lib.Machine Impl.Table Impl.Rhct Spec.Layout Spec.HmatS Spec.PpttS Spec.RhctS
  Proofs.BaseP Proofs.WalkP Proofs.WalkRefCommon2P.
Import ListNotations.
Open Scope N_scope.

Inductive rhct_node : Type :=
| RhIsa (str : list N)
| RhMmu (scheme : N)
| RhCmo (cbom cbop cboz : N)
| RhHart (uid : N) (offsets : list N).

(* to_aml_bytes without its assert *)
Definition rhct_node_bytes (d : rhct_node) : list N :=
  match d with
  | RhIsa str =>
      let strlen := cast U16 (N.of_nat (length str)) + 1 in
      w2 0 ++ w2 (isa_len str) ++ w2 1 ++ w2 strlen ++ str ++ b1 0 ++ (if strlen mod 2 =? 1 then b1 0 else [])
  | RhMmu scheme => mmu_bytes scheme
  | RhCmo cbom cbop cboz => cmo_bytes cbom cbop cboz
  | RhHart uid hs => w2 65535 ++ w2 (hart_len hs) ++ w2 1 ++ w2 (N.of_nat (length hs)) ++ d4 uid ++ rh_dwords hs
  end.

(* the hand-written len() *)
Definition rhct_node_claimed (d : rhct_node) : N :=
  match d with RhIsa str => isa_len str | RhMmu _ => 8 | RhCmo _ _ _ => 10 | RhHart _ hs => hart_len hs end.

(* an ISA string node is its 8 fixed bytes, the string and its NUL, padded to an even size *)
Definition rhct_node_size (d : rhct_node) : nat :=
  match d with
  | RhIsa str => 8 + length str + 1 + (if Nat.odd (8 + length str + 1) then 1 else 0)
  | RhMmu _ => 8
  | RhCmo _ _ _ => 10
  | RhHart _ hs => 12 + 4 * length hs
  end.

Definition rhct_node_addition (d : rhct_node) : addition :=
  rhct_add (rhct_node_claimed d) (rhct_node_bytes d) (match d with RhIsa _ | RhCmo _ _ _ => true | _ => false end).

Inductive rhct_op (isa_ref : sx -> option N) (cmo_refs : list sx -> option (list N)) : sx -> rhct_node -> Prop :=
| RhOpIsa str sb : sx_bytes str = Some sb -> rhct_op isa_ref cmo_refs (SL [SA 1; str]) (RhIsa sb)
| RhOpMmu scheme : rhct_op isa_ref cmo_refs (SL [SA 2; SA scheme]) (RhMmu scheme)
| RhOpCmo cbom cbop cboz : rhct_op isa_ref cmo_refs (SL [SA 3; SA cbom; SA cbop; SA cboz]) (RhCmo cbom cbop cboz)
| RhOpHart uid isa cmos i cs : isa_ref isa = Some i -> cmo_refs cmos = Some cs ->
    rhct_op isa_ref cmo_refs (SL [SA 4; SA uid; isa; SL cmos]) (RhHart uid (i :: cs)).

Lemma rhct_op_mono (f f' : sx -> option N) (g g' : list sx -> option (list N)) o d :
  (forall x v, f x = Some v -> f' x = Some v) -> (forall l vs, g l = Some vs -> g' l = Some vs) ->
  rhct_op f g o d -> rhct_op f' g' o d.
Proof. intros Hf Hg []; constructor; auto. Qed.

(* the fixed head of a node, as Spec/RhctS.v tabulates it *)
Definition rhct_node_head (d : rhct_node) : layout :=
  match d with
  | RhIsa str => [L 0 2 0; L 2 2 (N.of_nat (rhct_node_size d)); L 4 2 1; L 6 2 (N.of_nat (length str + 1))]
  | RhMmu scheme => [L 0 2 2; L 2 2 8; L 4 2 1; L 6 1 0; L 7 1 scheme]
  | RhCmo cbom cbop cboz => [L 0 2 1; L 2 2 10; L 4 2 1; L 6 1 0; L 7 1 cbom; L 8 1 cbop; L 9 1 cboz]
  | RhHart uid hs => [L 0 2 65535; L 2 2 (N.of_nat (rhct_node_size d)); L 4 2 1; L 6 2 (N.of_nat (length hs)); L 8 4 uid]
  end.

Definition rhct_node_head_size (d : rhct_node) : nat :=
  match d with RhIsa _ | RhMmu _ => 8 | RhCmo _ _ _ => 10 | RhHart _ _ => 12 end.

Definition rhct_node_tail (d : rhct_node) : list N :=
  match d with
  | RhIsa str => str ++ [0] ++ (if Nat.odd (8 + length str + 1) then [0] else [])
  | RhMmu _ | RhCmo _ _ _ => []
  | RhHart _ hs => arr 4 hs
  end.

Lemma rhct_node_claimed_size d : rhct_node_claimed d = N.of_nat (rhct_node_size d).
Proof.
  destruct d as [str| | |uid hs]; cbn [rhct_node_claimed rhct_node_size]; [|reflexivity|reflexivity|unfold hart_len; lia].
  (* IsaStringNode::len() rounds 8 + n + 1 up to even *)
  unfold isa_len. rewrite odd_mod2. destruct (N.eqb_spec ((8 + N.of_nat (length str) + 1) mod 2) 0); lia.
Qed.

Lemma rhct_node_size_ge d : (8 <= rhct_node_size d)%nat.
Proof. destruct d; cbn [rhct_node_size]; lia. Qed.

(* `string.len() as u16 + 1` and the string length + 1 are written as the same two bytes and have the same parity, fit or not *)
Lemma isa_strlen_u16 n : w2 (cast U16 (N.of_nat n) + 1) = w2 (N.of_nat (n + 1)) /\
  ((cast U16 (N.of_nat n) + 1) mod 2 =? 1) = Nat.odd (8 + n + 1).
Proof.
  unfold cast, U16. change (2 ^ 16) with 65536. split.
  - unfold w2. rewrite <- (le_mod 2 (_ + 1)), <- (le_mod 2 (N.of_nat _)). change (2 ^ (8 * N.of_nat 2)) with 65536.
    rewrite N.add_mod_idemp_l by discriminate. do 2 f_equal. lia.
  - pose proof (odd_mod2 (8 + n + 1)) as Ho.
    assert (E : (N.of_nat n mod 65536 + 1) mod 2 = N.of_nat ((8 + n + 1) mod 2)).
    { change 65536 with (2 * 32768). rewrite N.mod_mul_r by discriminate.
      rewrite <- N.add_assoc, (N.add_comm (2 * _)), N.add_assoc, N.mul_comm, N.mod_add by discriminate.
      rewrite Nat2N.inj_mod. change (N.of_nat 2) with 2. replace (N.of_nat (8 + n + 1)) with (N.of_nat n + 1 + 4 * 2) by lia.
      rewrite N.mod_add by discriminate. apply N.add_mod_idemp_l. discriminate. }
    rewrite E. destruct (Nat.odd (8 + n + 1)); rewrite <- Ho; reflexivity.
Qed.

(* the one place where the serialisers of rhct.rs and the field tables of the specification meet: with the lengths as
   variables both sides compute to the same list *)
Lemma rhct_node_lay d : lay_then (rhct_node_head_size d) (rhct_node_head d) (rhct_node_tail d) = Some (rhct_node_bytes d).
Proof.
  pose proof (rhct_node_claimed_size d) as Hc.
  destruct d as [str|scheme|cbom cbop cboz|uid hs]; cbn [rhct_node_claimed] in Hc;
    unfold rhct_node_bytes, rhct_node_head, rhct_node_tail, rhct_node_head_size; [|reflexivity|reflexivity|].
  - cbv zeta. destruct (isa_strlen_u16 (length str)) as [-> ->]. rewrite Hc.
    generalize (N.of_nat (rhct_node_size (RhIsa str))) (N.of_nat (length str + 1)).
    intros len k. destruct (Nat.odd (8 + length str + 1)); reflexivity.
  - rewrite Hc. generalize (N.of_nat (rhct_node_size (RhHart uid hs))) (N.of_nat (length hs)). intros len k. reflexivity.
Qed.

Lemma rhct_node_field d o w v : layout_get (rhct_node_head d) o w = Some v ->
  field_at (rhct_node_bytes d) o w = v mod 2 ^ (8 * N.of_nat w).
Proof. exact (lay_then_get o w v (rhct_node_lay d)). Qed.

Lemma rhct_node_ty d :
  unle (firstn 2 (rhct_node_bytes d)) = match d with RhIsa _ => 0 | RhMmu _ => 2 | RhCmo _ _ _ => 1 | RhHart _ _ => 65535 end.
Proof. destruct d; reflexivity. Qed.

Lemma rhct_node_field16 d o v : N.of_nat (rhct_node_size d) <= 65535 -> layout_get (rhct_node_head d) o 2 = Some (N.of_nat v) ->
  (v <= rhct_node_size d)%nat -> field_at (rhct_node_bytes d) o 2 = N.of_nat v.
Proof. intros Hfit Hg Hv. apply (lay_then_get_below o 2 _ 65536 (rhct_node_lay d) Hg eq_refl). lia. Qed.

Lemma rhct_node_split d : exists fixed, length fixed = rhct_node_head_size d /\ rhct_node_bytes d = fixed ++ rhct_node_tail d.
Proof. exact (lay_then_split _ _ _ _ (rhct_node_lay d)). Qed.

Lemma rhct_node_length d : length (rhct_node_bytes d) = rhct_node_size d.
Proof.
  rewrite (proj1 (lay_then_fields _ _ _ _ (rhct_node_lay d))).
  destruct d as [str| | |uid hs]; cbn [rhct_node_head_size rhct_node_tail rhct_node_size]; [|reflexivity|reflexivity|].
  - rewrite !app_length. destruct (Nat.odd (8 + length str + 1)); cbn [length]; lia.
  - rewrite length_arr. reflexivity.
Qed.

Lemma rhct_node_offset uid hs j v : nth_error hs j = Some v ->
  field_at (rhct_node_bytes (RhHart uid hs)) (12 + 4 * j) 4 = v mod 2 ^ (8 * N.of_nat 4).
Proof. exact (proj2 (lay_then_arr_field _ _ _ _ _ (rhct_node_lay (RhHart uid hs))) j v). Qed.

Lemma rhct_node_len_field d : layout_get (rhct_node_head d) 2 2 = Some (N.of_nat (rhct_node_size d)).
Proof. destruct d; reflexivity. Qed.

Lemma rhct_node_self d : N.of_nat (rhct_node_size d) <= 65535 ->
  self_describing H_u16_u16 (rhct_node_bytes d) (unle (firstn 2 (rhct_node_bytes d))).
Proof.
  intros Hfit. pose proof (rhct_node_size_ge d).
  apply (lay_then_self H_u16_u16 2 0 2 _ _ _ _ _ 65536 eq_refl (rhct_node_lay d) (rhct_node_len_field d) (rhct_node_length d));
    [lia|reflexivity|lia].
Qed.

Lemma isa_bytes_node str :
  isa_bytes str = if N.of_nat (rhct_node_size (RhIsa str)) <=? 65535 then Some (rhct_node_bytes (RhIsa str)) else None.
Proof. rewrite <- (rhct_node_claimed_size (RhIsa str)). unfold isa_bytes, rhct_node_claimed. now destruct (isa_len str <=? 65535). Qed.

Lemma hart_bytes_node uid hs :
  hart_bytes uid hs = if N.of_nat (rhct_node_size (RhHart uid hs)) <=? 65535 then Some (rhct_node_bytes (RhHart uid hs)) else None.
Proof. rewrite <- (rhct_node_claimed_size (RhHart uid hs)). unfold hart_bytes, rhct_node_claimed. now destruct (hart_len hs <=? 65535). Qed.

Lemma rhct_addition_cases s o e : rhct_addition s o = Some e ->
  exists d, rhct_op (handle_ref s) (handle_refs s) o d /\ N.of_nat (rhct_node_size d) <= 65535 /\ e = rhct_node_addition d.
Proof.
  intros H. op_cases H o l of rhct_addition.
  - (* 3: CMO *)
    arg_num H l cbom. arg_num H l cbop. arg_num H l cboz. arg_end H l. apply Some_inj in H. subst e.
    exists (RhCmo cbom cbop cboz). split; [constructor|]. split; [cbn [rhct_node_size]; lia|reflexivity].
  - (* 4: hart info *)
    arg_num H l uid. arg_any H l isa. arg_list H l cmos. arg_end H l.
    apply bind_Some in H as (i & Ei & H). apply bind_Some in H as (cs & Ec & H). apply bind_Some in H as (b & Eb & H).
    apply Some_inj in H. subst e. rewrite hart_bytes_node in Eb.
    destruct (N.leb_spec (N.of_nat (rhct_node_size (RhHart uid (i :: cs)))) 65535) as [Hfit|]; [|discriminate Eb].
    apply Some_inj in Eb. subst b. exists (RhHart uid (i :: cs)). split; [constructor; assumption|]. split; [exact Hfit|reflexivity].
  - (* 2: MMU *)
    arg_num H l scheme. arg_end H l. apply Some_inj in H. subst e.
    exists (RhMmu scheme). split; [constructor|]. split; [cbn [rhct_node_size]; lia|reflexivity].
  - (* 1: ISA string *)
    arg_any H l str. arg_end H l.
    apply bind_Some in H as (sb & Es & H). apply bind_Some in H as (b & Eb & H). apply Some_inj in H. subst e.
    rewrite isa_bytes_node in Eb. destruct (N.leb_spec (N.of_nat (rhct_node_size (RhIsa sb))) 65535) as [Hfit|]; [|discriminate Eb].
    apply Some_inj in Eb. subst b. exists (RhIsa sb). split; [constructor; assumption|]. split; [exact Hfit|reflexivity].
Qed.

Lemma rhct_addition_intro s o d : rhct_op (handle_ref s) (handle_refs s) o d -> N.of_nat (rhct_node_size d) <= 65535 ->
  rhct_addition s o = Some (rhct_node_addition d).
Proof.
  intros Hop Hfit. apply N.leb_le in Hfit. destruct Hop as [str sb Es| | |uid isa cmos i cs Ei Ec]; cbn [rhct_addition].
  - rewrite Es. cbn [option_bind]. rewrite isa_bytes_node, Hfit. reflexivity.
  - reflexivity.
  - reflexivity.
  - rewrite Ei, Ec. cbn [option_bind]. rewrite hart_bytes_node, Hfit. reflexivity.
Qed.

(* on a decoded ISA string or hart info node the Spec's entry function is, by computation, a domain check [g] and the size
   check around the checked layout *)
Lemma rhct_ref_case (g : bool) d e :
  (if g && (N.of_nat (rhct_node_size d) <=? 65535)
   then lay_then (rhct_node_head_size d) (rhct_node_head d) (rhct_node_tail d) else None) = Some e ->
  N.of_nat (rhct_node_size d) <= 65535 /\ e = rhct_node_bytes d.
Proof.
  destruct g; [|discriminate]. cbn [andb]. destruct (N.leb_spec (N.of_nat (rhct_node_size d)) 65535) as [Hfit|]; [|discriminate].
  rewrite (rhct_node_lay d). intros H. split; [exact Hfit|]. symmetry. exact (Some_inj _ _ H).
Qed.

Lemma rhct_entry_ref_cases p o e : rhct_entry_ref p o = Some e ->
  exists d, rhct_op (resolve p 0) (resolve_all p 1) o d /\ N.of_nat (rhct_node_size d) <= 65535 /\ e = rhct_node_bytes d.
Proof.
  intros H. op_cases H o l of rhct_entry_ref.
  - (* 3: CMO *)
    arg_num H l cbom. arg_num H l cbop. arg_num H l cboz. arg_end H l.
    destruct ((cbom <? 256) && (cbop <? 256) && (cboz <? 256)); [|discriminate H].
    (* the fixed layout computes to the serialiser's bytes *)
    exists (RhCmo cbom cbop cboz). split; [constructor|]. split; [cbn [rhct_node_size]; lia|]. symmetry. exact (Some_inj _ _ H).
  - (* 4: hart info *)
    arg_num H l uid. arg_any H l isa. arg_list H l cmos. arg_end H l.
    destruct (resolve p 0 isa) as [i|] eqn:Ei; [|discriminate H].
    destruct (resolve_all p 1 cmos) as [cs|] eqn:Ec; [|discriminate H].
    destruct (rhct_ref_case _ (RhHart uid (i :: cs)) e H) as [Hfit ->].
    exists (RhHart uid (i :: cs)). split; [constructor; assumption|]. split; [exact Hfit|reflexivity].
  - (* 2: MMU *)
    arg_num H l scheme. arg_end H l. destruct (scheme <? 3); [|discriminate H].
    exists (RhMmu scheme). split; [constructor|]. split; [cbn [rhct_node_size]; lia|]. symmetry. exact (Some_inj _ _ H).
  - (* 1: ISA string *)
    arg_any H l str. arg_end H l. destruct (sx_bytes str) as [sb|] eqn:Es; [|discriminate H].
    destruct (rhct_ref_case _ (RhIsa sb) e H) as [Hfit ->].
    exists (RhIsa sb). split; [constructor; assumption|]. split; [exact Hfit|reflexivity].
Qed.

(* [rhct_entries_from] of Spec/RhctS.v is the [placed]-threading fold [pl_entries_from] of Proofs/WalkRefCommon2P.v; a node is
   recorded with its 16-bit type code ([rhct_ty] of Proofs/RhctWalkRefP.v) *)
Lemma rhct_entries_from_pl ops : forall p next racc,
  rhct_entries_from ops p next racc = pl_entries_from rhct_entry_ref (fun e => unle (firstn 2 e)) ops p next racc.
Proof.
  unfold pl_entries_from. induction ops as [|o ops IH]; intros; cbn [rhct_entries_from bk_entries]; [reflexivity|].
  destruct (rhct_entry_ref p o); [apply IH|reflexivity].
Qed.
