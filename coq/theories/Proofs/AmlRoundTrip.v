(* C06: the Spec parser recovers, from the bytes the implementation model emits, exactly the tree the caller built. *)
From Coq Require Import NArith List Lia Bool Arith.
From ACPI Require Import Lib.Bytes Lib.Sx Lib.Machine Impl.AmlCore Impl.AmlTerm Spec.AmlCoreS Spec.AmlTermS
  Proofs.BitsP Proofs.PkgLenP Proofs.PathP Proofs.EisaUuidP Proofs.FrameSitesP Proofs.FieldListP.
Import ListNotations.
Open Scope N_scope.

Definition sub_all (P : term -> Prop) (t : term) : Prop :=
  match t with
  | TOp1 _ a | TName _ a => P a
  | TOp2 _ a b | TOpRegion _ _ a b => P a /\ P b
  | TOp3 _ a b c => P a /\ P b /\ P c
  | TOp4 _ a b c d => P a /\ P b /\ P c /\ P d
  | TDevice _ ks | TScope _ ks | TScopeRaw _ ks | TMethod _ _ _ ks | TPowerRes _ _ _ ks | TCall _ ks
  | TPackage ks | TPkgBuilder ks | TResTemplate ks | TElse ks => Forall P ks
  | TIf p ks | TWhile p ks => P p /\ Forall P ks
  | _ => True
  end.

Section TermInd.
  Variable P : term -> Prop.
  Hypothesis step : forall t, sub_all P t -> P t.

  Fixpoint term_ind' (t : term) : P t :=
    let all := fix all (l : list term) : Forall P l :=
                 match l with [] => Forall_nil P | x :: r => Forall_cons x (term_ind' x) (all r) end in
    step t
      match t return sub_all P t with
      | TOp1 _ a | TName _ a => term_ind' a
      | TOp2 _ a b | TOpRegion _ _ a b => conj (term_ind' a) (term_ind' b)
      | TOp3 _ a b c => conj (term_ind' a) (conj (term_ind' b) (term_ind' c))
      | TOp4 _ a b c d => conj (term_ind' a) (conj (term_ind' b) (conj (term_ind' c) (term_ind' d)))
      | TDevice _ ks | TScope _ ks | TScopeRaw _ ks | TMethod _ _ _ ks | TPowerRes _ _ _ ks | TCall _ ks
      | TPackage ks | TPkgBuilder ks | TResTemplate ks | TElse ks => all ks
      | TIf p ks | TWhile p ks => conj (term_ind' p) (all ks)
      | _ => I
      end.
End TermInd.

Definition encs (md : mode) (l : list term) : option (list N) := opt_concat_map (enc md) l.

Lemma encs_fix md l :
  (fix encs (l : list term) : option (list N) :=
     match l with [] => Some [] | x :: r => do a <- enc md x; do b <- encs r; Some (a ++ b) end) l = encs md l.
Proof. exact (encs_loop md l). Qed.

Lemma encs_cons md x l : encs md (x :: l) = (do a <- enc md x; do b <- encs md l; Some (a ++ b)).
Proof. reflexivity. Qed.

Fixpoint depth (t : term) : nat :=
  let dl := fix dl (l : list term) : nat := match l with [] => O | x :: r => Nat.max (depth x) (dl r) end in
  match t with
  | TOp1 _ a => S (depth a)
  | TOp2 _ a b => S (Nat.max (depth a) (depth b))
  | TOp3 _ t a b => S (Nat.max (depth t) (Nat.max (depth a) (depth b)))
  | TOp4 _ a b c d => S (Nat.max (Nat.max (depth a) (depth b)) (Nat.max (depth c) (depth d)))
  | TName _ i => S (depth i)
  | TDevice _ ks | TScope _ ks | TScopeRaw _ ks | TMethod _ _ _ ks | TPowerRes _ _ _ ks | TCall _ ks
  | TPackage ks | TPkgBuilder ks | TResTemplate ks | TElse ks => S (dl ks)
  | TOpRegion _ _ o l => S (Nat.max (depth o) (depth l))
  | TIf pr ks | TWhile pr ks => S (Nat.max (depth pr) (dl ks))
  | TBufData _ | TUuid _ => 1%nat        (* the BufferSize inside is one more parser layer *)
  | _ => O
  end.

Definition depths (l : list term) : nat := fold_right (fun x acc => Nat.max (depth x) acc) O l.

Lemma depth_list_fix l :
  (fix dl (l : list term) : nat := match l with [] => O | x :: r => Nat.max (depth x) (dl r) end) l = depths l.
Proof. induction l as [|x l IH]; [reflexivity|]. cbn [depths fold_right]. now rewrite IH. Qed.

Lemma depths_in l x : In x l -> (depth x <= depths l)%nat.
Proof.
  induction l as [|y l IH]; intros H; [destruct H|]. cbn [depths fold_right]. fold (depths l).
  destruct H as [->|H]; [lia|]. specialize (IH H). lia.
Qed.

Definition leaf_lead (b : N) : bool :=
  (b =? 0x00) || (b =? 0x01) || (b =? 0x0A) || (b =? 0x0B) || (b =? 0x0C) || (b =? 0x0E) || (b =? 0xFF) || (b =? 0x0D)
  || ((0x60 <=? b) && (b <=? 0x67)) || ((0x68 <=? b) && (b <=? 0x6E)) || is_name_lead b || (b =? 0x11).

Lemma parse_step_op env p el b r :
  leaf_lead b = false -> parse_step env p el (b :: r) = parse_op p (fst (op_code b r)) (snd (op_code b r)).
Proof.
  unfold leaf_lead. intros H.
  repeat (apply orb_false_iff in H; destruct H as [H ?]).
  unfold parse_step.
  repeat match goal with E : _ = false |- _ => rewrite E; clear E end. cbn [orb]. reflexivity.
Qed.

Lemma op_code_plain b r : b <> 0x5B -> b <> 0x92 -> op_code b r = (b, r).
Proof.
  intros H1 H2. unfold op_code. destruct r as [|b2 r2]; [reflexivity|].
  apply N.eqb_neq in H1, H2. rewrite H1, H2. reflexivity.
Qed.

Lemma op_code_ext b2 r : op_code 0x5B (b2 :: r) = (0x5B00 + b2, r).
Proof. reflexivity. Qed.

Lemma op_code_lnot b2 r : (b2 = 0x93 \/ b2 = 0x94 \/ b2 = 0x95) -> op_code 0x92 (b2 :: r) = (0x9200 + b2, r).
Proof. intros [->|[->| ->]]; reflexivity. Qed.

Lemma parse_op_fixed p code items its r0 rest :
  op_table code = Some (mk false items LNone) -> parse_items p items r0 = Some (its, rest) ->
  parse_op p code r0 = Some (GOp code its [], rest).
Proof. intros Ht Hi. unfold parse_op. rewrite Ht. cbn [oi_framed oi_items mk]. rewrite Hi. reflexivity. Qed.

Lemma parse_op_framed p code items lm body pl r its body' kids :
  op_table code = Some (mk true items lm) -> take_pkg (pl ++ body ++ r) = Some (body, r) ->
  parse_items p items body = Some (its, body') ->
  (match lm with
   | LNone => match body' with [] => Some [] | _ => None end
   | LTerms => parse_all p (length body') false body'
   | LElems => parse_all p (length body') true body'
   | LFields => parse_fields (length body') body'
   end) = Some kids ->
  parse_op p code (pl ++ body ++ r) = Some (GOp code its kids, r).
Proof.
  intros Ht Hp Hi Hk. unfold parse_op. rewrite Ht. cbn [oi_framed oi_items oi_list mk]. rewrite Hp, Hi, Hk. reflexivity.
Qed.

Lemma parse_items_nil p l : parse_items p [] l = Some ([], l).
Proof. reflexivity. Qed.

Lemma parse_items_term p ks e g rest its r' :
  p false (e ++ rest) = Some (g, rest) -> parse_items p ks rest = Some (its, r') ->
  parse_items p (KTerm :: ks) (e ++ rest) = Some (g :: its, r').
Proof. intros H1 H2. cbn [parse_items]. rewrite H1, H2. reflexivity. Qed.

Lemma parse_items_name p ks e root segs rest its r' :
  name_decode (e ++ rest) = Some (root, segs, rest) -> parse_items p ks rest = Some (its, r') ->
  parse_items p (KName :: ks) (e ++ rest) = Some (GName root segs :: its, r').
Proof. intros H1 H2. cbn [parse_items]. rewrite H1, H2. reflexivity. Qed.

Lemma parse_items_byte p ks b rest its r' :
  parse_items p ks rest = Some (its, r') -> parse_items p (KByte :: ks) (b :: rest) = Some (GNum b :: its, r').
Proof. intros H. cbn [parse_items]. rewrite H. reflexivity. Qed.

Lemma parse_items_word p ks v rest its r' : v < 2 ^ 16 ->
  parse_items p ks rest = Some (its, r') -> parse_items p (KWord :: ks) (w2 v ++ rest) = Some (GNum v :: its, r').
Proof.
  intros Hv H. unfold w2. cbn [le app parse_items]. rewrite H.
  replace (v mod 256 + 256 * ((v / 256) mod 256)) with v; [reflexivity|].
  assert (v / 256 < 256) by (apply N.div_lt_upper_bound; lia).
  rewrite (N.mod_small (v / 256)) by assumption. rewrite (N.div_mod v 256) at 1 by lia. apply N.add_comm.
Qed.

(* not to be confused with [RT t] below, the statement the round-trip theorem proves of a term [t] *)
Definition rt (p : pfun) (el : bool) (e : list N) (g : gt) : Prop := forall r, p el (e ++ r) = Some (g, r).

Lemma rt_nonempty p el e g : p el [] = None -> rt p el e g -> e <> [].
Proof. intros Hn H ->. specialize (H []). cbn [app] in H. congruence. Qed.

Lemma parse_all_concat p el : (forall b, p b [] = None) ->
  forall es gs n, Forall2 (rt p el) es gs -> (length (concat es) <= n)%nat -> parse_all p n el (concat es) = Some gs.
Proof.
  intros Hnil. induction es as [|e es IH]; intros gs n HF Hn.
  - inversion HF; subst. destruct n; reflexivity.
  - inversion HF as [|? g ? gs' Hrt Hrest]; subst. cbn [concat] in *.
    pose proof (rt_nonempty p el e g (Hnil el) Hrt) as Hne.
    destruct e as [|x e']; [congruence|]. cbn [app] in *. destruct n as [|n']; [cbn [length] in Hn; lia|].
    cbn [parse_all]. change (x :: e' ++ concat es) with ((x :: e') ++ concat es). rewrite (Hrt (concat es)).
    rewrite (IH gs' n' Hrest); [reflexivity|]. cbn [length] in Hn. rewrite app_length in Hn. lia.
Qed.

Lemma parse_n_concat p : forall es gs r, Forall2 (rt p false) es gs ->
  parse_n p (length es) (concat es ++ r) = Some (gs, r).
Proof.
  induction es as [|e es IH]; intros gs r HF.
  - inversion HF; subst. reflexivity.
  - inversion HF as [|? g ? gs' Hrt Hrest]; subst. cbn [concat length parse_n]. rewrite <- app_assoc.
    rewrite (Hrt (concat es ++ r)). rewrite (IH gs' r Hrest). reflexivity.
Qed.

Lemma take_string_spec s : forall acc r, Forall (fun c => c <> 0) s ->
  take_string (s ++ 0 :: r) acc = Some (frev acc ++ s, r).
Proof.
  induction s as [|c s IH]; intros acc r H.
  - cbn [app take_string]. rewrite N.eqb_refl. now rewrite app_nil_r.
  - inversion H as [|? ? Hc Hs]; subst. cbn [app take_string]. apply N.eqb_neq in Hc. rewrite Hc.
    rewrite IH by exact Hs. f_equal. f_equal. rewrite !frev_rev. cbn [rev]. now rewrite <- app_assoc.
Qed.

(* from 15 on, a lead byte is neither an integer prefix nor the string prefix *)
Lemma not_const_lead b : 15 <= b ->
  ((b =? 0) || (b =? 1) || (b =? 10) || (b =? 11) || (b =? 12) || (b =? 14)) = false /\ (b =? 13) = false.
Proof. intros H. split; [repeat (apply orb_false_iff; split)|]; apply N.eqb_neq; lia. Qed.

Definition leaf_const (b : N) : option gt :=
  if b =? 0xFF then Some GOnes
  else if (0x60 <=? b) && (b <=? 0x67) then Some (GLocal (b - 0x60))
  else if (0x68 <=? b) && (b <=? 0x6E) then Some (GArg (b - 0x68))
  else None.

(* the parser spends one unit of fuel on the object at hand: [f] is a successor wherever a bound [.. < f] is known *)
Ltac fuel f := destruct f as [|f]; [lia|].

Section Leaves.
  Variable env : arity_env.

  Lemma parse_nil f el : parse env f el [] = None.
  Proof. destruct f; reflexivity. Qed.

  Lemma spec_int_lead n : exists b rest, spec_int n = b :: rest /\
    ((b =? 0x00) || (b =? 0x01) || (b =? 0x0A) || (b =? 0x0B) || (b =? 0x0C) || (b =? 0x0E)) = true.
  Proof.
    unfold spec_int.
    destruct (n =? 0); [eexists; eexists; split; reflexivity|].
    destruct (n =? 1); [eexists; eexists; split; reflexivity|].
    destruct (n <? 2 ^ 8); [eexists; eexists; split; reflexivity|].
    destruct (n <? 2 ^ 16); [eexists; eexists; split; reflexivity|].
    destruct (n <? 2 ^ 32); eexists; eexists; split; reflexivity.
  Qed.

  Lemma rt_spec_int f el n : n < 2 ^ 64 -> rt (parse env (S f)) el (spec_int n) (GInt n).
  Proof.
    intros Hn r. destruct (spec_int_lead n) as (b & rest & E & Hb).
    cbn [parse]. unfold parse_step. rewrite E. cbn [app]. rewrite Hb.
    change (b :: rest ++ r) with ((b :: rest) ++ r). rewrite <- E.
    rewrite int_decode_spec_int by exact Hn. reflexivity.
  Qed.

  Lemma enc_int_spec ty n b :
    (ty = 8 /\ n < 2 ^ 8) \/ (ty = 16 /\ n < 2 ^ 16) \/ (ty = 32 /\ n < 2 ^ 32) \/ (ty = 64 /\ n < 2 ^ 64) \/ (ty = 0 /\ n < 2 ^ 64) ->
    enc_int ty n = Some b -> b = spec_int n /\ n < 2 ^ 64.
  Proof.
    intros [[-> H]|[[-> H]|[[-> H]|[[-> H]|[-> H]]]]]; cbn [enc_int]; intros E; inversion E; subst; split;
      try (now apply enc_u8_spec); try (now apply enc_u16_spec); try (now apply enc_u32_spec);
      try (apply enc_u64_spec); try (now apply enc_usize_spec); try exact H;
      (eapply N.lt_trans; [exact H|reflexivity]).
  Qed.

  Lemma rt_string f el s : Forall (fun c => c <> 0) s -> rt (parse env (S f)) el (enc_string s) (GStr s).
  Proof.
    intros Hs r. cbn [parse]. unfold parse_step, enc_string. cbn [app N.eqb Pos.eqb orb].
    change (13 =? 0) with false. change (13 =? 1) with false. change (13 =? 10) with false. change (13 =? 11) with false.
    change (13 =? 12) with false. change (13 =? 14) with false. change (13 =? 255) with false. change (13 =? 13) with true.
    cbn [orb]. rewrite <- app_assoc. cbn [app]. rewrite take_string_spec by exact Hs. reflexivity.
  Qed.

  Lemma rt_const f el b g : leaf_const b = Some g -> rt (parse env (S f)) el [b] g.
  Proof.
    unfold leaf_const. intros H r. cbn [parse app]. unfold parse_step.
    destruct (N.eqb_spec b 0xFF) as [->|Hn]; [injection H as <-; reflexivity|].
    destruct (range_spec 0x60 0x67 b), (range_spec 0x68 0x6E b); try discriminate H;
      (destruct (not_const_lead b) as [T T']; [lia|]);
      rewrite T, T'; injection H as <-; reflexivity.
  Qed.
End Leaves.

(* DefBuffer := BufferOp PkgLength BufferSize ByteList *)
Lemma parse_step_buffer env p el r :
  parse_step env p el (0x11 :: r) =
  match take_pkg r with
  | Some (body, rest) => match p false body with Some (size, data) => Some (GBuffer size data, rest) | None => None end
  | None => None
  end.
Proof. reflexivity. Qed.

Definition head_is_name (e : list N) : Prop :=
  exists b rest, e = b :: rest /\ (b = 0x5C \/ b = 0x2E \/ b = 0x2F \/ is_lead_name_char b = true).

Lemma parse_step_name env p el e r root segs r' :
  head_is_name e -> name_decode (e ++ r) = Some (root, segs, r') ->
  parse_step env p el (e ++ r) =
  if el then Some (GName root segs, r')
  else match parse_n p (env (root, segs)) r' with Some (args, r'') => Some (GCall root segs args, r'') | None => None end.
Proof.
  intros (b & rest & -> & Hb) Hd. cbn [app] in *. unfold parse_step.
  assert (Hr : 65 <= b <= 90 \/ b = 95 \/ b = 0x5C \/ b = 0x2E \/ b = 0x2F).
  { destruct Hb as [->|[->|[->|Hl]]]; auto. unfold is_lead_name_char in Hl. apply orb_true_iff in Hl.
    destruct Hl as [Hl|Hl]; [apply andb_true_iff in Hl; destruct Hl as [A B]; apply N.leb_le in A, B; left; lia|
                             apply N.eqb_eq in Hl; right; left; exact Hl]. }
  destruct (not_const_lead b) as [T1 T3]; [lia|].
  assert (T2 : (b =? 255) = false) by (apply N.eqb_neq; lia).
  assert (T6 : is_name_lead b = true).
  { unfold is_name_lead. destruct Hb as [->|[->|[->|Hl]]]; try reflexivity. rewrite Hl. reflexivity. }
  destruct (range_spec 96 103 b); [lia|]. destruct (range_spec 104 110 b); [lia|].
  rewrite T1, T2, T3, T6, Hd. reflexivity.
Qed.

Lemma path_text_decode text q e r :
  path_new text = Some q -> wf_parts (p_parts q) -> enc_path_text text = Some e ->
  name_decode (e ++ r) = Some (p_root q, p_parts q, r) /\ head_is_name e.
Proof.
  intros Hq Hwf He. unfold enc_path_text in He. rewrite Hq in He. cbn [option_bind] in He.
  destruct (path_enc_inv q e He) as [Hlen ->]. split; [exact (name_decode_form _ _ r Hwf Hlen)|].
  (* the first byte: the root character, a prefix, or the lead character of the only segment *)
  destruct q as [root parts]. cbn [p_root p_parts] in *. unfold spec_path_form.
  destruct root; [exists 0x5C; eexists; split; [reflexivity|auto]|].
  destruct parts as [|s1 [|s2 [|s3 rest]]];
    [cbn in Hlen; lia| |exists 0x2E; eexists; split; [reflexivity|auto]|exists 0x2F; eexists; split; [reflexivity|auto]].
  inversion Hwf as [|? ? Hs _]; subst. destruct (nameseg_shape s1 Hs) as (a & b & c & d & -> & Ha & _).
  exists a. eexists. split; [reflexivity|auto].
Qed.

Lemma nameseg_decode s r : is_nameseg s = true -> name_decode (s ++ r) = Some (false, [s], r) /\ head_is_name s.
Proof.
  intros H. destruct (nameseg_shape s H) as (a & b & c & d & -> & Ha & _).
  destruct (lead_not_prefix a Ha) as (N1 & N2 & N3). apply N.eqb_neq in N1, N2, N3.
  split; [|exists a; eexists; split; [reflexivity|auto]].
  unfold name_decode. cbn [app]. rewrite N1, N2, N3. cbn [take_segs]. rewrite H. reflexivity.
Qed.

Section Statement.
  Variable env : arity_env.

  Definition key_of (q : path) : name_key := (p_root q, p_parts q).
  Definition name_gt (text : list N) : option gt :=
    match path_new text with Some q => Some (GName (p_root q) (p_parts q)) | None => None end.
  Definition wf_name (text : list N) : Prop := exists q, path_new text = Some q /\ wf_parts (p_parts q).

  Definition op1_gcode (k : N) : option N :=
    match k with 0 => Some 0x8E | 1 => Some 0x87 | 2 => Some 0xA4 | 3 => Some 0x83 | _ => None end.
  Definition cmp_gcode (k : N) : option N :=
    match k with 0 => Some 0x93 | 1 => Some 0x95 | 2 => Some 0x94 | 3 => Some 0x9293 | 4 => Some 0x9295 | 5 => Some 0x9294 | _ => None end.

  Definition mkop (code : N) (fixed : list (option gt)) (kids : option (list gt)) : option gt :=
    match opt_all fixed, kids with Some f, Some k => Some (GOp code f k) | _, _ => None end.

  Fixpoint norm (el : bool) (t : term) {struct t} : option gt :=
    let norms := fix norms (el' : bool) (l : list term) : option (list gt) :=
                   match l with
                   | [] => Some []
                   | x :: r => match norm el' x, norms el' r with Some a, Some b => Some (a :: b) | _, _ => None end
                   end in
    match t with
    | TZero => Some (GInt 0) | TOne => Some (GInt 1) | TOnes => Some GOnes
    | TInt _ n => Some (GInt n)
    | TStr s => Some (GStr s)
    | TPath s => match path_new s with
                 | Some q => Some (if el then GName (p_root q) (p_parts q) else GCall (p_root q) (p_parts q) [])
                 | None => None end
    | TFieldName s => Some (if el then GName false [s] else GCall false [s] [])
    | TEisa s => option_map GInt (eisa_value s)
    | TUuid s => option_map (GBuffer (GInt 16)) (uuid_bytes s)
    | TBufData b => Some (GBuffer (GInt (N.of_nat (length b))) b)
    | TArg n => Some (GArg n) | TLocal n => Some (GLocal n)
    | TDesc _ => None
    | TOp1 k a =>
        match k with
        | 4 => match norm false a with Some sz => Some (GBuffer sz []) | None => None end
        | 5 => mkop 0x13 [norm false a] (Some [])
        | _ => match op1_gcode k with Some c => mkop c [norm false a] (Some []) | None => None end
        end
    | TOp2 k a b =>
        match k with
        | 6 => mkop 0x70 [norm false b; norm false a] (Some [])
        | 7 => mkop 0x86 [norm false a; norm false b] (Some [])
        | 8 => mkop 0x96 [norm false b; norm false a] (Some [])
        | 9 => mkop 0x99 [norm false b; norm false a] (Some [])
        | _ => match cmp_gcode k with Some c => mkop c [norm false a; norm false b] (Some []) | None => None end
        end
    | TOp3 k t a b =>
        match op3_code k with Some c => mkop c [norm false a; norm false b; norm false t] (Some []) | None => None end
    | TOp4 k a b c d =>
        match k with
        | 0 => mkop 0x5B13 [norm false b; norm false c; norm false d; norm false a] (Some [])
        | 1 => mkop 0x9E [norm false a; norm false b; norm false c; norm false d] (Some [])
        | _ => None
        end
    | TName p i => mkop 0x08 [name_gt p; norm false i] (Some [])
    | TDevice p ks => mkop 0x5B82 [name_gt p] (norms false ks)
    | TScope p ks | TScopeRaw p ks => mkop 0x10 [name_gt p] (norms false ks)
    | TMethod p ar sr ks => mkop 0x14 [name_gt p; Some (GNum (ar + 8 * sr))] (norms false ks)
    | TPowerRes p lv od ks => mkop 0x5B84 [name_gt p; Some (GNum lv); Some (GNum od)] (norms false ks)
    | TOpRegion p sp o l => mkop 0x5B80 [name_gt p; Some (GNum sp); norm false o; norm false l] (Some [])
    | TMutex p sy => mkop 0x5B01 [name_gt p; Some (GNum sy)] (Some [])
    | TAcquire p tm => mkop 0x5B23 [name_gt p; Some (GNum tm)] (Some [])
    | TRelease p => mkop 0x5B27 [name_gt p] (Some [])
    | TCall p args =>
        match path_new p, norms false args with
        | Some q, Some gs => Some (if el then GName (p_root q) (p_parts q) else GCall (p_root q) (p_parts q) gs)
        | _, _ => None
        end
    | TField p ac lk up es =>
        (* DefField: NameString, FieldFlags byte, then the field list *)
        mkop 0x5B81 [name_gt p; Some (GNum (ac + 16 * lk + 32 * up))] (Some (map fentry_gt es))
    | TPackage ks | TPkgBuilder ks => mkop 0x12 [Some (GNum (N.of_nat (length ks)))] (norms true ks)
    | TResTemplate ks =>
        (* a Buffer whose declared size is its payload: the descriptors' bytes and the end tag (not parsed as AML) *)
        match template_payload ks with
        | Some payload => Some (GBuffer (GInt (N.of_nat (length payload))) payload)
        | None => None
        end
    | TIf pr ks => mkop 0xA0 [norm false pr] (norms false ks)
    | TElse ks => mkop 0xA1 [] (norms false ks)
    | TWhile pr ks => mkop 0xA2 [norm false pr] (norms false ks)
    end.

  Definition norms (el : bool) (l : list term) : option (list gt) := map_opt (norm el) l.

  Lemma norms_fix el l :
    (fix norms (el' : bool) (l : list term) : option (list gt) :=
       match l with
       | [] => Some []
       | x :: r => match norm el' x, norms el' r with Some a, Some b => Some (a :: b) | _, _ => None end
       end) el l = norms el l.
  Proof. induction l as [|x l IH]; [reflexivity|]. cbn [norms map_opt]. rewrite IH. reflexivity. Qed.

  Fixpoint wf (el : bool) (t : term) {struct t} : Prop :=
    let wfs := fix wfs (el' : bool) (l : list term) : Prop :=
                 match l with [] => True | x :: r => wf el' x /\ wfs el' r end in
    match t with
    | TZero | TOne | TOnes => True
    | TInt ty n => (ty = 8 /\ n < 2 ^ 8) \/ (ty = 16 /\ n < 2 ^ 16) \/ (ty = 32 /\ n < 2 ^ 32) \/ (ty = 64 /\ n < 2 ^ 64)
                   \/ (ty = 0 /\ n < 2 ^ 64)
    | TStr s => Forall (fun c => c <> 0) s
    | TPath s => exists q, path_new s = Some q /\ wf_parts (p_parts q) /\ (el = false -> env (key_of q) = 0%nat)
    | TFieldName s => is_nameseg s = true /\ (el = false -> env (false, [s]) = 0%nat)
    | TEisa _ | TUuid _ | TBufData _ | TArg _ | TLocal _ => True
    | TDesc _ => False
    | TOp1 k a => k < 6 /\ wf false a
    | TOp2 k a b => k < 10 /\ wf false a /\ wf false b
    | TOp3 k t a b => k < 17 /\ wf false t /\ wf false a /\ wf false b
    | TOp4 k a b c d => k < 2 /\ wf false a /\ wf false b /\ wf false c /\ wf false d
    | TName p i => wf_name p /\ wf false i
    | TDevice p ks | TScope p ks | TScopeRaw p ks => wf_name p /\ wfs false ks
    | TMethod p ar sr ks => wf_name p /\ sr <= 1 /\ wfs false ks
    | TPowerRes p lv od ks => wf_name p /\ lv < 256 /\ od < 2 ^ 16 /\ wfs false ks
    | TOpRegion p sp o l => wf_name p /\ sp < 256 /\ wf false o /\ wf false l
    | TMutex p sy => wf_name p /\ sy < 256
    | TAcquire p tm => wf_name p /\ tm < 2 ^ 16
    | TRelease p => wf_name p
    | TCall p args => (exists q, path_new p = Some q /\ wf_parts (p_parts q) /\
                                 (if el then args = [] else env (key_of q) = length args)) /\ wfs false args
    | TField p ac lk up es => wf_name p /\ ac < 16 /\ lk <= 1 /\ up < 4 /\ Forall wf_fentry es
    | TPackage ks | TPkgBuilder ks => wfs true ks
    | TResTemplate ks => Forall desc_child ks      (* bare descriptors: allowed here, and only here *)
    | TIf pr ks | TWhile pr ks => wf false pr /\ wfs false ks
    | TElse ks => wfs false ks
    end.

  Definition wfs (el : bool) (l : list term) : Prop := Forall (wf el) l.

  Lemma wfs_fix el l :
    (fix wfs (el' : bool) (l : list term) : Prop := match l with [] => True | x :: r => wf el' x /\ wfs el' r end) el l
    <-> wfs el l.
  Proof.
    induction l as [|x l IH]; [split; [constructor|trivial]|]. split.
    - intros [H1 H2]. constructor; [exact H1|now apply IH].
    - intros H. inversion H; subst. split; [assumption|now apply IH].
  Qed.

  (* The parser spends one unit of fuel per nested object, and [depth t] counts the nesting of the objects [t] is emitted as
     (a Buffer's size operand is one more layer): any fuel above it will do. *)
  Definition RT (t : term) : Prop :=
    forall el md b, wf el t -> enc md t = Some b -> N.of_nat (length b) < 2 ^ 63 ->
      exists g, norm el t = Some g /\ forall f, (depth t < f)%nat -> rt (parse env f) el b g.

  Lemma kids_rt md el ks : Forall RT ks -> wfs el ks -> forall eks, encs md ks = Some eks -> N.of_nat (length eks) < 2 ^ 63 ->
    exists es gs, eks = concat es /\ norms el ks = Some gs /\ length es = length ks /\
      forall f, (depths ks < f)%nat -> Forall2 (rt (parse env f) el) es gs.
  Proof.
    induction ks as [|x ks IH]; intros HF Hwf eks He Hsz.
    - inversion He; subst. exists [], []. repeat split. intros; constructor.
    - inversion HF as [|? ? Hx Hks]; subst. inversion Hwf as [|? ? Wx Wks]; subst.
      rewrite encs_cons in He. destruct (enc md x) as [ex|] eqn:Ex; [|discriminate]. cbn [option_bind] in He.
      destruct (encs md ks) as [er|] eqn:Er; [|discriminate]. cbn [option_bind] in He. inversion He; subst eks.
      rewrite app_length in Hsz.
      destruct (Hx el md ex Wx Ex) as (g & Hg & Hrt); [lia|].
      destruct (IH Hks Wks er eq_refl) as (es & gs & -> & Hgs & Hlen & Hall); [lia|].
      exists (ex :: es), (g :: gs). cbn [concat norms map_opt length]. fold (norms el ks). rewrite Hg, Hgs, Hlen.
      repeat split. intros f Hf. cbn [depths fold_right] in Hf. fold (depths ks) in Hf.
      constructor; [apply Hrt; lia|apply Hall; lia].
  Qed.
End Statement.

Section LeafCases.
  Variable env : arity_env.
  Notation RT := (RT env).
  Notation wf := (wf env).

  Lemma RT_zero : RT TZero.
  Proof.
    intros el md b _ E _. inversion E; subst. exists (GInt 0). split; [reflexivity|]. intros f Hf. fuel f.
    apply (rt_spec_int env f el 0). reflexivity.
  Qed.

  Lemma RT_one : RT TOne.
  Proof.
    intros el md b _ E _. inversion E; subst. exists (GInt 1). split; [reflexivity|]. intros f Hf. fuel f.
    apply (rt_spec_int env f el 1). reflexivity.
  Qed.

  Lemma RT_ones : RT TOnes.
  Proof.
    intros el md b _ E _. inversion E; subst. exists GOnes. split; [reflexivity|]. intros f Hf. fuel f.
    apply rt_const. reflexivity.
  Qed.

  Lemma RT_int ty n : RT (TInt ty n).
  Proof.
    intros el md b W E _. cbn [wf] in W. cbn [enc] in E. destruct (enc_int_spec ty n b W E) as [-> Hn].
    exists (GInt n). split; [reflexivity|]. intros f Hf. fuel f. now apply rt_spec_int.
  Qed.

  Lemma RT_str s : RT (TStr s).
  Proof.
    intros el md b W E _. cbn [wf] in W. inversion E; subst. exists (GStr s). split; [reflexivity|].
    intros f Hf. fuel f. now apply rt_string.
  Qed.

  Lemma RT_path s : RT (TPath s).
  Proof.
    intros el md b (q & Hq & Hwf & Henv) E _. cbn [enc] in E. exists (if el then GName (p_root q) (p_parts q) else GCall (p_root q) (p_parts q) []).
    split; [cbn [norm]; rewrite Hq; reflexivity|]. intros f Hf. fuel f. intros r.
    destruct (path_text_decode s q b r Hq Hwf E) as [Hd Hh]. cbn [parse].
    rewrite (parse_step_name env _ el b r _ _ r Hh Hd). destruct el; [reflexivity|].
    unfold key_of in Henv. rewrite (Henv eq_refl). reflexivity.
  Qed.

  Lemma RT_fieldname s : RT (TFieldName s).
  Proof.
    intros el md b [Hs Henv] E _. inversion E; subst. exists (if el then GName false [b] else GCall false [b] []).
    split; [reflexivity|]. intros f Hf. fuel f. intros r.
    destruct (nameseg_decode b r Hs) as [Hd Hh]. cbn [parse].
    rewrite (parse_step_name env _ el b r _ _ r Hh Hd). destruct el; [reflexivity|]. rewrite (Henv eq_refl). reflexivity.
  Qed.

  Lemma RT_arg n : RT (TArg n).
  Proof.
    intros el md b _ E _. cbn [enc] in E. destruct (N.leb_spec n 6) as [Hn|]; [|discriminate]. cbn [assert option_bind] in E.
    inversion E; subst. exists (GArg n). split; [reflexivity|]. intros f Hf. fuel f.
    apply rt_const. unfold leaf_const.
    destruct (N.eqb_spec (104 + n) 255); [lia|]. destruct (range_spec 96 103 (104 + n)); [lia|].
    destruct (range_spec 104 110 (104 + n)); [|lia]. f_equal. f_equal. lia.
  Qed.

  Lemma RT_local n : RT (TLocal n).
  Proof.
    intros el md b _ E _. cbn [enc] in E. destruct (N.leb_spec n 7) as [Hn|]; [|discriminate]. cbn [assert option_bind] in E.
    inversion E; subst. exists (GLocal n). split; [reflexivity|]. intros f Hf. fuel f.
    apply rt_const. unfold leaf_const.
    destruct (N.eqb_spec (96 + n) 255); [lia|]. destruct (range_spec 96 103 (96 + n)); [|lia]. f_equal. f_equal. lia.
  Qed.

  Lemma RT_eisa s : RT (TEisa s).
  Proof.
    intros el md b _ E _. cbn [enc] in E. unfold eisa_enc in E. destruct (eisa_value s) as [v|] eqn:Ev; [|discriminate].
    cbn [option_map] in E. inversion E; subst. exists (GInt v). split; [cbn [norm]; rewrite Ev; reflexivity|].
    pose proof (eisa_value_lt s v Ev) as Hv.
    intros f Hf. fuel f. rewrite enc_u32_spec by exact Hv. apply rt_spec_int. eapply N.lt_trans; [exact Hv|reflexivity].
  Qed.

  Lemma rt_buffer_data md f el data b :
    buffer_data md data = Some b -> N.of_nat (length b) < 2 ^ 63 ->
    rt (parse env (S (S f))) el b (GBuffer (GInt (N.of_nat (length data))) data).
  Proof.
    intros E Hsz r. destruct (framed_take md _ _ b E Hsz) as (pl & -> & Ht).
    assert (Hn : N.of_nat (length data) < 2 ^ 64) by (rewrite !app_length in Hsz; lia).
    cbn [app]. change (parse env (S (S f)) el) with (parse_step env (parse env (S f)) el).
    rewrite parse_step_buffer, <- app_assoc, Ht, enc_usize_spec by exact Hn.
    rewrite (rt_spec_int env f false _ Hn data). reflexivity.
  Qed.

  Lemma RT_bufdata d : RT (TBufData d).
  Proof.
    intros el md b _ E Hsz. exists (GBuffer (GInt (N.of_nat (length d))) d). split; [reflexivity|]. intros f Hf. cbn [depth] in Hf.
    destruct f as [|[|f]]; try lia. exact (rt_buffer_data md f el d b E Hsz).
  Qed.

  Lemma RT_uuid s : RT (TUuid s).
  Proof.
    intros el md b _ E Hsz. cbn [enc] in E. unfold uuid_enc in E. destruct (uuid_bytes s) as [u|] eqn:Eu; [|discriminate].
    cbn [option_bind] in E.
    exists (GBuffer (GInt 16) u). split; [cbn [norm]; rewrite Eu; reflexivity|]. intros f Hf. cbn [depth] in Hf.
    destruct f as [|[|f]]; try lia.
    pose proof (rt_buffer_data md f el u b E Hsz) as H. rewrite (uuid_bytes_length s u Eu) in H. exact H.
  Qed.
End LeafCases.

Section OperatorCases.
  Variable env : arity_env.
  Notation RT := (RT env).
  Notation wf := (wf env).

  Definition selects (opb : list N) (code : N) : Prop :=
    forall p el r0, parse_step env p el (opb ++ r0) = parse_op p code r0.

  Lemma dispatch1 op : leaf_lead op = false -> op <> 0x5B -> op <> 0x92 -> selects [op] op.
  Proof. intros H1 H2 H3 p el r0. cbn [app]. rewrite parse_step_op by exact H1. rewrite op_code_plain by assumption. reflexivity. Qed.

  Lemma dispatch_ext x : selects [0x5B; x] (0x5B00 + x).
  Proof. intros p el r0. cbn [app]. rewrite parse_step_op by reflexivity. rewrite op_code_ext. reflexivity. Qed.

  Lemma dispatch_lnot x : (x = 0x93 \/ x = 0x94 \/ x = 0x95) -> selects [0x92; x] (0x9200 + x).
  Proof. intros Hx p el r0. cbn [app]. rewrite parse_step_op by reflexivity. rewrite op_code_lnot by exact Hx. reflexivity. Qed.

  Ltac dsp := first [ apply dispatch1; [reflexivity|discriminate|discriminate] | apply dispatch_ext | apply dispatch_lnot; auto ].
  Inductive oparg := AName (p : list N) | AByte (b : N) | AWord (v : N) | ATerm (t : term).

  Definition arg_kind (a : oparg) : okind :=
    match a with AName _ => KName | AByte _ => KByte | AWord _ => KWord | ATerm _ => KTerm end.
  Definition arg_norm (a : oparg) : option gt :=
    match a with AName p => name_gt p | AByte b => Some (GNum b) | AWord v => Some (GNum v) | ATerm t => norm false t end.
  Definition arg_depth (a : oparg) : nat := match a with ATerm t => S (depth t) | _ => O end.
  Definition args_depth (l : list oparg) : nat := fold_right (fun a m => Nat.max (arg_depth a) m) O l.

  Definition arg_enc (md : mode) (a : oparg) (e : list N) : Prop :=
    match a with
    | AName p => wf_name p /\ enc_path_text p = Some e
    | AByte b => e = [b]
    | AWord v => v < 2 ^ 16 /\ e = w2 v
    | ATerm t => RT t /\ wf false t /\ enc md t = Some e
    end.

  Lemma args_items md D : forall args es, Forall2 (arg_enc md) args es ->
    N.of_nat (length (concat es)) < 2 ^ 63 -> (args_depth args <= D)%nat ->
    exists its, opt_all (map arg_norm args) = Some its /\
      forall f r, (D <= f)%nat -> parse_items (parse env f) (map arg_kind args) (concat es ++ r) = Some (its, r).
  Proof.
    induction 1 as [|a e args es Ha _ IH]; intros Hsz Hd.
    - exists []. split; reflexivity.
    - cbn [concat] in Hsz. rewrite app_length in Hsz. cbn [args_depth fold_right] in Hd. fold (args_depth args) in Hd.
      destruct IH as (its & Hn & Hp); [lia|lia|].
      cbn [map opt_all concat]. rewrite Hn.
      destruct a as [p|b|v|t]; cbn [arg_enc arg_norm arg_kind arg_depth] in *.
      + destruct Ha as [(q & Hq & Hwf) He]. unfold name_gt. rewrite Hq. eexists. split; [reflexivity|].
        intros f r Hf. rewrite <- app_assoc. eapply parse_items_name; [|apply Hp, Hf].
        exact (proj1 (path_text_decode p q e _ Hq Hwf He)).
      + subst e. eexists. split; [reflexivity|]. intros f r Hf. apply parse_items_byte, Hp, Hf.
      + destruct Ha as [Hv ->]. eexists. split; [reflexivity|]. intros f r Hf. rewrite <- app_assoc.
        apply parse_items_word; [exact Hv|apply Hp, Hf].
      + destruct Ha as (IHt & Wt & Et). destruct (IHt false md e Wt Et) as (g & Hg & Hrt); [lia|]. rewrite Hg.
        eexists. split; [reflexivity|]. intros f r Hf. rewrite <- app_assoc.
        eapply parse_items_term; [apply Hrt; lia|apply Hp, Hf].
  Qed.

  (* an operator without a PkgLength: opcode, then the operands *)
  Lemma RT_fixed_op md el opb code args es b D :
    selects opb code -> op_table code = Some (mk false (map arg_kind args) LNone) ->
    Forall2 (arg_enc md) args es -> opb ++ concat es = b -> N.of_nat (length b) < 2 ^ 63 -> (args_depth args <= D)%nat ->
    exists g, mkop code (map arg_norm args) (Some []) = Some g /\ forall f, (D < f)%nat -> rt (parse env f) el b g.
  Proof.
    intros Hd Ht Ha <- Hsz Hdep. rewrite app_length in Hsz.
    destruct (args_items md D args es Ha) as (its & Hn & Hp); [lia|exact Hdep|].
    exists (GOp code its []). split; [unfold mkop; rewrite Hn; reflexivity|].
    intros f Hf. fuel f. intros r. cbn [parse]. rewrite <- app_assoc, Hd.
    eapply parse_op_fixed; [exact Ht|apply Hp; lia].
  Qed.

  (* a length-delimited operator: opcode, PkgLength, the operands, then a list the table's list mode reads as [kids] *)
  Lemma RT_framed_gen md el opb code lm args es tail kids body b D :
    selects opb code -> op_table code = Some (mk true (map arg_kind args) lm) ->
    Forall2 (arg_enc md) args es ->
    (forall f, (D <= f)%nat ->
       match lm with
       | LNone => match tail with [] => Some [] | _ => None end
       | LTerms => parse_all (parse env f) (length tail) false tail
       | LElems => parse_all (parse env f) (length tail) true tail
       | LFields => parse_fields (length tail) tail
       end = Some kids) ->
    concat es ++ tail = body -> framed md opb body = Some b -> N.of_nat (length b) < 2 ^ 63 -> (args_depth args <= D)%nat ->
    exists its, opt_all (map arg_norm args) = Some its /\
                forall f, (D < f)%nat -> rt (parse env f) el b (GOp code its kids).
  Proof.
    intros Hd Ht Ha Hk <- Hfr Hsz Hda.
    destruct (framed_take md _ _ b Hfr Hsz) as (pl & -> & Htk). rewrite !app_length in Hsz.
    destruct (args_items md D args es Ha) as (its & Hn & Hp); [lia|exact Hda|].
    exists its. split; [exact Hn|].
    intros f Hf. fuel f. intros r. cbn [parse]. rewrite <- !app_assoc, Hd, (app_assoc (concat es)).
    eapply parse_op_framed; [exact Ht|apply Htk|apply Hp; lia|apply Hk; lia].
  Qed.

  (* the list is a list of child objects *)
  Lemma RT_framed_op md el el' opb code lm args es ks eks body b D :
    selects opb code -> op_table code = Some (mk true (map arg_kind args) lm) ->
    (lm = LTerms /\ el' = false) \/ (lm = LElems /\ el' = true) ->
    Forall2 (arg_enc md) args es -> Forall RT ks -> wfs env el' ks -> encs md ks = Some eks ->
    concat es ++ eks = body -> framed md opb body = Some b -> N.of_nat (length b) < 2 ^ 63 ->
    (args_depth args <= D)%nat -> (depths ks < D)%nat ->
    exists g, mkop code (map arg_norm args) (norms el' ks) = Some g /\ forall f, (D < f)%nat -> rt (parse env f) el b g.
  Proof.
    intros Hd Ht Hlm Ha HF Hwf He Hb Hfr Hsz Hda Hdk.
    destruct (kids_rt env md el' ks HF Hwf eks He) as (cs & gs & -> & Hgs & _ & Hall).
    { destruct (framed_inv md _ _ b Hfr) as (pl & _ & ->). subst body. rewrite !app_length in Hsz. lia. }
    destruct (RT_framed_gen md el opb code lm args es (concat cs) gs body b D Hd Ht Ha) as (its & Hn & Hrt); auto.
    - intros f Hf.
      assert (Hk : parse_all (parse env f) (length (concat cs)) el' (concat cs) = Some gs)
        by (apply parse_all_concat; [intros; apply parse_nil|apply Hall; lia|lia]).
      destruct Hlm as [[-> ->]|[-> ->]]; exact Hk.
    - exists (GOp code its gs). split; [unfold mkop; rewrite Hn, Hgs; reflexivity|exact Hrt].
  Qed.

  (* what each case below leaves after applying a generic theorem: the operands' encodings are in the context ([args]),
     the two byte strings differ by the association of ++ ([bytes]), the depth bound is arithmetic on Nat.max ([deep]) *)
  Ltac args := repeat first [apply Forall2_nil | apply Forall2_cons]; cbn [arg_enc]; eauto.
  Ltac bytes := cbn [concat app]; rewrite ?app_nil_r, <- ?app_assoc; reflexivity.
  Ltac deep := cbn [args_depth fold_right arg_depth]; lia.

  (* unfold enc, norm, wf and depth at the constructor and give their inner list loops their names *)
  Ltac prep E W :=
    cbn [enc] in E; rewrite ?encs_fix in E; cbn [norm]; rewrite ?norms_fix;
    cbn [wf] in W; rewrite ?wfs_fix in W; cbn [depth]; rewrite ?depth_list_fix.

  Definition op3_list : list N := [0x72; 0x73; 0x74; 0x77; 0x79; 0x7A; 0x7B; 0x7C; 0x7D; 0x7E; 0x7F; 0x84; 0x85; 0x88; 0x9C; 0x8A; 0x8F].

  Lemma op3_entry k op : op3_code k = Some op -> selects [op] op /\ op_table op = Some (mk false [KTerm; KTerm; KTerm] LNone).
  Proof.
    intros H. apply nth_error_In in H. change (In op op3_list) in H. cbn [op3_list In] in H.
    repeat (destruct H as [<-|H]; [split; [dsp|reflexivity]|]). destruct H.
  Qed.

  (* a Buffer whose size operand is the term [a] and whose data is empty *)
  Lemma RT_bufterm a : RT a -> RT (TOp1 4 a).
  Proof.
    intros IHa el md b W E Hsz. prep E W. destruct W as [_ Wa]. binds E. destruct (framed_take md _ _ b E Hsz) as (pl & -> & Ht).
    rewrite !app_length in Hsz.
    match goal with Ea : enc md a = Some ?ea |- _ => destruct (IHa false md ea Wa Ea) as (ga & Hga & Hrt); [lia|] end.
    rewrite Hga. eexists. split; [reflexivity|]. intros f Hf. fuel f. intros r. cbn [app parse]. rewrite parse_step_buffer.
    rewrite <- app_assoc, Ht.
    pose proof (Hrt f ltac:(lia) []) as H0. rewrite app_nil_r in H0. rewrite H0. reflexivity.
  Qed.

  Lemma RT_op1 k a : RT a -> RT (TOp1 k a).
  Proof.
    intros IHa. destruct (N.eq_dec k 4) as [->|N4]; [now apply RT_bufterm|].
    intros el md b W. pose proof W as [Hk Wa]. revert W.
    assert (Hk' : k = 0 \/ k = 1 \/ k = 2 \/ k = 3 \/ k = 5) by lia.
    destruct Hk' as [->|[->|[->|[->| ->]]]];
      intros W E Hsz; prep E W; cbn [op1_code] in E; binds E; [injection E as <-..|].
    - eapply (RT_fixed_op md el [0x8E] 0x8E [ATerm a] [_]); [dsp|reflexivity|args|bytes|exact Hsz|deep].
    - eapply (RT_fixed_op md el [0x87] 0x87 [ATerm a] [_]); [dsp|reflexivity|args|bytes|exact Hsz|deep].
    - eapply (RT_fixed_op md el [0xA4] 0xA4 [ATerm a] [_]); [dsp|reflexivity|args|bytes|exact Hsz|deep].
    - eapply (RT_fixed_op md el [0x83] 0x83 [ATerm a] [_]); [dsp|reflexivity|args|bytes|exact Hsz|deep].
    - (* VarPackage: a PkgLength, the count operand, no elements *)
      eapply (RT_framed_op md el true [0x13] 0x13 LElems [ATerm a] [_] []); try eassumption;
        [dsp|reflexivity|auto|args|constructor|constructor|reflexivity|bytes|deep|cbn; lia].
  Qed.

  (* the ten two-operand operators: opcode bytes, table entry, and whether the second operand is emitted first *)
  Lemma op2_table k : k < 10 -> exists opb c (sw : bool),
    selects opb c /\ op_table c = Some (mk false [KTerm; KTerm] LNone) /\
    (forall md a b, enc md (TOp2 k a b) =
                    (do ea <- enc md a; do eb <- enc md b; Some (opb ++ if sw then eb ++ ea else ea ++ eb))) /\
    (forall el a b, norm el (TOp2 k a b) =
                    mkop c (if sw then [norm false b; norm false a] else [norm false a; norm false b]) (Some [])).
  Proof.
    intros Hk.
    assert (Hk' : k = 0 \/ k = 1 \/ k = 2 \/ k = 3 \/ k = 4 \/ k = 5 \/ k = 6 \/ k = 7 \/ k = 8 \/ k = 9) by lia.
    destruct Hk' as [->|[->|[->|[->|[->|[->|[->|[->|[->| ->]]]]]]]]].
    - exists [0x93], 0x93, false. repeat split; dsp.
    - exists [0x95], 0x95, false. repeat split; dsp.
    - exists [0x94], 0x94, false. repeat split; dsp.
    - exists [0x92; 0x93], 0x9293, false. repeat split; dsp.
    - exists [0x92; 0x95], 0x9295, false. repeat split; dsp.
    - exists [0x92; 0x94], 0x9294, false. repeat split; dsp.
    - exists [0x70], 0x70, true. repeat split; dsp.
    - exists [0x86], 0x86, false. repeat split; dsp.
    - exists [0x96], 0x96, true. repeat split; dsp.
    - exists [0x99], 0x99, true. repeat split; dsp.
  Qed.

  Lemma RT_op2 k a b : RT a -> RT b -> RT (TOp2 k a b).
  Proof.
    intros IHa IHb el md bs W E Hsz. cbn [wf] in W. destruct W as (Hk & Wa & Wb). cbn [depth].
    destruct (op2_table k Hk) as (opb & c & sw & Hs & Ht & He & Hn). rewrite He in E. rewrite Hn. binds E. injection E as <-.
    destruct sw.
    - eapply (RT_fixed_op md el opb c [ATerm b; ATerm a] [_; _]); [exact Hs|exact Ht|args|bytes|exact Hsz|deep].
    - eapply (RT_fixed_op md el opb c [ATerm a; ATerm b] [_; _]); [exact Hs|exact Ht|args|bytes|exact Hsz|deep].
  Qed.

  Lemma RT_op3 k t a b : RT t -> RT a -> RT b -> RT (TOp3 k t a b).
  Proof.
    intros IHt IHa IHb el md bs W E Hsz. prep E W. destruct W as (Hk & Wt & Wa & Wb). binds E. injection E as <-.
    match goal with Eo : op3_code k = Some ?op |- _ => destruct (op3_entry k op Eo) as [Hs Ht] end.
    eapply (RT_fixed_op md el _ _ [ATerm a; ATerm b; ATerm t] [_; _; _]); [exact Hs|exact Ht|args|bytes|exact Hsz|deep].
  Qed.

  Lemma RT_op4 k a b c d : RT a -> RT b -> RT c -> RT d -> RT (TOp4 k a b c d).
  Proof.
    intros IHa IHb IHc IHd el md bs W E Hsz. pose proof W as (Hk & Wa & Wb & Wc & Wd).
    assert (Hk' : k = 0 \/ k = 1) by lia. destruct Hk' as [->| ->]; prep E W; binds E; injection E as <-.
    - eapply (RT_fixed_op md el [0x5B; 0x13] 0x5B13 [ATerm b; ATerm c; ATerm d; ATerm a] [_; _; _; _]);
        [dsp|reflexivity|args|bytes|exact Hsz|deep].
    - eapply (RT_fixed_op md el [0x9E] 0x9E [ATerm a; ATerm b; ATerm c; ATerm d] [_; _; _; _]);
        [dsp|reflexivity|args|bytes|exact Hsz|deep].
  Qed.

  Lemma RT_name p i : RT i -> RT (TName p i).
  Proof.
    intros IHi el md b W E Hsz. prep E W. destruct W as [Wp Wi]. binds E. injection E as <-.
    eapply (RT_fixed_op md el [0x08] 0x08 [AName p; ATerm i] [_; _]); [dsp|reflexivity|args|bytes|exact Hsz|deep].
  Qed.

  Lemma RT_opregion p sp o l : RT o -> RT l -> RT (TOpRegion p sp o l).
  Proof.
    intros IHo IHl el md b W E Hsz. prep E W. destruct W as (Wp & Wsp & Wo & Wl). binds E. injection E as <-.
    eapply (RT_fixed_op md el [0x5B; 0x80] 0x5B80 [AName p; AByte sp; ATerm o; ATerm l] [_; _; _; _]);
      [dsp|reflexivity|args|bytes|exact Hsz|deep].
  Qed.

  Lemma RT_mutex p sy : RT (TMutex p sy).
  Proof.
    intros el md b W E Hsz. prep E W. destruct W as (Wp & Wsy). binds E. injection E as <-.
    eapply (RT_fixed_op md el [0x5B; 0x01] 0x5B01 [AName p; AByte sy] [_; _]); [dsp|reflexivity|args|bytes|exact Hsz|deep].
  Qed.

  Lemma RT_acquire p tm : RT (TAcquire p tm).
  Proof.
    intros el md b W E Hsz. prep E W. destruct W as (Wp & Wtm). binds E. injection E as <-.
    eapply (RT_fixed_op md el [0x5B; 0x23] 0x5B23 [AName p; AWord tm] [_; _]); [dsp|reflexivity|args|bytes|exact Hsz|deep].
  Qed.

  Lemma RT_release p : RT (TRelease p).
  Proof.
    intros el md b W E Hsz. prep E W. binds E. injection E as <-.
    eapply (RT_fixed_op md el [0x5B; 0x27] 0x5B27 [AName p] [_]); [dsp|reflexivity|args|bytes|exact Hsz|deep].
  Qed.

  Lemma RT_device p ks : Forall RT ks -> RT (TDevice p ks).
  Proof.
    intros HF el md b W E Hsz. prep E W. destruct W as [Wp Wk]. binds E.
    eapply (RT_framed_op md el false [0x5B; 0x82] 0x5B82 LTerms [AName p] [_] ks); try eassumption;
      [dsp|reflexivity|auto|args|bytes|deep|lia].
  Qed.

  Lemma RT_scope p ks : Forall RT ks -> RT (TScope p ks).
  Proof.
    intros HF el md b W E Hsz. prep E W. destruct W as [Wp Wk]. binds E.
    eapply (RT_framed_op md el false [0x10] 0x10 LTerms [AName p] [_] ks); try eassumption;
      [dsp|reflexivity|auto|args|bytes|deep|lia].
  Qed.

  Lemma RT_scoperaw p ks : Forall RT ks -> RT (TScopeRaw p ks).
  Proof. intros HF el md b W E Hsz. rewrite scope_raw_eq in E. exact (RT_scope p ks HF el md b W E Hsz). Qed.

  Lemma RT_method p ar sr ks : Forall RT ks -> RT (TMethod p ar sr ks).
  Proof.
    intros HF el md b W E Hsz. prep E W. destruct W as (Wp & Wsr & Wk).
    destruct (N.leb_spec ar 7) as [Har|]; [|binds E; discriminate]. rewrite method_flags in E by assumption. binds E.
    eapply (RT_framed_op md el false [0x14] 0x14 LTerms [AName p; AByte (ar + 8 * sr)] [_; _] ks); try eassumption;
      [dsp|reflexivity|auto|args|bytes|deep|lia].
  Qed.

  Lemma RT_power p lv od ks : Forall RT ks -> RT (TPowerRes p lv od ks).
  Proof.
    intros HF el md b W E Hsz. prep E W. destruct W as (Wp & Wlv & Wod & Wk). binds E.
    eapply (RT_framed_op md el false [0x5B; 0x84] 0x5B84 LTerms [AName p; AByte lv; AWord od] [_; _; _] ks); try eassumption;
      [dsp|reflexivity|auto|args|bytes|deep|lia].
  Qed.

  Lemma RT_else ks : Forall RT ks -> RT (TElse ks).
  Proof.
    intros HF el md b W E Hsz. prep E W. binds E.
    eapply (RT_framed_op md el false [0xA1] 0xA1 LTerms [] [] ks); try eassumption; [dsp|reflexivity|auto|args|bytes|deep|lia].
  Qed.

  Lemma RT_if pr ks : RT pr -> Forall RT ks -> RT (TIf pr ks).
  Proof.
    intros Hpr HF el md b W E Hsz. prep E W. destruct W as [Wp Wk]. binds E.
    eapply (RT_framed_op md el false [0xA0] 0xA0 LTerms [ATerm pr] [_] ks); try eassumption;
      [dsp|reflexivity|auto|args|bytes|deep|lia].
  Qed.

  Lemma RT_while pr ks : RT pr -> Forall RT ks -> RT (TWhile pr ks).
  Proof.
    intros Hpr HF el md b W E Hsz. prep E W. destruct W as [Wp Wk]. binds E.
    eapply (RT_framed_op md el false [0xA2] 0xA2 LTerms [ATerm pr] [_] ks); try eassumption;
      [dsp|reflexivity|auto|args|bytes|deep|lia].
  Qed.

  Lemma RT_package ks : Forall RT ks -> RT (TPackage ks).
  Proof.
    intros HF el md b W E Hsz. prep E W.
    destruct (N.leb_spec (N.of_nat (length ks)) 255) as [Hn|]; [|binds E; discriminate].
    unfold cast, U8 in E. rewrite N.mod_small in E by lia. binds E.
    eapply (RT_framed_op md el true [0x12] 0x12 LElems [AByte (N.of_nat (length ks))] [_] ks); try eassumption;
      [dsp|reflexivity|auto|args|bytes|deep|lia].
  Qed.

  Lemma RT_pkgbuilder ks : Forall RT ks -> RT (TPkgBuilder ks).
  Proof. intros HF el md b W E Hsz. rewrite pkg_builder_eq in E. exact (RT_package ks HF el md b W E Hsz). Qed.

  (* method invocation: a NameString, then as many TermArgs as the method takes *)
  Lemma RT_call p args : Forall RT args -> RT (TCall p args).
  Proof.
    intros HF el md b W E Hsz. prep E W. destruct W as ((q & Hq & Hwf & Har) & Wargs).
    destruct (enc_path_text p) as [ep|] eqn:Ep; [|discriminate]. cbn [option_bind] in E.
    destruct (encs md args) as [ea|] eqn:Ea; [|discriminate]. cbn [option_bind] in E. injection E as <-.
    rewrite app_length in Hsz.
    destruct (kids_rt env md false args HF Wargs ea Ea) as (es & gs & -> & Hgs & Hlen & Hall); [lia|].
    rewrite Hq. fold (norms false args). rewrite Hgs.
    eexists. split; [reflexivity|]. intros f Hf. fuel f. intros r.
    destruct (path_text_decode p q ep (concat es ++ r) Hq Hwf Ep) as [Hd Hh].
    cbn [parse]. rewrite <- app_assoc. rewrite (parse_step_name env _ el ep (concat es ++ r) _ _ _ Hh Hd).
    destruct el.
    - (* element position: a bare reference, no arguments allowed *)
      subst args. destruct es; [|discriminate]. injection Hgs as <-. reflexivity.
    - unfold key_of in Har. rewrite Har, <- Hlen. rewrite (parse_n_concat (parse env f) es gs r) by (apply Hall; lia). reflexivity.
  Qed.

  Lemma RT_field p ac lk up es : RT (TField p ac lk up es).
  Proof.
    intros el md b W E Hsz. prep E W. destruct W as (Wp & Wac & Wlk & Wup & Wes).
    rewrite field_flags in E by assumption. set (fl := ac + 16 * lk + 32 * up) in *.
    destruct (enc_path_text p) as [ep|] eqn:Ep; [|discriminate].
    destruct (opt_concat_map (enc_fentry md) es) as [ees|] eqn:Ee; [|discriminate]. cbn [option_bind] in E.
    destruct (RT_framed_gen md el [0x5B; 0x81] 0x5B81 LFields [AName p; AByte fl] [ep; [fl]] ees (map fentry_gt es) (ep ++ [fl] ++ ees) b O)
      as (its & Hn & Hrt); try eassumption; [dsp|reflexivity|args| |bytes|deep|].
    - intros f _. exact (parse_fields_concat md es ees _ Wes Ee (Nat.le_refl _)).
    - exists (GOp 0x5B81 its (map fentry_gt es)). split; [unfold mkop; cbn [map arg_norm] in Hn; rewrite Hn; reflexivity|exact Hrt].
  Qed.

  Lemma RT_restemplate ks : RT (TResTemplate ks).
  Proof.
    intros el md b W E Hsz. cbn [wf] in W. rewrite restemplate_framed in E.
    destruct (opt_concat_map (enc md) ks) as [eks|] eqn:Ek; [|discriminate]. cbn [option_bind] in E.
    exists (GBuffer (GInt (N.of_nat (length (eks ++ [0x79; 0])))) (eks ++ [0x79; 0])).
    split; [cbn [norm]; rewrite (encs_template md ks eks W Ek); reflexivity|].
    intros f Hf. cbn [depth] in Hf. destruct f as [|[|f]]; try lia. exact (rt_buffer_data env md f el _ b E Hsz).
  Qed.

  Theorem roundtrip : forall t, RT t.
  Proof.
    apply term_ind'. intros t IH. destruct t; cbn [sub_all] in IH; decompose [and] IH.
    - apply RT_zero. - apply RT_one. - apply RT_ones. - apply RT_int. - apply RT_str. - apply RT_path.
    - apply RT_fieldname. - apply RT_eisa. - apply RT_uuid. - apply RT_bufdata. - apply RT_arg. - apply RT_local.
    - intros el md b W. destruct W.
    - now apply RT_op1. - now apply RT_op2. - now apply RT_op3. - now apply RT_op4.
    - now apply RT_name. - now apply RT_device. - now apply RT_scope. - now apply RT_scoperaw. - now apply RT_method.
    - now apply RT_power. - now apply RT_opregion. - apply RT_mutex. - apply RT_acquire. - apply RT_release.
    - now apply RT_call.
    - apply RT_field.
    - now apply RT_package. - now apply RT_pkgbuilder.
    - apply RT_restemplate.
    - now apply RT_if. - now apply RT_else. - now apply RT_while.
  Qed.
End OperatorCases.

(* Non-vacuity of the Field and ResourceTemplate cases: concrete terms are well-formed, are emitted, and parse back
   (completely, r = []) to their normal form. *)

(* Field (FLD0, ByteAcc, Lock, WriteAsOnes) { ABCD, 8, Offset-style gap of 4 bits, EFGH, 300, gap of 70000 bits, _X01, 1 } :
   widths needing 1-, 2- and 3-byte PkgLengths *)
Definition field_demo : term :=
  TField [70; 76; 68; 48] 1 1 1
    [FNamed [65; 66; 67; 68] 8; FReserved 4; FNamed [69; 70; 71; 72] 300; FReserved 70000; FNamed [95; 88; 48; 49] 1].

(* ResourceTemplate { Memory32Fixed (rw, 0xFED00000, 0x1000), IO (0x3F8, 0x3F8, 1, 8), Interrupt (consumer, level, high, excl, 4),
   QWordMemory [0x1_0000_0000 .. 0x1_FFFF_FFFF] } *)
Definition template_demo : term :=
  TResTemplate [TDesc (DMem32 1 0xFED00000 0x1000); TDesc (DIO 0x3F8 0x3F8 1 8); TDesc (DIrq 1 0 0 0 4);
                TDesc (DAddr 64 0 1 1 0x100000000 0x1FFFFFFFF None)].

Example field_demo_wf : wf (fun _ => O) false field_demo.
Proof.
  cbn [field_demo wf]. split; [|split; [reflexivity|split; [discriminate|split; [reflexivity|]]]].
  - eexists. split; [vm_compute; reflexivity|]. repeat constructor.
  - repeat constructor.
Qed.

Example template_demo_wf : wf (fun _ => O) false template_demo.
Proof. cbn [template_demo wf]. repeat constructor; eexists; reflexivity. Qed.

Example field_demo_parses :
  match enc Wrapping field_demo with
  | Some b => parse (fun _ => O) 1 false b = option_map (fun g => (g, [])) (norm false field_demo) /\
              norm false field_demo =
              Some (GOp 0x5B81 [GName false [[70; 76; 68; 48]]; GNum 49]
                      [GField [65; 66; 67; 68] 8; GField [] 4; GField [69; 70; 71; 72] 300; GField [] 70000;
                       GField [95; 88; 48; 49] 1])
  | None => False
  end.
Proof. vm_compute. split; reflexivity. Qed.

Example template_demo_parses :
  match enc Wrapping template_demo with
  | Some b => parse (fun _ => O) 2 false b = option_map (fun g => (g, [])) (norm false template_demo) /\
              match norm false template_demo with
              | Some (GBuffer (GInt n) payload) => n = N.of_nat (length payload) /\ n = 12 + 8 + 9 + 46 + 2
              | _ => False
              end
  | None => False
  end.
Proof. vm_compute. repeat split; reflexivity. Qed.

Example field_demo_roundtrip md b : enc md field_demo = Some b -> N.of_nat (length b) < 2 ^ 63 ->
  exists g, norm false field_demo = Some g /\ forall r, parse (fun _ => O) 1 false (b ++ r) = Some (g, r).
Proof.
  intros E Hsz. destruct (roundtrip (fun _ => O) field_demo false md b field_demo_wf E Hsz) as (g & Hg & Hrt).
  exists g. split; [exact Hg|]. intros r. apply Hrt. cbn [depth field_demo]. lia.
Qed.

Example template_demo_roundtrip md b : enc md template_demo = Some b -> N.of_nat (length b) < 2 ^ 63 ->
  exists g, norm false template_demo = Some g /\ forall r, parse (fun _ => O) 2 false (b ++ r) = Some (g, r).
Proof.
  intros E Hsz. destruct (roundtrip (fun _ => O) template_demo false md b template_demo_wf E Hsz) as (g & Hg & Hrt).
  exists g. split; [exact Hg|]. intros r. apply Hrt. cbn. lia.
Qed.

Print Assumptions roundtrip.
