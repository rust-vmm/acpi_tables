(* Coherence of the executable judgement (Judge.v: oracle, run_case) with the theorems about the Impl model, continued
   (Props/CoherenceTables.v covers the oracles of C04 / C11 / C12, C01, C02): the oracles that WALK the observed images.
   The theorems are statements (proved in place are only coherence_judge_history, which is judge_obs without its image
   predicate, coherence_domains_prefix_closed, a case split over ten lemmas, and coherence_walk_equal_streams); the proofs
   are in Proofs/CoherenceTablesP.v (generic: judge_obs, pend_in, walk_coherent; [pend] itself is defined in CoherenceWalkP.v)
   and Proofs/CoherenceWalkOraclesP.v (c05_coherent, c03_table), applied here to what each table's model covers (<t>_covers,
   Proofs/CoherenceAddP.v).  The second half of the file is examples ([shape] and [set_num] serve to state them).

   For every WELL-FORMED case c = (ctor op ...) (every atom among the operations is the observation marker 1: [markers_ok])
   whose history [real_ops ops] lies inside the Spec's domain (ts_image = Some r: what Judge.judged reports, except for the
   SLIT 14, where judged answers true without computing the reference image), in both build profiles, the oracle ACCEPTS the
   model's own observation stream:

     C05 (components 16 17 18 19, the four tables whose additions return handles)
         oracle 5 comp c (run_case md comp c) = true
         -- every observed image is the reference image of the operations applied so far AND every handle the model has
         returned so far is, in EVERY later observed image, the offset at which the Spec walker finds the entry added by the
         operation that returned it (c05_handles_ok, asked at every observation with all pending handles);
     C03 (components 10 11 12 13 15 16 17 18 19 20 21, and 22 / 14 through c03_extra_oracle as well)
         oracle 3 comp c (run_case md comp c) = true
         -- at every observation c03_judge (the walk finds exactly the (type, length) list of the entries added so far, lands
         on the end, count fields hold) and c03_self (every entry found is consistent with itself); for the RQSC also the
         nested controller / resource walk, for the SLIT the count-and-matrix shape.

   Hence an ORACLE alarm of C05 / C03 on such a case cannot come from the judgement alone: where the crate's stream EQUALS the
   model's, no alarm ([coherence_walk_equal_streams]).  That is weaker than for C04 / C01 / C02 (Props/CoherenceTables.v,
   coherence_no_false_alarm): there the correspondence K, which the driver computes through Judge.project, implies acceptance;
   for C03 and C05 K compares walk digests, and the oracles of C05 (image = reference image) and C03 (c03_self reads fields
   inside the entries) do NOT factor through that projection, so K does not by itself imply acceptance.
   The executable judgement agrees with the theorems of Props/C05.v and Props/C03.v on ALL in-domain histories.

   Hypotheses kept from the refinement theorems (the same as in Props/CoherenceTables.v): the u32 Length bound on the reference
   image of the WHOLE history (not VIOT: its Spec bounds the table by 2^16; not SLIT), [madt_ops_wf] / [srat_ops_wf], and for the
   HEST the restriction to histories without stand-alone structures.

   Two general facts are stated beside the per-table theorems: [coherence_judge_history], judge_history with ANY handles_ok
   accepts the model's stream when every image on the way passes, where the pending list is the one the model's own reports
   produce ([pend]; [coherence_pending_origin] says where its pairs come from); and that the part of the Spec's
   domain the theorems cover is closed under prefixes -- unlike c04_oracle, c03_judge reads ts_entries and c05_handles_ok walks
   the image also where ts_image has no reference: every observation must be the reference image of a covered prefix.  For the
   ten addition tables the whole domain is closed and reference images do not shrink ([coherence_domains_prefix_closed]); the
   same holds of the RQSC (rqsc_dom_prefix) and, without the lengths, of the SLIT (slit_dom_closed, Proofs/CoherenceAddP.v).
   The HEST domain is NOT closed (the reference image ignores earlier stand-alone operations 20 / 21, also malformed ones, so a
   history can be in the domain while its prefix ending in such an operation is not); its part without stand-alone structures,
   the one the theorems here cover, is (hest_dom_prefix). *)
From Coq Require Import NArith List.
From ACPI Require Import Lib.Sx Spec.Layout Judge Proofs.FixedP.
From ACPI Require Import Spec.XsdtS Spec.McfgS Spec.MadtS Spec.SratS Spec.SlitS Spec.HmatS Spec.PpttS Spec.RhctS Spec.RimtS
  Spec.ViotS Spec.CedtS Spec.HestS Spec.RqscS.
From ACPI Require Import Proofs.MadtRefP Proofs.SratRefP Proofs.WalkRefTablesP Proofs.RhctWalkRefP Proofs.ViotWalkRefP
  Proofs.RimtWalkRefP Proofs.PpttSelfP Proofs.HandleModelP.
From ACPI Require Import Proofs.CoherenceTablesP Proofs.CoherenceAddP Proofs.CoherenceAllP Proofs.CoherenceWalkP
  Proofs.CoherenceWalkOraclesP.
Import ListNotations.
Open Scope N_scope.

(* [pend step returns s n p acc]: the pending list judge_history holds after the real operations p, applied from state s when n
   operations had been applied before and [acc] was pending: (h, k) for every operation number k for which [returns] says a
   handle is returned, h the number the model reported.  [obs image step s ops] is run_history's stream from state s. *)
Theorem coherence_judge_history :
  forall (S : Type) (image : S -> option (list N)) (step : S -> sx -> option (S * list ev)),
    (forall s o s' evs, step s o = Some (s', evs) -> exists h, evs = [EvNum h]) ->
  forall returns judge handles_ok ops s sf rp pending,
    markers_ok ops = true ->
    run_steps step s ops = Some sf ->
    (forall p q s1, real_ops ops = p ++ q -> run_steps step s p = Some s1 ->
                    exists img, image s1 = Some img /\ judge img (rev rp ++ p) = true
                                /\ handles_ok img (pend step returns s (length rp) p pending) = true) ->
    judge_history returns judge handles_ok rp ops (obs image step s ops) pending = true.
Proof.
  intros S image step Hone returns judge handles_ok ops s sf rp pending Hm Hr Hp.
  apply (judge_obs image step Hone returns judge handles_ok (fun _ => true) ops s sf rp pending Hm Hr).
  intros p q s1 E Hs. destruct (Hp p q s1 E Hs) as (img & Hi & Hj & Hh). exists img. auto.
Qed.

Theorem coherence_pending_origin :
  forall (S : Type) (step : S -> sx -> option (S * list ev)),
    (forall s o s' evs, step s o = Some (s', evs) -> exists h, evs = [EvNum h]) ->
  forall returns p s n acc h k,
    all_lists p -> In (h, k) (pend step returns s n p acc) ->
    In (h, k) acc \/
    exists pre o post sk sk1, p = pre ++ o :: post /\ k = (n + length pre)%nat /\
      run_steps step s pre = Some sk /\ step sk o = Some (sk1, [EvNum h]) /\ returns o = true.
Proof. exact @pend_in. Qed.

Theorem coherence_c05_pptt : forall md ctor ops r,
  markers_ok ops = true ->
  ts_image pptt_spec ctor (real_ops ops) = Some r ->
  N.of_nat (length r) < 2 ^ 32 ->
  oracle 5 16 (SL (ctor :: ops)) (run_case md 16 (SL (ctor :: ops))) = true.
Proof. exact (c05_coherent pptt_covers eq_refl pptt_model_handles). Qed.

Theorem coherence_c05_rhct : forall md ctor ops r,
  markers_ok ops = true ->
  ts_image rhct_spec ctor (real_ops ops) = Some r ->
  N.of_nat (length r) < 2 ^ 32 ->
  oracle 5 17 (SL (ctor :: ops)) (run_case md 17 (SL (ctor :: ops))) = true.
Proof. exact (c05_coherent rhct_covers eq_refl rhct_model_handles). Qed.

Theorem coherence_c05_rimt : forall md ctor ops r,
  markers_ok ops = true ->
  ts_image rimt_spec ctor (real_ops ops) = Some r ->
  N.of_nat (length r) < 2 ^ 32 ->
  oracle 5 18 (SL (ctor :: ops)) (run_case md 18 (SL (ctor :: ops))) = true.
Proof. exact (c05_coherent rimt_covers eq_refl rimt_model_handles). Qed.

Theorem coherence_c05_viot : forall md ctor ops r,
  markers_ok ops = true ->
  ts_image viot_spec ctor (real_ops ops) = Some r ->
  oracle 5 19 (SL (ctor :: ops)) (run_case md 19 (SL (ctor :: ops))) = true.
Proof.
  intros md ctor ops r Hm Ht.
  exact (c05_coherent viot_covers eq_refl
           (fun md ctor pre o post r H _ => viot_model_handles md ctor pre o post r H) md ctor ops r Hm Ht
           (viot_image_small _ _ _ Ht)).
Qed.

Theorem coherence_c03_xsdt : forall md ctor ops r,
  markers_ok ops = true ->
  ts_image xsdt_spec ctor (real_ops ops) = Some r ->
  N.of_nat (length r) < 2 ^ 32 ->
  oracle 3 10 (SL (ctor :: ops)) (run_case md 10 (SL (ctor :: ops))) = true.
Proof.
  exact (c03_table 10 xsdt_covers eq_refl (fun c p r H _ => xsdt_reference_tiles c p r H) xsdt_selfcheck).
Qed.

Theorem coherence_c03_mcfg : forall md ctor ops r,
  markers_ok ops = true ->
  ts_image mcfg_spec ctor (real_ops ops) = Some r ->
  N.of_nat (length r) < 2 ^ 32 ->
  oracle 3 11 (SL (ctor :: ops)) (run_case md 11 (SL (ctor :: ops))) = true.
Proof.
  exact (c03_table 11 mcfg_covers eq_refl (fun c p r H _ => mcfg_reference_tiles c p r H) mcfg_selfcheck).
Qed.

Theorem coherence_c03_madt : forall md ctor ops r,
  markers_ok ops = true ->
  madt_ops_wf (real_ops ops) ->
  ts_image madt_spec ctor (real_ops ops) = Some r ->
  N.of_nat (length r) < 2 ^ 32 ->
  oracle 3 12 (SL (ctor :: ops)) (run_case md 12 (SL (ctor :: ops))) = true.
Proof.
  intros md ctor ops r Hm Hw Ht Hf.
  exact (c03_table 12 madt_covers eq_refl (fun c p r H _ => madt_reference_tiles c p r H) madt_selfcheck md ctor ops r Hm Ht (conj Hw Hf)).
Qed.

Theorem coherence_c03_srat : forall md ctor ops r,
  markers_ok ops = true ->
  srat_ops_wf (real_ops ops) ->
  ts_image srat_spec ctor (real_ops ops) = Some r ->
  N.of_nat (length r) < 2 ^ 32 ->
  oracle 3 13 (SL (ctor :: ops)) (run_case md 13 (SL (ctor :: ops))) = true.
Proof.
  intros md ctor ops r Hm Hw Ht Hf.
  exact (c03_table 13 srat_covers eq_refl (fun c p r H _ => srat_reference_tiles c p r H) srat_selfcheck md ctor ops r Hm Ht (conj Hw Hf)).
Qed.

Theorem coherence_c03_slit : forall md ctor ops r,
  markers_ok ops = true ->
  ts_image slit_spec ctor (real_ops ops) = Some r ->
  oracle 3 14 (SL (ctor :: ops)) (run_case md 14 (SL (ctor :: ops))) = true.
Proof. exact slit_c03_coherent. Qed.

Theorem coherence_c03_hmat : forall md ctor ops r,
  markers_ok ops = true ->
  ts_image hmat_spec ctor (real_ops ops) = Some r ->
  N.of_nat (length r) < 2 ^ 32 ->
  oracle 3 15 (SL (ctor :: ops)) (run_case md 15 (SL (ctor :: ops))) = true.
Proof.
  exact (c03_table 15 hmat_covers eq_refl (fun c p r H _ => hmat_reference_tiles c p r H) hmat_selfcheck).
Qed.

Theorem coherence_c03_pptt : forall md ctor ops r,
  markers_ok ops = true ->
  ts_image pptt_spec ctor (real_ops ops) = Some r ->
  N.of_nat (length r) < 2 ^ 32 ->
  oracle 3 16 (SL (ctor :: ops)) (run_case md 16 (SL (ctor :: ops))) = true.
Proof.
  exact (c03_table 16 pptt_covers eq_refl (fun c p r H _ => pptt_reference_tiles c p r H) pptt_selfcheck).
Qed.

Theorem coherence_c03_rhct : forall md ctor ops r,
  markers_ok ops = true ->
  ts_image rhct_spec ctor (real_ops ops) = Some r ->
  N.of_nat (length r) < 2 ^ 32 ->
  oracle 3 17 (SL (ctor :: ops)) (run_case md 17 (SL (ctor :: ops))) = true.
Proof.
  exact (c03_table 17 rhct_covers eq_refl (fun c p r H _ => rhct_reference_tiles c p r H) rhct_selfcheck).
Qed.

Theorem coherence_c03_rimt : forall md ctor ops r,
  markers_ok ops = true ->
  ts_image rimt_spec ctor (real_ops ops) = Some r ->
  N.of_nat (length r) < 2 ^ 32 ->
  oracle 3 18 (SL (ctor :: ops)) (run_case md 18 (SL (ctor :: ops))) = true.
Proof.
  exact (c03_table 18 rimt_covers eq_refl rimt_reference_tiles rimt_selfcheck).
Qed.

Theorem coherence_c03_viot : forall md ctor ops r,
  markers_ok ops = true ->
  ts_image viot_spec ctor (real_ops ops) = Some r ->
  oracle 3 19 (SL (ctor :: ops)) (run_case md 19 (SL (ctor :: ops))) = true.
Proof.
  intros md ctor ops r Hm Ht.
  exact (c03_table 19 viot_covers eq_refl (fun c p r H _ => viot_reference_tiles c p r H) viot_selfcheck md ctor ops r Hm Ht (viot_image_small _ _ _ Ht)).
Qed.

Theorem coherence_c03_cedt : forall md ctor ops r,
  markers_ok ops = true ->
  ts_image cedt_spec ctor (real_ops ops) = Some r ->
  N.of_nat (length r) < 2 ^ 32 ->
  oracle 3 20 (SL (ctor :: ops)) (run_case md 20 (SL (ctor :: ops))) = true.
Proof.
  exact (c03_table 20 cedt_covers eq_refl (fun c p r H _ => cedt_reference_tiles c p r H) cedt_selfcheck).
Qed.

Theorem coherence_c03_hest : forall md ctor ops r,
  markers_ok ops = true ->
  forallb (fun o => negb (is_alone_op o)) (real_ops ops) = true ->
  ts_image hest_spec ctor (real_ops ops) = Some r ->
  N.of_nat (length r) < 2 ^ 32 ->
  oracle 3 21 (SL (ctor :: ops)) (run_case md 21 (SL (ctor :: ops))) = true.
Proof. exact hest_c03_coherent. Qed.

Theorem coherence_c03_rqsc : forall md ctor ops r,
  markers_ok ops = true ->
  ts_image rqsc_spec ctor (real_ops ops) = Some r ->
  N.of_nat (length r) < 2 ^ 32 ->
  oracle 3 22 (SL (ctor :: ops)) (run_case md 22 (SL (ctor :: ops))) = true.
Proof. exact rqsc_c03_coherent. Qed.

(* the domains of these ten Specs are closed under prefixes, and their reference images do not shrink *)
Theorem coherence_domains_prefix_closed :
  forall spec, In spec [xsdt_spec; mcfg_spec; madt_spec; srat_spec; hmat_spec; cedt_spec; pptt_spec; rhct_spec; rimt_spec; viot_spec] ->
  forall ctor p q r, ts_image spec ctor (p ++ q) = Some r ->
    exists r1, ts_image spec ctor p = Some r1 /\ (length r1 <= length r)%nat.
Proof.
  intros spec Hin. cbn [In] in Hin. destruct Hin as [<-|[<-|[<-|[<-|[<-|[<-|[<-|[<-|[<-|[<-|[]]]]]]]]]]].
  - exact xsdt_dom_prefix.
  - exact mcfg_dom_prefix.
  - exact madt_dom_prefix.
  - exact srat_dom_prefix.
  - exact hmat_dom_prefix.
  - exact cedt_dom_prefix.
  - exact pptt_dom_prefix.
  - exact rhct_dom_prefix.
  - exact rimt_dom_prefix.
  - exact viot_dom_prefix.
Qed.

(* equal streams are judged equally (K on whole streams); see the header about Judge.project *)
Theorem coherence_walk_equal_streams : forall prop comp md c impl,
  oracle prop comp c (run_case md comp c) = true ->
  evs_eqb (run_case md comp c) impl = true -> oracle prop comp c impl = true.
Proof. intros prop comp md c impl H E. apply evs_eqb_eq in E. now subst impl. Qed.

(* non-vacuity *)
Definition exw_ctor3 : sx := SL [SL (map SA [65; 66; 67; 68; 69; 70]); SL (map SA [1; 2; 3; 4; 5; 6; 7; 8]); SA 1].

(* RIMT: IOMMU; platform device; second IOMMU; PCIe root complex with two ID mappings, to the handle of operation 2 and to the
   handle of operation 0 -- with an observation before the first operation, after each IOMMU and at the end *)
Definition exw_rimt_map (k : N) : sx := SL [SA 0; SA 0; SA 16; SL [SA 104; SA k]; SA 0; SA 0; SA 0].
Definition exw_rimt_ops : list sx :=
  [ SA 1; SL [SA 1; SA 5; SL []; SL []; SL []; SL []]; SA 1; SL [SA 3; SA 1; SL (map SA [65; 66]); SL []];
    SL [SA 1; SA 6; SL []; SL []; SL []; SL []]; SA 1;
    SL [SA 2; SA 9; SA 0; SA 1; SA 0; SL [SL [exw_rimt_map 2; exw_rimt_map 0]]]; SA 1 ].

Definition shape (evs : list ev) : list (option N) := map (fun e => match e with EvNum h => Some h | _ => None end) evs.

(* a stream in which the k-th number is replaced *)
Fixpoint set_num (k : nat) (v : N) (evs : list ev) : list ev :=
  match evs with
  | [] => []
  | EvNum h :: r => match k with O => EvNum v :: r | S k' => EvNum h :: set_num k' v r end
  | e :: r => e :: set_num k v r
  end.

Example coherence_c05_rimt_not_vacuous :
  let c := SL (exw_ctor3 :: exw_rimt_ops) in
  markers_ok exw_rimt_ops = true /\
  (exists r, ts_image rimt_spec exw_ctor3 (real_ops exw_rimt_ops) = Some r /\ N.of_nat (length r) < 2 ^ 32) /\
  (* the model's stream: image, handle 48, image, 0, handle 95, image, 0, image *)
  shape (run_case Wrapping 18 c) = [None; Some 48; None; Some 0; Some 95; None; Some 0; None] /\
  run_case Checked 18 c = run_case Wrapping 18 c /\
  oracle 5 18 c (run_case Wrapping 18 c) = true /\ oracle 5 18 c (run_case Checked 18 c) = true /\
  oracle 3 18 c (run_case Wrapping 18 c) = true /\ oracle 3 18 c (run_case Checked 18 c) = true /\
  (* the judgement is not trivial: a wrong handle for the first or for the second IOMMU is rejected (at a LATER observation) *)
  oracle 5 18 c (set_num 0 49 (run_case Wrapping 18 c)) = false /\
  oracle 5 18 c (set_num 2 80 (run_case Wrapping 18 c)) = false.
Proof.
  intros c. apply and_use; [vm_compute; reflexivity|eexists; split; [vm_compute; reflexivity|vm_compute; reflexivity]|intros Hm (r & Ht & Hf)].
  split; [vm_compute; reflexivity|]. split; [vm_compute; reflexivity|].
  split; [exact (coherence_c05_rimt Wrapping _ _ r Hm Ht Hf)|]. split; [exact (coherence_c05_rimt Checked _ _ r Hm Ht Hf)|].
  split; [exact (coherence_c03_rimt Wrapping _ _ r Hm Ht Hf)|]. split; [exact (coherence_c03_rimt Checked _ _ r Hm Ht Hf)|].
  vm_compute. split; reflexivity.
Qed.

(* the theorems applied to the example *)
Example coherence_c05_rimt_instance :
  let c := SL (exw_ctor3 :: exw_rimt_ops) in
  forall md, oracle 5 18 c (run_case md 18 c) = true /\ oracle 3 18 c (run_case md 18 c) = true.
Proof.
  intros c md. destruct coherence_c05_rimt_not_vacuous as (Hm & (r & Ht & Hf) & _).
  split; [exact (coherence_c05_rimt md exw_ctor3 exw_rimt_ops r Hm Ht Hf)|exact (coherence_c03_rimt md exw_ctor3 exw_rimt_ops r Hm Ht Hf)].
Qed.

(* PPTT: L2 cache; package; L1 cache whose next level is the L2; core with parent = package and private resources L1, L2;
   an observation after every operation *)
Definition exw_pptt_ops : list sx :=
  [ SL [SA 2; SL [SL [SA 1; SA 4096]]]; SA 1;
    SL [SA 1; SL []; SA 0; SL [SL [SA 1]]]; SA 1;
    SL [SA 2; SL [SL [SA 9; SL [SA 104; SA 0]]]]; SA 1;
    SL [SA 1; SL [SA 104; SA 1]; SA 7; SL [SL [SA 6; SL [SA 104; SA 2]]; SL [SA 6; SL [SA 104; SA 0]]]]; SA 1 ].

Example coherence_c05_pptt_not_vacuous :
  let c := SL (exw_ctor3 :: exw_pptt_ops) in
  markers_ok exw_pptt_ops = true /\
  (exists r, ts_image pptt_spec exw_ctor3 (real_ops exw_pptt_ops) = Some r /\ N.of_nat (length r) < 2 ^ 32) /\
  shape (run_case Wrapping 16 c) = [Some 36; None; Some 64; None; Some 84; None; Some 112; None] /\
  run_case Checked 16 c = run_case Wrapping 16 c /\
  oracle 5 16 c (run_case Wrapping 16 c) = true /\ oracle 5 16 c (run_case Checked 16 c) = true /\
  oracle 3 16 c (run_case Wrapping 16 c) = true /\ oracle 3 16 c (run_case Checked 16 c) = true /\
  oracle 5 16 c (set_num 1 60 (run_case Wrapping 16 c)) = false.
Proof.
  intros c. apply and_use; [vm_compute; reflexivity|eexists; split; [vm_compute; reflexivity|vm_compute; reflexivity]|intros Hm (r & Ht & Hf)].
  split; [vm_compute; reflexivity|]. split; [vm_compute; reflexivity|].
  split; [exact (coherence_c05_pptt Wrapping _ _ r Hm Ht Hf)|]. split; [exact (coherence_c05_pptt Checked _ _ r Hm Ht Hf)|].
  split; [exact (coherence_c03_pptt Wrapping _ _ r Hm Ht Hf)|]. split; [exact (coherence_c03_pptt Checked _ _ r Hm Ht Hf)|].
  vm_compute. reflexivity.
Qed.

(* C03 on tables without handles: exw_madt_*, exw_rqsc_*, exw_slit_* are the cases ex_madt_*, ex_rqsc_*, ex_slit_* of
   Props/CoherenceTables.v, written again because this file does not import that one *)
Definition exw_madt_ctor : sx := SL [SL [SA 255; SA 255; SA 255; SA 255; SA 255; SA 255]; SL [SA 255; SA 255; SA 255; SA 255; SA 255; SA 255; SA 255; SA 255]; SA 16567578; SL []].
Definition exw_madt_ops : list sx :=
  [SA 1; SL [SA 2; SA 35; SA 2147483648; SA 1]; SA 1; SL [SA 11; SA 254; SL [SA 118; SA 57; SA 141; SA 138; SA 206; SA 213; SA 243; SA 137]; SA 2147; SA 2779096485; SA 4557430888798830399; SA 1175481320; SA 65534]; SA 1].
Definition exw_rqsc_ctor : sx := SL [SL [SA 0; SA 0; SA 0; SA 0; SA 0; SA 0]; SL [SA 0; SA 0; SA 0; SA 0; SA 0; SA 0; SA 0; SA 0]; SA 3193990782].
Definition exw_rqsc_ops : list sx :=
  [SA 1; SL [SA 1; SA 0; SL [SA 1; SA 0; SA 3; SA 245; SA 254; SA 1]; SA 0; SA 531838662; SA 65534; SL [SL [SA 1; SA 56852; SL [SA 1; SA 0; SA 1374463283923456787]]]]; SA 1].
Definition exw_slit_ctor : sx := SL [SL [SA 255; SA 255; SA 255; SA 255; SA 255; SA 255]; SL [SA 255; SA 255; SA 255; SA 255; SA 255; SA 255; SA 255; SA 255]; SA 3970050675; SA 2].
Definition exw_slit_ops : list sx :=
  [SA 1; SL [SA 1; SA 1; SA 1; SA 219]; SA 1; SL [SA 1; SA 0; SA 0; SA 16]; SA 1].

Example coherence_c03_not_vacuous :
  (let c := SL (exw_madt_ctor :: exw_madt_ops) in
   markers_ok exw_madt_ops = true /\
   (exists r, ts_image madt_spec exw_madt_ctor (real_ops exw_madt_ops) = Some r /\ N.of_nat (length r) < 2 ^ 32) /\
   oracle 3 12 c (run_case Wrapping 12 c) = true /\ oracle 3 12 c (run_case Checked 12 c) = true /\
   existsb (fun e => match e with EvBytes _ => true | _ => false end) (run_case Wrapping 12 c) = true) /\
  (let c := SL (exw_rqsc_ctor :: exw_rqsc_ops) in
   markers_ok exw_rqsc_ops = true /\
   (exists r, ts_image rqsc_spec exw_rqsc_ctor (real_ops exw_rqsc_ops) = Some r /\ N.of_nat (length r) < 2 ^ 32) /\
   oracle 3 22 c (run_case Wrapping 22 c) = true /\ oracle 3 22 c (run_case Checked 22 c) = true /\
   existsb (fun e => match e with EvBytes _ => true | _ => false end) (run_case Wrapping 22 c) = true) /\
  (let c := SL (exw_slit_ctor :: exw_slit_ops) in
   markers_ok exw_slit_ops = true /\
   (exists r, ts_image slit_spec exw_slit_ctor (real_ops exw_slit_ops) = Some r) /\
   oracle 3 14 c (run_case Wrapping 14 c) = true /\ oracle 3 14 c (run_case Checked 14 c) = true /\
   existsb (fun e => match e with EvBytes _ => true | _ => false end) (run_case Wrapping 14 c) = true).
Proof.
  split; [|split].
  - intros c. apply and_use; [vm_compute; reflexivity|eexists; split; [vm_compute; reflexivity|vm_compute; reflexivity]|intros Hm (r & Ht & Hf)].
    assert (Hw : madt_ops_wf (real_ops exw_madt_ops)) by (vm_compute; repeat constructor).
    split; [exact (coherence_c03_madt Wrapping _ _ r Hm Hw Ht Hf)|]. split; [exact (coherence_c03_madt Checked _ _ r Hm Hw Ht Hf)|].
    vm_compute. reflexivity.
  - intros c. apply and_use; [vm_compute; reflexivity|eexists; split; [vm_compute; reflexivity|vm_compute; reflexivity]|intros Hm (r & Ht & Hf)].
    split; [exact (coherence_c03_rqsc Wrapping _ _ r Hm Ht Hf)|]. split; [exact (coherence_c03_rqsc Checked _ _ r Hm Ht Hf)|].
    vm_compute. reflexivity.
  - intros c. apply and_use; [vm_compute; reflexivity|eexists; vm_compute; reflexivity|intros Hm (r & Ht)].
    split; [exact (coherence_c03_slit Wrapping _ _ r Hm Ht)|]. split; [exact (coherence_c03_slit Checked _ _ r Hm Ht)|].
    vm_compute. reflexivity.
Qed.

Print Assumptions coherence_judge_history.
Print Assumptions coherence_pending_origin.
Print Assumptions coherence_c05_pptt.
Print Assumptions coherence_c05_rhct.
Print Assumptions coherence_c05_rimt.
Print Assumptions coherence_c05_viot.
Print Assumptions coherence_c03_xsdt.
Print Assumptions coherence_c03_mcfg.
Print Assumptions coherence_c03_madt.
Print Assumptions coherence_c03_srat.
Print Assumptions coherence_c03_slit.
Print Assumptions coherence_c03_hmat.
Print Assumptions coherence_c03_pptt.
Print Assumptions coherence_c03_rhct.
Print Assumptions coherence_c03_rimt.
Print Assumptions coherence_c03_viot.
Print Assumptions coherence_c03_cedt.
Print Assumptions coherence_c03_hest.
Print Assumptions coherence_c03_rqsc.
Print Assumptions coherence_domains_prefix_closed.
Print Assumptions coherence_walk_equal_streams.
