(* `walktable_fit`: the record `walktable` (Proofs/Tables.v) with a weaker obligation -- self-description may assume the
   entry shorter than 2^32 bytes, which every entry of an image below 2^32 bytes is -- and the same tiling theorem.  No
   table needs the weaker form; every `walktable` is one (`walktable_as_fit`). *)
From Coq Require Import NArith List Lia.
From ACPI Require Import Impl.Table Spec.Layout Proofs.TableP Proofs.WalkP Proofs.Tables Proofs.WalkW3Common Proofs.BaseP.
Import ListNotations.
Open Scope N_scope.

Record walktable_fit := {
  wf_table : addtable;
  wf_ehdr : ehdr;
  wf_self : forall s o e, at_entry wf_table s o = Some e -> N.of_nat (length (a_bytes e)) < 2 ^ 32 ->
                          exists ty, self_describing wf_ehdr (a_bytes e) ty;
  wf_new_empty : forall c s0, at_new wf_table c = Some s0 -> t_ents s0 = []
}.

(* every walktable is one *)
Definition walktable_as_fit (W : walktable) : walktable_fit :=
  {| wf_table := wt_table W; wf_ehdr := wt_ehdr W;
     wf_self := fun s o e H _ => wt_self W s o e H; wf_new_empty := wt_new_empty W |}.

Lemma wf_entry_le_concat (es : list (list N)) : Forall (fun e => (length e <= length (concat es))%nat) es.
Proof.
  induction es as [|x es IH]; [constructor|]. cbn [concat]. rewrite app_length. constructor; [lia|].
  eapply Forall_impl; [|exact IH]. cbn beta. intros a Ha. lia.
Qed.

(* after every accepted history, every entry of the table describes itself *)
Lemma walktable_fit_entries (W : walktable_fit) md c ops s0 s :
  at_new (wf_table W) c = Some s0 -> run_adds (at_entry (wf_table W)) md s0 ops = Some s ->
  N.of_nat (length (tbl_image s)) < 2 ^ 32 ->
  Forall (fun e => exists ty, self_describing (wf_ehdr W) e ty) (t_ents s).
Proof.
  intros Hn Hr Hfit.
  assert (HF : Forall (fun e => N.of_nat (length e) < 2 ^ 32 -> exists ty, self_describing (wf_ehdr W) e ty) (t_ents s)).
  { apply (run_adds_forall (at_kind (wf_table W)) (at_entry (wf_table W)) (at_sound (wf_table W)) _ md ops s0 s);
      [exact (wf_self W)|exact (at_new_inv (wf_table W) c s0 Hn)|exact Hr|exact Hfit|].
    rewrite (wf_new_empty W c s0 Hn). constructor. }
  (* an entry is no longer than the image it is part of *)
  pose proof (wf_entry_le_concat (t_ents s)) as Hle. rewrite Forall_forall in *. intros e He. apply (HF e He).
  specialize (Hle e He). cbn beta in Hle. unfold tbl_image, t_body in Hfit. rewrite !app_length in Hfit. lia.
Qed.

(* same conclusion as `walktable_tiles` (Proofs/Tables.v) *)
Lemma walktable_fit_tiles (W : walktable_fit) md c ops s0 s :
  at_new (wf_table W) c = Some s0 -> run_adds (at_entry (wf_table W)) md s0 ops = Some s ->
  N.of_nat (length (tbl_image s)) < 2 ^ 32 ->
  let first := (36 + length (mid (t_kind s) (t_pre s) 0))%nat in
  exists tys,
    Forall2 (self_describing (wf_ehdr W)) (t_ents s) tys /\
    walk (length (t_ents s)) (wf_ehdr W) first (skipn first (tbl_image s)) = Some (walk_result first (t_ents s) tys) /\
    concat (t_ents s) = skipn first (tbl_image s) /\
    t_cnt s = N.of_nat (length (t_ents s)).
Proof.
  intros Hn Hr Hfit.
  exact (tiles_of_entries _ s (proj1 (addtable_reach (wf_table W) md c ops s0 s Hn Hr Hfit)) Hfit
           (walktable_fit_entries W md c ops s0 s Hn Hr Hfit)).
Qed.

Print Assumptions walktable_fit_tiles.
