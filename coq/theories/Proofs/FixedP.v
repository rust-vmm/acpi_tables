(* Lemmas shared by the per-table proofs: packed field lists, model tables checked entry by entry, lists of builder calls,
   and histories of a step function: `run_steps`, the one runner (each per-table runner is proved equal to it where it is
   defined, by `run_steps_unique`), with its induction principle `run_steps_inv`. *)
From Coq Require Import ZArith List Lia Bool.
From ACPI Require Import Lib.Bytes Lib.Sx Impl.Checksum Impl.Fields Impl.Madt Impl.Srat Proofs.FlagsP.
Import ListNotations.

Open Scope N_scope.

Lemma ser_flds_length f : length (ser_flds f) = flds_len f.
Proof.
  unfold ser_flds. induction f as [|[w v] r IH]; [reflexivity|].
  cbn [map concat flds_len fst snd]. rewrite app_length, length_le, IH. reflexivity.
Qed.

Lemma flds_len_fset f i v : flds_len (fset f i v) = flds_len f.
Proof.
  revert i; induction f as [|[w x] r IH]; intros [|i]; cbn [fset flds_len]; try reflexivity. now rewrite IH.
Qed.

Lemma flds_len_f_or f i v : flds_len (f_or f i v) = flds_len f.
Proof. rewrite f_or_fset. apply flds_len_fset. Qed.

Lemma flds_len_app a b : flds_len (a ++ b) = (flds_len a + flds_len b)%nat.
Proof. induction a as [|[w x] r IH]; cbn [app flds_len]; [reflexivity|]. rewrite IH. lia. Qed.

Lemma flds_len_fbytes l : flds_len (fbytes l) = length l.
Proof. unfold fbytes. induction l as [|x l IH]; cbn [map flds_len length]; [reflexivity|]. now rewrite IH. Qed.

Lemma ck_append2 s A B : ck_append (ck_append s A) B = fold_left ck_append [A; B] s.
Proof. reflexivity. Qed.

(* a fixed table of the model, checked entry by entry (with the entry's position) by evaluation *)
Fixpoint checki {A} (p : nat -> A -> bool) (k : nat) (l : list A) : bool :=
  match l with [] => true | x :: r => p k x && checki p (S k) r end.

Lemma checki_nth {A} (p : nat -> A -> bool) l : forall k, checki p k l = true ->
  forall n x, nth_error l n = Some x -> p (k + n)%nat x = true.
Proof.
  induction l as [|y l IH]; intros k H [|n] x Hn; try discriminate; cbn [checki] in H; apply andb_true_iff in H as [H1 H2].
  - injection Hn as <-. now rewrite Nat.add_0_r.
  - rewrite Nat.add_succ_r. exact (IH (S k) H2 n x Hn).
Qed.

(* lists of builder calls: what every call keeps, the whole list keeps *)
Lemma apply_builders_inv {A} (b : A -> sx -> option A) (P : A -> Prop) :
  (forall x o x', P x -> b x o = Some x' -> P x') ->
  forall l x x', P x -> apply_builders b x l = Some x' -> P x'.
Proof.
  intros Hb. induction l as [|o l IH]; intros x x' Hp H; cbn [apply_builders] in H.
  - inversion H; subst. exact Hp.
  - destruct (b x o) as [x1|] eqn:E; [|discriminate]. apply (IH x1); [|exact H]. eapply Hb; eauto.
Qed.

(* the MADT's setter lists are builder lists on field lists *)
Lemma apply_setters_builders setter f l : apply_setters setter f l = apply_builders setter f l.
Proof.
  revert f. induction l as [|o l IH]; intros f; cbn [apply_setters apply_builders]; [reflexivity|].
  destruct (setter f o); [apply IH|reflexivity].
Qed.

(* histories of a step function (observation markers are skipped) *)
Section Steps.
  Context {S : Type}.
  Variable step : S -> sx -> option (S * list ev).

  Fixpoint run_steps (s : S) (ops : list sx) : option S :=
    match ops with
    | [] => Some s
    | SA _ :: r => run_steps s r
    | o :: r => match step s o with Some (s', _) => run_steps s' r | None => None end
    end.

  Lemma run_steps_inv (P : S -> Prop) :
    (forall s o s' e, P s -> step s o = Some (s', e) -> P s') ->
    forall ops s s', P s -> run_steps s ops = Some s' -> P s'.
  Proof.
    intros Hstep. induction ops as [|o ops IH]; intros s s' Hp H; cbn [run_steps] in H.
    - inversion H; subst. exact Hp.
    - destruct o as [n|l]; [now apply (IH s)|].
      destruct (step s (SL l)) as [[s1 e]|] eqn:E; [|discriminate].
      apply (IH s1); [|exact H]. eapply Hstep; eauto.
  Qed.

  (* a runner that a per-table file writes out for its own step function is [run_steps] of that step *)
  Lemma run_steps_unique (run : S -> list sx -> option S) :
    (forall s ops, run s ops = match ops with
                               | [] => Some s
                               | SA _ :: r => run s r
                               | o :: r => match step s o with Some (s', _) => run s' r | None => None end
                               end) ->
    forall ops s, run s ops = run_steps s ops.
  Proof.
    intros E. induction ops as [|[n|l] ops IH]; intros s; rewrite E; cbn [run_steps]; [reflexivity|apply IH|].
    destruct (step s (SL l)) as [[s1 e]|]; [apply IH|reflexivity].
  Qed.

  Lemma run_steps_app ops1 : forall ops2 s,
    run_steps s (ops1 ++ ops2) = match run_steps s ops1 with Some s1 => run_steps s1 ops2 | None => None end.
  Proof.
    induction ops1 as [|o ops1 IH]; intros ops2 s; cbn [app run_steps]; [reflexivity|].
    destruct o as [n|l]; [apply IH|]. destruct (step s (SL l)) as [[s1 e]|]; [apply IH|reflexivity].
  Qed.

  Lemma run_steps_ctor {C} (new : C -> option S) (P : S -> Prop) :
    (forall c s, new c = Some s -> P s) -> (forall s o s' e, P s -> step s o = Some (s', e) -> P s') ->
    forall c ops s0 s, new c = Some s0 -> run_steps s0 ops = Some s -> P s.
  Proof. intros Hn Hs c ops s0 s H0 Hr. exact (run_steps_inv P Hs ops s0 s (Hn c s0 H0) Hr). Qed.
End Steps.
