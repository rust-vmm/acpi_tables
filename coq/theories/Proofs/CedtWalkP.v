(* CEDT: every structure an accepted add_* pushes describes itself (type u8, reserved u8, record length u16) -- the walk
   instance for C03 -- and the narrow count / length fields inside the structures hold the true values; inputs whose
   count does not fit are refused, in both build profiles (C18).
   Sites: CXIMS "number of bitmap entries" (u8, offset 7) and record length (u16, offset 2);
          CFMWS interleave target list (count encoded by the ways code at offset 24) and record length (u16, offset 2);
          CHBS / RDPAS record lengths (constants). *)
From Coq Require Import NArith List Lia.
From ACPI Require Import Lib.Bytes Lib.Sx Lib.Machine Impl.Table Impl.Fields Impl.Cedt Spec.Layout Proofs.TableP Proofs.WalkP Proofs.Tables Proofs.CedtP Proofs.WalkW3Common Proofs.BaseP Proofs.CedtStructP.
Import ListNotations.
Open Scope N_scope.

Lemma cedt_addition_self s o e : cedt_addition s o = Some e -> exists ty, self_describing H_u8_x_u16 (a_bytes e) ty.
Proof. intros H. apply cedt_addition_cases in H as (d & _ & Hok & Ha & ->). eexists. exact (cedt_rec_self d Hok Ha). Qed.

Lemma cedt_new_empty c s0 : cedt_new c = Some s0 -> t_ents s0 = [].
Proof. exact (plain_new_empty KCedt _ _ c s0). Qed.

Definition cedt_walk : walktable :=
  {| wt_table := cedt_table; wt_ehdr := H_u8_x_u16; wt_self := cedt_addition_self; wt_new_empty := cedt_new_empty |}.

(* counts and lengths inside the structures *)

(* every CEDT structure: the u16 record length at offset 2 is the number of bytes the structure occupies *)
Lemma cedt_record_length_exact s o e :
  cedt_addition s o = Some e -> field_at (a_bytes e) 2 2 = N.of_nat (length (a_bytes e)).
Proof. exact (walktable_entry_len_field cedt_walk 1 1 2 s o e eq_refl). Qed.

(* CXIMS: "number of bitmap entries" (byte at offset 7) is the number of bitmaps given, and the record length is
   8 + 8 * that number *)
Lemma cedt_cxims_count_exact s gran maps e :
  cedt_addition s (SL [SA 3; SA gran; SL maps]) = Some e ->
  field_at (a_bytes e) 7 1 = N.of_nat (length maps) /\
  field_at (a_bytes e) 2 2 = 8 + 8 * N.of_nat (length maps) /\
  N.of_nat (length (a_bytes e)) = 8 + 8 * N.of_nat (length maps).
Proof.
  intros H. pose proof (cedt_record_length_exact _ _ _ H) as Hrec.
  apply cedt_addition_cases in H as (d & Hop & Hok & Ha & ->). cbn [cedt_rec_addition a_bytes] in *.
  inversion Hop as [| |? ? ms Ems|]; subst. cbn [cedt_rec_asserts] in Ha.
  rewrite Hrec, (cedt_rec_length _ Hok), <- (sx_nums_length _ _ Ems). cbn [cedt_rec_size].
  split; [|split; lia]. apply (cedt_rec_field_below (RCxims gran ms) 7 1 _ 256 eq_refl eq_refl). lia.
Qed.

(* more than 255 bitmaps: refused (the serialiser's assert), whatever the build profile; this also covers every
   record whose length 8 + 8 * n would not fit the u16 length field *)
Lemma cedt_cxims_refuses s gran maps :
  (256 <= length maps)%nat -> cedt_addition s (SL [SA 3; SA gran; SL maps]) = None.
Proof.
  intros Hbig. apply cedt_addition_refused. intros d Hop Ha. inversion Hop as [| |? ? ms Ems|]; subst.
  cbn [cedt_rec_asserts] in Ha. rewrite (sx_nums_length _ _ Ems) in Ha. lia.
Qed.

Lemma cedt_cxims_refuses_step md s gran maps :
  (256 <= length maps)%nat -> add_step cedt_addition md s (SL [SA 3; SA gran; SL maps]) = None.
Proof. intros H. apply add_step_refused. now apply cedt_cxims_refuses. Qed.

Lemma cedt_cxims_length_refuses md s gran maps :
  2 ^ 16 <= 8 + 8 * N.of_nat (length maps) -> add_step cedt_addition md s (SL [SA 3; SA gran; SL maps]) = None.
Proof. intros H. apply cedt_cxims_refuses_step. change (2 ^ 16) with 65536 in H. lia. Qed.

(* CFMWS: the ways code at offset 24 decodes to the number of interleave targets given, and the record length is
   0x24 + 4 * that number *)
Lemma cedt_cfmws_targets_exact s base size arith gran ways qtg builders targets e :
  cedt_addition s (SL [SA 2; SA base; SA size; SA arith; SA gran; SA ways; SA qtg; SL builders; SL targets]) = Some e ->
  num_ways (field_at (a_bytes e) 24 1) = Some (N.of_nat (length targets)) /\
  field_at (a_bytes e) 2 2 = 36 + 4 * N.of_nat (length targets) /\
  N.of_nat (length (a_bytes e)) = 36 + 4 * N.of_nat (length targets).
Proof.
  intros H. pose proof (cedt_record_length_exact _ _ _ H) as Hrec.
  apply cedt_addition_cases in H as (d & Hop & Hok & Ha & ->). cbn [cedt_rec_addition a_bytes] in *.
  destruct (cedt_op_cfmws _ _ _ _ _ _ _ _ _ _ Hop) as (nw & restr & tg & Enw & _ & Et & ->). cbn [cedt_rec_asserts] in Ha.
  rewrite Hrec, (cedt_rec_length _ Hok), <- (sx_list_all_length _ _ _ Et). cbn [cedt_rec_size].
  split; [|split; lia].
  rewrite (cedt_rec_field_below (RCfmws base size ways arith gran restr qtg nw tg) 24 1 ways 256 eq_refl eq_refl)
    by (destruct (num_ways_small _ _ Enw); lia).
  rewrite Enw, Ha. reflexivity.
Qed.

(* a target list whose size is not the one the ways code stands for is refused (assert_eq! in the serialiser); in
   particular more than 16 targets are always refused *)
Lemma cedt_cfmws_refuses s base size arith gran ways qtg builders targets :
  num_ways ways <> Some (N.of_nat (length targets)) ->
  cedt_addition s (SL [SA 2; SA base; SA size; SA arith; SA gran; SA ways; SA qtg; SL builders; SL targets]) = None.
Proof.
  intros Hne. apply cedt_addition_refused. intros d Hop Ha.
  destruct (cedt_op_cfmws _ _ _ _ _ _ _ _ _ _ Hop) as (nw & restr & tg & Enw & _ & Et & ->). cbn [cedt_rec_asserts] in Ha.
  apply Hne. rewrite Enw, Ha, (sx_list_all_length _ _ _ Et). reflexivity.
Qed.

Lemma cedt_cfmws_refuses_many md s base size arith gran ways qtg builders targets :
  (17 <= length targets)%nat ->
  add_step cedt_addition md s (SL [SA 2; SA base; SA size; SA arith; SA gran; SA ways; SA qtg; SL builders; SL targets]) = None.
Proof.
  intros Hbig. apply add_step_refused. apply cedt_cfmws_refuses.
  destruct (num_ways ways) as [nw|] eqn:Enw; [|discriminate].
  destruct (num_ways_small _ _ Enw) as [Hnw _]. intros H. apply Some_inj in H. lia.
Qed.

(* after every accepted history: every structure in the table carries its true size *)
Corollary cedt_history_record_lengths md c ops s0 s :
  cedt_new c = Some s0 -> run_adds cedt_addition md s0 ops = Some s -> N.of_nat (length (tbl_image s)) < 2 ^ 32 ->
  Forall (fun e => field_at e 2 2 = N.of_nat (length e)) (t_ents s).
Proof. exact (walktable_history_len_fields cedt_walk 1 1 2 md c ops s0 s eq_refl). Qed.

Print Assumptions cedt_walk.
Print Assumptions cedt_record_length_exact.
Print Assumptions cedt_cxims_count_exact.
Print Assumptions cedt_cxims_refuses_step.
Print Assumptions cedt_cxims_length_refuses.
Print Assumptions cedt_cfmws_targets_exact.
Print Assumptions cedt_cfmws_refuses.
Print Assumptions cedt_cfmws_refuses_many.
Print Assumptions cedt_history_record_lengths.
