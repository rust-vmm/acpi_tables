(* MADT: the obligations of the generic history invariant (`madt_new_inv`, `madt_addition_sound`); every MADT structure describes
   itself (`good_entry`, also used for the packed structure of SRAT; feeds `madt_walk`, C03); the operation shapes the
   specification accepts (`madt_shape`: the one inversion of `madt_entry_ref`, for C04's refinement and for C03 on the reference). *)
From Coq Require Import ZArith List Lia.
From ACPI Require Import Lib.Bytes Lib.Sx Lib.Machine Impl.Table Impl.Fields Impl.Madt Spec.Layout Spec.MadtS Proofs.TableP
  Proofs.FixedP Proofs.WalkP Proofs.BaseP.
Import ListNotations.
Open Scope N_scope.

Lemma madt_new_shape c s0 : madt_new c = Some s0 -> exists h pre, hdr_ok h = true /\ s0 = tbl_new KMadt h pre.
Proof.
  unfold madt_new. destruct c as [|[|o [|t [|r [|lic [|x l]]]]]]; try discriminate.
  intros H. apply bind_Some in H as (h & Eh & H). apply bind_Some in H as (addr & _ & H). apply Some_inj in H.
  exists h, (d4 addr ++ d4 0). split; [exact (sx_hdr_ok _ _ _ _ _ _ Eh eq_refl)|now symmetry].
Qed.

Lemma madt_new_inv c s0 : madt_new c = Some s0 -> Inv2 KMadt s0.
Proof. intros H. destruct (madt_new_shape c s0 H) as (h & pre & Hh & ->). now apply tbl_new_inv2. Qed.

Lemma madt_new_empty c s0 : madt_new c = Some s0 -> t_ents s0 = [].
Proof. intros H. destruct (madt_new_shape c s0 H) as (h & pre & _ & ->). reflexivity. Qed.

Lemma madt_addition_sound s o e : t_kind s = KMadt -> madt_addition s o = Some e ->
  a_claimed e = N.of_nat (length (a_bytes e)) /\
  (needs_pos (t_kind s) = true -> (1 <= length (a_bytes e))%nat /\ a_claimed e < 2 ^ 16).
Proof.
  intros Hk. unfold madt_addition.
  destruct (assert _); [|discriminate]. cbn [option_bind].
  destruct (madt_entry o); [|discriminate]. cbn [option_bind]. intros H. inversion H; subst; cbn [a_claimed a_bytes].
  split; [reflexivity|]. rewrite Hk. discriminate.
Qed.

Definition head2 (f : flds) : option (N * N) :=
  match f with (1%nat, t) :: (1%nat, n) :: _ => Some (t, n) | _ => None end.

Lemma fset_head2 f i v : (2 <= i)%nat -> head2 (fset f i v) = head2 f.
Proof. intros H. destruct f as [|[w0 v0] [|[w1 v1] r]]; destruct i as [|[|i]]; try lia; reflexivity. Qed.
Lemma f_or_head2 f i v : (2 <= i)%nat -> head2 (f_or f i v) = head2 f.
Proof. intros H. destruct f as [|[w0 v0] [|[w1 v1] r]]; destruct i as [|[|i]]; try lia; reflexivity. Qed.

Definition good_entry (f : flds) : Prop :=
  exists t n, head2 f = Some (t, n) /\ t < 256 /\ n < 256 /\ N.to_nat n = flds_len f /\ (1 <= flds_len f)%nat.

Lemma good_entry_self f : good_entry f -> exists ty, self_describing H_u8_u8 (ser_flds f) ty.
Proof.
  intros (t & n & Hh & Ht & Hn & Hl & Hp). exists t.
  destruct f as [|[w0 v0] [|[w1 v1] r]]; cbn [head2] in Hh; try discriminate;
    try (destruct w0 as [|[|w0]]; discriminate).
  destruct w0 as [|[|w0]]; destruct w1 as [|[|w1]]; cbn [head2] in Hh; try discriminate. inversion Hh; subst.
  split; [rewrite ser_flds_length; exact Hp|]. intros rest. rewrite ser_flds_length, <- Hl.
  unfold ser_flds. cbn [map concat fst snd le app read_ehdr]. rewrite !N.mod_small by lia. reflexivity.
Qed.

Lemma gicc_setter_inv f o f' : gicc_setter f o = Some f' -> head2 f' = head2 f /\ flds_len f' = flds_len f.
Proof.
  unfold gicc_setter. intros H. split_matches H; inversion H; subst;
    rewrite ?fset_head2, ?f_or_head2, ?flds_len_fset, ?flds_len_f_or by lia; auto.
Qed.

Lemma gicmsi_setter_inv f o f' : gicmsi_setter f o = Some f' -> head2 f' = head2 f /\ flds_len f' = flds_len f.
Proof.
  unfold gicmsi_setter. intros H. split_matches H; inversion H; subst;
    rewrite ?fset_head2, ?f_or_head2, ?flds_len_fset, ?flds_len_f_or by lia; auto.
Qed.

Lemma apply_setters_inv setter :
  (forall f o f', setter f o = Some f' -> head2 f' = head2 f /\ flds_len f' = flds_len f) ->
  forall l f f', apply_setters setter f l = Some f' -> head2 f' = head2 f /\ flds_len f' = flds_len f.
Proof.
  intros Hs l f f' H. rewrite apply_setters_builders in H.
  apply (apply_builders_inv setter (fun g => head2 g = head2 f /\ flds_len g = flds_len f)) in H; [exact H| |split; reflexivity].
  intros x o x' [H1 H2] E. destruct (Hs _ _ _ E) as [H3 H4]. split; congruence.
Qed.

Lemma good_entry_intro f t n : head2 f = Some (t, n) -> t < 256 -> n < 256 -> N.to_nat n = flds_len f -> (1 <= flds_len f)%nat -> good_entry f.
Proof. intros. exists t, n. auto. Qed.

Lemma apply_setters_good setter :
  (forall f o f', setter f o = Some f' -> head2 f' = head2 f /\ flds_len f' = flds_len f) ->
  forall l f f', apply_setters setter f l = Some f' -> good_entry f -> good_entry f'.
Proof.
  intros Hs l f f' H (t & n & G). destruct (apply_setters_inv setter Hs l f f' H) as [E1 E2].
  exists t, n. rewrite E1, E2. exact G.
Qed.

Lemma madt_entry_good o f : madt_entry o = Some f -> good_entry f.
Proof.
  intros H. op_cases H o l of madt_entry; break_sx H.
  (* GICC and GIC MSI frame: the setters keep what the constructor built *)
  all: try apply (apply_setters_good _ gicc_setter_inv _ _ _ H); try apply (apply_setters_good _ gicmsi_setter_inv _ _ _ H).
  (* the structure that takes an 8-byte array *)
  all: try (apply bind_Some in H as (hw & Eh & H); pose proof (sx_arr_length _ _ _ Eh) as Hlen;
            do 8 (destruct hw as [|? hw]; [discriminate|]); (destruct hw; [|discriminate])).
  (* in every case a constructor's field list, whose type and length bytes are read off *)
  all: try (apply Some_inj in H; subst f); eapply good_entry_intro; [reflexivity|lia|lia|reflexivity|cbn; lia].
Qed.

Lemma madt_addition_self s o e : madt_addition s o = Some e -> exists ty, self_describing H_u8_u8 (a_bytes e) ty.
Proof.
  unfold madt_addition. destruct (assert _); [|discriminate]. cbn [option_bind].
  destruct (madt_entry o) as [f|] eqn:E; [|discriminate]. cbn [option_bind]. intros H. inversion H; subst. cbn [a_bytes].
  apply good_entry_self. eapply madt_entry_good; eauto.
Qed.

Inductive madt_shape : sx -> Prop :=
| MS1 uid id en : madt_shape (SL [SA 1; SA uid; SA id; SA en])
| MS2 id addr gsi : madt_shape (SL [SA 2; SA id; SA addr; SA gsi])
| MS3 status st : madt_shape (SL [SA 3; SA status; SL st])
| MS4 id base ver : madt_shape (SL [SA 4; SA id; SA base; SA ver])
| MS5 st : madt_shape (SL [SA 5; SL st])
| MS6 base len : madt_shape (SL [SA 6; SA base; SA len])
| MS7 id base : madt_shape (SL [SA 7; SA id; SA base])
| MS8 st hart uid ext ib isz : madt_shape (SL [SA 8; SA st; SA hart; SA uid; SA ext; SA ib; SA isz])
| MS9 a b c d e g : madt_shape (SL [SA 9; SA a; SA b; SA c; SA d; SA e; SA g])
| MS10 a b c d e g : madt_shape (SL [SA 10; SA a; SA b; SA c; SA d; SA e; SA g])
| MS11 id hw idcs gsi addr size total : madt_shape (SL [SA 11; SA id; hw; SA idcs; SA gsi; SA addr; SA size; SA total])
| MS12 id hw total maxp size addr gsi : madt_shape (SL [SA 12; SA id; hw; SA total; SA maxp; SA size; SA addr; SA gsi]).

Lemma madt_ref_shape o b : madt_entry_ref o = Some b -> madt_shape o.
Proof. intros H. op_cases H o l of madt_entry_ref; break_sx H; constructor. Qed.
