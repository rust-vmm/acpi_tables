(* About Impl/Table.v, the state of an incrementally maintained table, in this order: what holds of any image that starts with
   the standard 36-byte header; the invariant `Inv`; what one accepted `tbl_add` does and that it keeps `Inv`; histories of
   additions `run_adds`, which keep `Inv2` (C01, C02), and a returned handle is the offset of its entry (C05); the
   constructors and their header decoder. *)
From Coq Require Import ZArith List Lia Bool.
From ACPI Require Import Lib.Bytes Lib.Sx Lib.Machine Impl.Checksum Impl.Table Impl.Fields Impl.Madt Spec.Layout Proofs.ChecksumP Proofs.BaseP Proofs.FixedP.
Import ListNotations.

Open Scope N_scope.

Lemma hdr_ok_lengths h : hdr_ok h = true ->
  length (h_sig h) = 4%nat /\ length (h_oem h) = 6%nat /\ length (h_tbl h) = 8%nat.
Proof. unfold hdr_ok. rewrite !andb_true_iff, !Nat.eqb_eq. tauto. Qed.

Lemma hdr_ok_sig h : hdr_ok h = true -> length (h_sig h) = 4%nat.
Proof. intros H. exact (proj1 (hdr_ok_lengths h H)). Qed.

Lemma length_hdr_bytes h len cks : hdr_ok h = true -> length (hdr_bytes h len cks) = 36%nat.
Proof.
  intros H. destruct (hdr_ok_lengths h H) as (H0 & H1 & H2).
  unfold hdr_bytes, d4, b1, CREATOR_ID, CREATOR_REVISION. rewrite !app_length, !length_le, H0, H1, H2. reflexivity.
Qed.

Lemma hdr_image_length h len cks rest : hdr_ok h = true ->
  length (hdr_bytes h len cks ++ rest) = (36 + length rest)%nat.
Proof. intros H. rewrite app_length, (length_hdr_bytes _ _ _ H). reflexivity. Qed.

(* C02: the dword at offset 4 of header ++ rest is the header's length field *)
Lemma hdr_len_field h len cks rest : hdr_ok h = true -> len < 2 ^ 32 ->
  field_at (hdr_bytes h len cks ++ rest) 4 4 = len.
Proof.
  intros Hh Hfit. unfold field_at, hdr_bytes. rewrite <- !app_assoc.
  pose proof (skipn_app_exact (h_sig h)) as Hsk. rewrite (hdr_ok_sig h Hh) in Hsk. rewrite Hsk.
  unfold d4. rewrite firstn_le_app. apply unle_le_small. exact Hfit.
Qed.

(* only the checksum byte (offset 9) depends on the checksum *)
Lemma hdr_bytes_frame h len c c' k : hdr_ok h = true -> k <> 9%nat -> nth k (hdr_bytes h len c) 0 = nth k (hdr_bytes h len c') 0.
Proof.
  intros Hh Hk. unfold hdr_bytes. rewrite !(app_assoc (h_sig h)), !(app_assoc (h_sig h ++ d4 len)).
  set (pre := (h_sig h ++ d4 len) ++ b1 (h_rev h)).
  assert (Hl : length pre = 9%nat)
    by (unfold pre, d4, b1; rewrite !app_length, !length_le, (hdr_ok_sig h Hh); reflexivity).
  destruct (Nat.ltb_spec k 9) as [Hlt|Hge].
  - rewrite !(app_nth1 pre) by (rewrite Hl; exact Hlt). reflexivity.
  - rewrite !(app_nth2 pre) by (rewrite Hl; exact Hge). unfold b1.
    rewrite (app_nth2 (le 1 c)), (app_nth2 (le 1 c')) by (rewrite length_le, Hl; lia). now rewrite !length_le.
Qed.

Lemma field_at_after_hdr h len ck body o w : hdr_ok h = true -> field_at (hdr_bytes h len ck ++ body) (36 + o) w = field_at body o w.
Proof. intros H. rewrite <- (length_hdr_bytes h len ck H). apply field_at_app_r. Qed.

Lemma zsum_hdr_bytes h len cks :
  (zsum (hdr_bytes h len cks) = zsum (hdr_bytes h 0 0) + zsum (d4 len) + Z.of_N (cks mod 256))%Z.
Proof.
  unfold hdr_bytes. rewrite !zsum_app. rewrite !zsum_b1.
  change (zsum (d4 0)) with 0%Z. change (0 mod 256) with 0.
  generalize (zsum (d4 len)). intros. cbn [Z.of_N]. lia.
Qed.

(* C01 when the checksum byte is the value() of an accumulator that has summed the image with the byte zeroed *)
Lemma hdr_sum8_zero h len c rest : c < 256 ->
  (Z.of_N c mod 256 = (zsum (hdr_bytes h len 0) + zsum rest) mod 256)%Z ->
  sum8 (hdr_bytes h len (ck_value c) ++ rest) = 0.
Proof.
  intros Hlt Hck.
  unfold sum8. apply N2Z.inj. rewrite N2Z.inj_mod by lia. rewrite <- zsum_sumN.
  rewrite zsum_app, zsum_hdr_bytes in *. change (Z.of_N 0) with 0%Z.
  change (0 mod 256) with 0 in Hck. cbn [Z.of_N] in Hck.
  destruct (ck_value_spec c Hlt) as [Hv Hvl]. unfold ck_raw in Hv.
  rewrite (N.mod_small (ck_value c) 256) by exact Hvl.
  set (X := (zsum (hdr_bytes h 0 0) + zsum (d4 len))%Z) in *.
  set (Y := zsum rest) in *. set (v := ck_value c) in *.
  assert (Hz : ((Z.of_N c + Z.of_N v) mod 256 = 0)%Z) by lia.
  clearbody X Y v. clear - Hck Hz. lia.
Qed.

(* C01 when the checksum byte is generate_checksum of the whole struct with the byte zeroed (from-scratch recomputation) *)
Lemma hdr_gen_sum8_zero h len rest :
  sum8 (hdr_bytes h len (generate_checksum (hdr_bytes h len 0 ++ rest)) ++ rest) = 0.
Proof.
  unfold generate_checksum. apply hdr_sum8_zero.
  - apply fold_wadd8_lt. lia.
  - rewrite fold_wadd8_Z, zsum_app. reflexivity.
Qed.

(* C01 and C02 together, for a header in front of [rest]: the Length field holds the size, and the checksum byte is the value()
   of a fresh accumulator that was fed bytes with the byte sum of the image (checksum byte zeroed) *)
Lemma hdr_image_good h len fed rest : hdr_ok h = true ->
  zsum fed = (zsum (hdr_bytes h len 0) + zsum rest)%Z -> len = N.of_nat (36 + length rest) -> len < 2 ^ 32 ->
  sum8 (hdr_bytes h len (ck_value (ck_append 0 fed)) ++ rest) = 0 /\
  field_at (hdr_bytes h len (ck_value (ck_append 0 fed)) ++ rest) 4 4 =
    N.of_nat (length (hdr_bytes h len (ck_value (ck_append 0 fed)) ++ rest)).
Proof.
  intros Hh Hz Hl Hf. split.
  - apply hdr_sum8_zero; [apply ck_append_lt; lia|]. rewrite ck_append_Z, Hz. reflexivity.
  - rewrite hdr_len_field, hdr_image_length by assumption. exact Hl.
Qed.

(* image with the checksum byte zeroed: what the running checksum is meant to sum *)
Definition tbl_image0 (s : tbl) : list N :=
  hdr_bytes (t_hdr s) (t_len s) 0 ++ mid (t_kind s) (t_pre s) (t_cnt s) ++ t_body s.

Record Inv (s : tbl) : Prop := {
  inv_hdr : hdr_ok (t_hdr s) = true;
  inv_len : t_len s = N.of_nat (length (tbl_image s));
  inv_ck_lt : t_ck s < 256;
  inv_ck : (Z.of_N (t_ck s) mod 256 = zsum (tbl_image0 s) mod 256)%Z;
  inv_hck : t_hck s = ck_value (t_ck s);
  inv_hoff : t_hoff s = N.of_nat (length (tbl_image s));
  inv_cnt : t_cnt s = N.of_nat (length (t_ents s))
}.

Lemma length_mid k pre c : length (mid k pre c) = length (mid k pre 0).
Proof. destruct k; unfold mid, d4, w2, q8; rewrite ?app_length, ?length_le; reflexivity. Qed.

Lemma length_image s : hdr_ok (t_hdr s) = true ->
  length (tbl_image s) = (36 + length (mid (t_kind s) (t_pre s) 0) + length (t_body s))%nat.
Proof.
  intros H. unfold tbl_image. rewrite !app_length, (length_hdr_bytes _ _ _ H), length_mid. lia.
Qed.

Lemma inv_sum8_zero s : Inv s -> sum8 (tbl_image s) = 0.
Proof.
  intros I. unfold tbl_image. rewrite (inv_hck s I).
  apply hdr_sum8_zero; [exact (inv_ck_lt s I)|]. rewrite <- zsum_app. exact (inv_ck s I).
Qed.

(* C02 in terms of the image: the little-endian dword at offset 4 is the size *)
Lemma image_len_field s : Inv s -> N.of_nat (length (tbl_image s)) < 2 ^ 32 ->
  field_at (tbl_image s) 4 4 = N.of_nat (length (tbl_image s)).
Proof.
  intros I Hfit. rewrite <- (inv_len s I) in *. apply hdr_len_field; [exact (inv_hdr s I)|exact Hfit].
Qed.

Lemma image_split s : hdr_ok (t_hdr s) = true ->
  exists pre, tbl_image s = pre ++ t_body s /\ length pre = (36 + length (mid (t_kind s) (t_pre s) 0))%nat.
Proof.
  intros H. exists (hdr_bytes (t_hdr s) (t_len s) (t_hck s) ++ mid (t_kind s) (t_pre s) (t_cnt s)).
  split; [unfold tbl_image; now rewrite app_assoc|]. rewrite app_length, (length_hdr_bytes _ _ _ H), length_mid. reflexivity.
Qed.

(* the bytes after the 36-byte header: the table's own fields, then the entries *)
Lemma image_after_header s : hdr_ok (t_hdr s) = true ->
  skipn 36 (tbl_image s) = mid (t_kind s) (t_pre s) (t_cnt s) ++ t_body s.
Proof. intros H. unfold tbl_image. rewrite <- (length_hdr_bytes _ (t_len s) (t_hck s) H) at 1. apply skipn_app_exact. Qed.

(* when only the body has grown, what lies beyond the old image is what was appended *)
Lemma image_tail s s' x : hdr_ok (t_hdr s) = true -> t_kind s' = t_kind s -> t_pre s' = t_pre s -> t_hdr s' = t_hdr s ->
  t_body s' = t_body s ++ x -> skipn (length (tbl_image s)) (tbl_image s') = x.
Proof.
  intros Hh Hk Hp Hd Hb. destruct (image_split s Hh) as (pre & -> & Hl).
  rewrite <- Hd in Hh. destruct (image_split s' Hh) as (pre' & -> & Hl'). rewrite Hk, Hp, <- Hl in Hl'.
  rewrite Hb, app_assoc, !app_length, <- Hl', <- app_length. apply skipn_app_exact.
Qed.

Lemma add_c_Some m a b r : add_c m a b = Some r -> r = a + b /\ a + b < m.
Proof. unfold add_c. destruct (N.ltb_spec (a + b) m); [|discriminate]. intros [= <-]. now split. Qed.

Lemma add_c_fits m a b : a + b < m -> add_c m a b = Some (a + b).
Proof. intros H. unfold add_c. now rewrite (proj2 (N.ltb_lt _ _) H). Qed.

Lemma add_m_fits md m a b : a + b < m -> add_m md m a b = Some (a + b).
Proof. intros H. unfold add_m. now rewrite (proj2 (N.ltb_lt _ _) H). Qed.

Lemma add_m_Some_small md m a b r : a + b < m -> add_m md m a b = Some r -> r = a + b.
Proof. intros H E. rewrite (add_m_fits md m a b H) in E. now injection E as <-. Qed.

(* what an accepted tbl_add does to each component of the state, with the three checked sums still as the code computes them *)
Lemma tbl_add_Some md s st claimed bytes s' h : tbl_add md s st claimed bytes = Some (s', h) ->
  h = t_hoff s /\ t_kind s' = t_kind s /\ t_hdr s' = t_hdr s /\ t_pre s' = t_pre s /\
  t_rents s' = bytes :: t_rents s /\ t_rhandles s' = t_hoff s :: t_rhandles s /\
  t_hck s' = ck_value (t_ck s') /\
  t_ck s' = fold_left ck_step (upd_ops (t_kind s) st (t_len s) (t_len s') (t_cnt s) bytes) (t_ck s) /\
  add_c U32 (cast U32 claimed) (t_len s) = Some (t_len s') /\
  match t_kind s with
  | KViot => (t_cnt s + 1) mod U16 = t_cnt s' /\ add_c U16 (t_hoff s) (cast U16 claimed) = Some (t_hoff s')
  | KRhct => add_m md U32 (t_cnt s) 1 = Some (t_cnt s') /\ add_m md U32 (t_hoff s) (cast U32 claimed) = Some (t_hoff s')
  | KPptt => t_cnt s + 1 = t_cnt s' /\ add_m md U32 (t_hoff s) (cast U32 claimed) = Some (t_hoff s')
  | _ => t_cnt s + 1 = t_cnt s' /\ t_hoff s + claimed = t_hoff s'
  end.
Proof.
  unfold tbl_add. destruct (add_c U32 (cast U32 claimed) (t_len s)) as [nl|]; [|discriminate]. cbn [option_bind].
  destruct (match t_kind s with KViot => Some _ | KRhct => _ | _ => _ end) as [nc|] eqn:Ec; [|discriminate]. cbn [option_bind].
  destruct (match t_kind s with KViot => add_c _ _ _ | KPptt | KRhct => _ | _ => _ end) as [nh|] eqn:Eh; [|discriminate].
  cbn [option_bind]. intros H. apply Some_pair_inj in H as [<- <-]. repeat apply conj; try reflexivity.
  cbn [t_cnt t_hoff]. destruct (t_kind s); split; congruence.
Qed.

Lemma tbl_add_ents md s st claimed bytes s' h : tbl_add md s st claimed bytes = Some (s', h) ->
  t_ents s' = t_ents s ++ [bytes] /\ t_handles s' = t_handles s ++ [t_hoff s] /\ t_body s' = t_body s ++ bytes.
Proof.
  intros H. destruct (tbl_add_Some _ _ _ _ _ _ _ H) as (_ & _ & _ & _ & He & Hh & _).
  unfold t_body, t_ents, t_handles. rewrite !frev_rev, He, Hh. cbn [rev].
  rewrite concat_app. cbn [concat]. now rewrite app_nil_r.
Qed.

Lemma tbl_add_image_length md s st claimed bytes s' h : hdr_ok (t_hdr s) = true ->
  tbl_add md s st claimed bytes = Some (s', h) ->
  hdr_ok (t_hdr s') = true /\ length (tbl_image s') = (length (tbl_image s) + length bytes)%nat.
Proof.
  intros Hh H. destruct (tbl_add_Some _ _ _ _ _ _ _ H) as (_ & Hk & Hd & Hp & _).
  destruct (tbl_add_ents _ _ _ _ _ _ _ H) as (_ & _ & Hb).
  rewrite <- Hd in Hh. split; [exact Hh|]. rewrite (length_image s') by exact Hh. rewrite Hd in Hh.
  rewrite (length_image s) by exact Hh. rewrite Hk, Hp, Hb, app_length. lia.
Qed.

(* difference of the fixed part when the count changes *)
Lemma zsum_mid_step k pre c c' :
  (zsum (mid k pre c') - zsum (mid k pre c) =
   match k with
   | KRhct | KRimt | KHest => zsum (d4 c') - zsum (d4 c)
   | KViot => zsum (w2 c') - zsum (w2 c)
   | _ => 0
   end)%Z.
Proof. destruct k; unfold mid; rewrite ?zsum_app; lia. Qed.

Lemma le_mod16 c : w2 (c mod U16) = w2 c.
Proof. unfold w2, U16. apply (le_mod 2). Qed.

(* the checksum operations of one update_header account, modulo 256, for the new length, the new entry and the new count *)
Lemma net_upd_ops k st pre ol nl c bytes : exists q : Z,
  (net (upd_ops k st ol nl c bytes) =
   zsum (d4 nl) - zsum (d4 ol) + zsum bytes + (zsum (mid k pre (c + 1)) - zsum (mid k pre c)) + 256 * q)%Z.
Proof.
  rewrite zsum_mid_step. destruct (zsum_sum8 bytes) as [kb Hkb].
  exists (match st with SumAdd => - kb | SumAppend => 0 end)%Z.
  destruct k, st; cbn [upd_ops sum_op app net op_added op_removed]; rewrite ?le_mod16; lia.
Qed.

(* the kinds whose count / offset arithmetic needs non-empty, small entries *)
Definition needs_pos (k : tkind) : bool := match k with KRhct | KViot => true | _ => false end.

(* an accepted addition keeps the invariant.  The counters of RHCT and VIOT do not wrap because every entry occupies at least
   one byte of an image below 2^32 (RHCT), or of the 2^16 that the VIOT's checked offset addition allows *)
Lemma tbl_add_inv md s st claimed bytes s' h :
  Inv s -> tbl_add md s st claimed bytes = Some (s', h) ->
  claimed = N.of_nat (length bytes) ->
  N.of_nat (length (tbl_image s) + length bytes) < 2 ^ 32 ->
  (needs_pos (t_kind s) = true -> (1 <= length bytes)%nat /\ claimed < 2 ^ 16) ->
  (needs_pos (t_kind s) = true -> (length (t_ents s) <= length (tbl_image s))%nat) ->
  Inv s' /\ h = N.of_nat (length (tbl_image s)) /\ t_ents s' = t_ents s ++ [bytes] /\
  t_kind s' = t_kind s /\ t_hdr s' = t_hdr s /\ t_pre s' = t_pre s /\ t_handles s' = t_handles s ++ [h].
Proof.
  intros I Hadd Hcl Hfit Hps Hcnt'.
  destruct (tbl_add_Some _ _ _ _ _ _ _ Hadd) as (-> & Hk & Hd & Hp & _ & _ & Hhck & Hck & Hnl & Hrest).
  destruct (tbl_add_ents _ _ _ _ _ _ _ Hadd) as (He & Hhs & Hb).
  destruct (tbl_add_image_length _ _ _ _ _ _ _ (inv_hdr s I) Hadd) as (Hh' & Hlen').
  pose proof (inv_len s I) as Hlen. pose proof (inv_hoff s I) as Hhoff. pose proof (inv_cnt s I) as Hcnt.
  assert (Hcast : cast U32 claimed = claimed) by (apply N.mod_small; unfold U32; lia).
  rewrite Hcast in *. apply add_c_Some in Hnl. destruct Hnl as [Hnl' _].
  assert (Hch : t_cnt s' = t_cnt s + 1 /\ t_hoff s' = t_hoff s + claimed).
  { assert (Hsum : t_hoff s + claimed < U32) by (unfold U32; lia).
    destruct (t_kind s); destruct Hrest as [Hc Ho]; try (split; congruence);
      try (specialize (Hcnt' eq_refl); destruct (Hps eq_refl) as [Hpos Hsmall]).
    - split; [congruence|exact (add_m_Some_small _ _ _ _ _ Hsum Ho)].
    - assert (Hn : t_cnt s + 1 < U32) by (unfold U32; lia).
      split; [exact (add_m_Some_small _ _ _ _ _ Hn Hc)|exact (add_m_Some_small _ _ _ _ _ Hsum Ho)].
    - unfold cast, U16 in *. rewrite (N.mod_small _ _ Hsmall) in Ho. apply add_c_Some in Ho as [Ho Hlt].
      rewrite N.mod_small in Hc by lia. split; congruence. }
  destruct Hch as [Hc Ho].
  split; [|rewrite Hhoff at 1; repeat split; assumption].
  constructor.
  - exact Hh'.
  - rewrite Hlen', Hnl'. lia.
  - rewrite Hck. apply ck_fold_lt. exact (inv_ck_lt s I).
  - rewrite Hck, (ck_fold_tracks _ _ _ (inv_ck s I)).
    unfold tbl_image0. rewrite Hd, Hk, Hp, Hb, Hc, !zsum_app.
    rewrite (zsum_hdr_bytes _ (t_len s) 0), (zsum_hdr_bytes _ (t_len s') 0).
    destruct (net_upd_ops (t_kind s) st (t_pre s) (t_len s) (t_len s') (t_cnt s) bytes) as [q ->].
    rewrite <- (Z.mod_add _ (- q) 256) by lia. f_equal. lia.
  - exact Hhck.
  - rewrite Hlen', Ho. lia.
  - rewrite He, app_length, Hc, Hcnt. cbn [length]. lia.
Qed.

Lemma Inv_set_flag s b : Inv s -> Inv (set_flag s b).
Proof. intros [H1 H2 H3 H4 H5 H6 H7]. constructor; assumption. Qed.

Section AddTable.
  Variable K : tkind.
  Variable entry : tbl -> sx -> option addition.
  Hypothesis entry_sound : forall s o e, t_kind s = K -> entry s o = Some e ->
    a_claimed e = N.of_nat (length (a_bytes e)) /\
    (needs_pos (t_kind s) = true -> (1 <= length (a_bytes e))%nat /\ a_claimed e < 2 ^ 16).

  Fixpoint run_adds (md : mode) (s : tbl) (ops : list sx) : option tbl :=
    match ops with
    | [] => Some s
    | SA _ :: r => run_adds md s r
    | o :: r => match add_step entry md s o with Some (s', _) => run_adds md s' r | None => None end
    end.

  Definition Inv2 (s : tbl) : Prop :=
    Inv s /\ t_kind s = K /\ (needs_pos (t_kind s) = true -> Forall (fun e => (1 <= length e)%nat) (t_ents s)).

  (* an accepted step is an accepted entry followed by an accepted tbl_add *)
  Lemma add_step_Some md s o s' evs : add_step entry md s o = Some (s', evs) ->
    exists e s1 h, entry s o = Some e /\ tbl_add md s (a_style e) (a_claimed e) (a_bytes e) = Some (s1, h) /\
      s' = set_flag s1 (a_flag e) /\ evs = [EvNum (if a_returns e then h else 0)].
  Proof.
    unfold add_step. destruct (entry s o) as [e|]; [|discriminate]. cbn [option_bind].
    destruct (tbl_add md s _ _ _) as [[s1 h]|] eqn:Ea; [|discriminate]. cbn [option_bind fst snd].
    intros [= <- <-]. now exists e, s1, h.
  Qed.

  Lemma add_step_refused md s o : entry s o = None -> add_step entry md s o = None.
  Proof. unfold add_step. intros ->. reflexivity. Qed.

  Lemma add_step_num md s o s1 e : add_step entry md s o = Some (s1, e) ->
    exists a n, entry s o = Some a /\ e = [EvNum (if a_returns a then n else 0)].
  Proof.
    intros H. destruct (add_step_Some md s o s1 e H) as (a & s2 & h & Ha & _ & _ & ->). now exists a, h.
  Qed.

  (* the image after an accepted step: exactly the added bytes longer (from the shape of tbl_add alone) *)
  Lemma add_step_length md s o s' evs : hdr_ok (t_hdr s) = true ->
    add_step entry md s o = Some (s', evs) ->
    exists e, entry s o = Some e /\ length (tbl_image s') = (length (tbl_image s) + length (a_bytes e))%nat.
  Proof.
    intros Hh H. destruct (add_step_Some _ _ _ _ _ H) as (e & s1 & h & Ee & Ha & -> & _).
    exists e. split; [exact Ee|]. exact (proj2 (tbl_add_image_length _ _ _ _ _ _ _ Hh Ha)).
  Qed.

  Lemma add_step_grows md s o s' evs : hdr_ok (t_hdr s) = true ->
    add_step entry md s o = Some (s', evs) ->
    hdr_ok (t_hdr s') = true /\ (length (tbl_image s) <= length (tbl_image s'))%nat.
  Proof using.
    intros Hh H. destruct (add_step_Some _ _ _ _ _ H) as (e & s1 & h & _ & Ha & -> & _).
    destruct (tbl_add_image_length _ _ _ _ _ _ _ Hh Ha) as [Hh1 Hl].
    (* closed without [lia], which would take [entry_sound] (every hypothesis in sight) into the proof term *)
    split; [exact Hh1|]. change (tbl_image (set_flag s1 (a_flag e))) with (tbl_image s1). rewrite Hl. apply Nat.le_add_r.
  Qed.

  Lemma run_adds_run_steps md : forall ops s, run_adds md s ops = run_steps (add_step entry md) s ops.
  Proof. apply run_steps_unique. intros s [|o r]; reflexivity. Qed.

  Lemma run_adds_hdr_grows md ops s s' : hdr_ok (t_hdr s) = true -> run_adds md s ops = Some s' ->
    hdr_ok (t_hdr s') = true /\ (length (tbl_image s) <= length (tbl_image s'))%nat.
  Proof using.
    intros Hh. rewrite run_adds_run_steps.
    apply (run_steps_inv _ (fun x => hdr_ok (t_hdr x) = true /\ (length (tbl_image s) <= length (tbl_image x))%nat));
      [|split; [exact Hh|apply Nat.le_refl]].
    intros x o x' evs [Hx Hl] E. destruct (add_step_grows md x o x' evs Hx E) as [Hx' Hl'].
    split; [exact Hx'|exact (Nat.le_trans _ _ _ Hl Hl')].
  Qed.

  (* RHCT's and VIOT's entry counts stay below the image size: every entry has at least one byte *)
  Lemma Inv2_ents_fit s : Inv2 s -> needs_pos (t_kind s) = true -> (length (t_ents s) <= length (tbl_image s))%nat.
  Proof using.
    intros (I & _ & Hne) Hk. rewrite length_image by exact (inv_hdr s I).
    exact (Nat.le_trans _ _ _ (concat_len_ge _ (Hne Hk)) (Nat.le_add_l _ _)).
  Qed.

  Lemma add_step_inv md s o s' evs :
    Inv2 s -> add_step entry md s o = Some (s', evs) -> N.of_nat (length (tbl_image s')) < 2 ^ 32 ->
    Inv2 s' /\
    (exists e, entry s o = Some e /\ t_ents s' = t_ents s ++ [a_bytes e] /\
               t_handles s' = t_handles s ++ [N.of_nat (length (tbl_image s))] /\
               evs = [EvNum (if a_returns e then N.of_nat (length (tbl_image s)) else 0)]) /\
    t_kind s' = t_kind s /\ t_hdr s' = t_hdr s /\ t_pre s' = t_pre s.
  Proof.
    intros I2 H Hfit. pose proof I2 as (I & HK & Hne).
    destruct (add_step_Some _ _ _ _ _ H) as (e & s1 & h & Ee & Ha & -> & ->).
    change (tbl_image (set_flag s1 (a_flag e))) with (tbl_image s1) in Hfit.
    destruct (entry_sound s o e HK Ee) as (Hcl & Hps).
    destruct (tbl_add_image_length _ _ _ _ _ _ _ (inv_hdr s I) Ha) as [_ Hl1].
    destruct (tbl_add_inv md s _ _ _ s1 h I Ha Hcl) as (I1 & -> & He & Hk & Hhd & Hp & Hhs);
      [rewrite <- Hl1; exact Hfit|exact Hps|exact (Inv2_ents_fit s I2)|].
    split; [split; [now apply Inv_set_flag|split; [exact (eq_trans Hk HK)|]]|].
    - change (t_ents (set_flag s1 (a_flag e))) with (t_ents s1). change (t_kind (set_flag s1 (a_flag e))) with (t_kind s1).
      rewrite He, Hk. intros Hkk. apply Forall_app. split; [exact (Hne Hkk)|].
      constructor; [exact (proj1 (Hps Hkk))|constructor].
    - split; [|exact (conj Hk (conj Hhd Hp))]. exists e. exact (conj Ee (conj He (conj Hhs eq_refl))).
  Qed.

  (* induction over histories: a property kept by every accepted addition, given what add_step_inv says of it, holds after
     every history *)
  Lemma run_adds_ind (P : tbl -> Prop) md :
    (forall s o s' e, Inv2 s -> P s -> entry s o = Some e -> t_ents s' = t_ents s ++ [a_bytes e] ->
                      t_kind s' = t_kind s -> t_hdr s' = t_hdr s -> t_pre s' = t_pre s -> P s') ->
    forall ops s s', Inv2 s -> P s -> run_adds md s ops = Some s' -> N.of_nat (length (tbl_image s')) < 2 ^ 32 ->
    Inv2 s' /\ P s'.
  Proof.
    (* images only grow, so a state whose image fits was reached through states whose images fit *)
    intros Hstep ops s s' I HP H Hfit. rewrite run_adds_run_steps in H.
    refine (proj2 (run_steps_inv _ (fun x => hdr_ok (t_hdr x) = true /\
                                             (N.of_nat (length (tbl_image x)) < 2 ^ 32 -> Inv2 x /\ P x)) _ ops s s' _ H) Hfit).
    - intros x o x1 evs [Hh Hx] E. destruct (add_step_grows md x o x1 evs Hh E) as [Hh1 Hg]. split; [exact Hh1|]. intros Hf1.
      destruct Hx as [Ix Px]; [lia|].
      destruct (add_step_inv md x o x1 evs Ix E Hf1) as (I1 & (e & Ee & He & _) & Hk & Hd & Hp).
      split; [exact I1|]. exact (Hstep x o x1 e Ix Px Ee He Hk Hd Hp).
    - split; [exact (inv_hdr s (proj1 I))|]. intros _. exact (conj I HP).
  Qed.

  Theorem run_adds_inv md ops s s' :
    Inv2 s -> run_adds md s ops = Some s' -> N.of_nat (length (tbl_image s')) < 2 ^ 32 -> Inv2 s'.
  Proof. intros I H Hfit. exact (proj1 (run_adds_ind (fun _ => True) md (fun _ _ _ _ _ _ _ _ _ _ _ => Logic.I) ops s s' I Logic.I H Hfit)). Qed.

  (* a predicate established by every addition holds of every entry of every reachable state *)
  Lemma run_adds_forall (P : list N -> Prop) md ops : forall s s',
    (forall s o e, entry s o = Some e -> P (a_bytes e)) ->
    Inv2 s -> run_adds md s ops = Some s' -> N.of_nat (length (tbl_image s')) < 2 ^ 32 ->
    Forall P (t_ents s) -> Forall P (t_ents s').
  Proof.
    intros s s' HP I H Hfit HF. refine (proj2 (run_adds_ind (fun x => Forall P (t_ents x)) md _ ops s s' I HF H Hfit)).
    intros x o x' e _ Hx Ee -> _ _ _. apply Forall_app. split; [exact Hx|]. constructor; [exact (HP x o e Ee)|constructor].
  Qed.

  (* what has been emitted stays where it is: the body only grows at its end *)
  Lemma run_adds_body_prefix md ops s s' :
    Inv2 s -> run_adds md s ops = Some s' -> N.of_nat (length (tbl_image s')) < 2 ^ 32 ->
    exists tail, t_ents s' = t_ents s ++ tail /\ t_kind s' = t_kind s /\ t_pre s' = t_pre s /\ t_hdr s' = t_hdr s.
  Proof.
    intros I H Hfit.
    refine (proj2 (run_adds_ind (fun x => exists tail, t_ents x = t_ents s ++ tail /\ t_kind x = t_kind s /\
                                           t_pre x = t_pre s /\ t_hdr x = t_hdr s) md _ ops s s' I _ H Hfit)).
    - intros x o x' e _ (tail & Ht & Hk & Hp & Hd) _ -> -> -> ->. exists (tail ++ [a_bytes e]). now rewrite Ht, app_assoc.
    - exists []. now rewrite app_nil_r.
  Qed.

  (* C05: the handle reported by an addition is the offset at which the added node starts, in the image after the addition
     and in every later image *)
  Lemma handle_is_offset md s o s1 evs ops s' :
    Inv2 s -> add_step entry md s o = Some (s1, evs) -> run_adds md s1 ops = Some s' ->
    N.of_nat (length (tbl_image s')) < 2 ^ 32 ->
    exists e tail, entry s o = Some e /\
      evs = [EvNum (if a_returns e then N.of_nat (length (tbl_image s)) else 0)] /\
      skipn (length (tbl_image s)) (tbl_image s') = a_bytes e ++ concat tail /\
      skipn (length (tbl_image s)) (tbl_image s1) = a_bytes e.
  Proof.
    intros I E Hr Hfit. pose proof (inv_hdr s (proj1 I)) as Hh.
    destruct (add_step_grows md s o s1 evs Hh E) as [Hh1 _].
    pose proof (proj2 (run_adds_hdr_grows md ops s1 s' Hh1 Hr)) as Hg.
    destruct (add_step_inv md s o s1 evs I E) as (I1 & (e & Ee & He & _ & Hev) & Hk1 & Hhd1 & Hp1); [lia|].
    destruct (run_adds_body_prefix md ops s1 s' I1 Hr Hfit) as (tail & Ht & Hk & Hp & Hhd).
    exists e, tail. split; [exact Ee|]. split; [exact Hev|]. split.
    - apply image_tail; [exact Hh|exact (eq_trans Hk Hk1)|exact (eq_trans Hp Hp1)|exact (eq_trans Hhd Hhd1)|].
      unfold t_body. rewrite Ht, He, !concat_app. cbn [concat]. now rewrite app_nil_r, <- app_assoc.
    - apply image_tail; [exact Hh|exact Hk1|exact Hp1|exact Hhd1|].
      unfold t_body. rewrite He, concat_app. cbn [concat]. now rewrite app_nil_r.
  Qed.
End AddTable.

Lemma tbl_new_inv k h pre : hdr_ok h = true ->
  (zsum (init_extra k pre) = zsum (mid k pre 0))%Z -> Inv (tbl_new k h pre).
Proof.
  intros Hh Hx.
  assert (Hlen : N.of_nat (length (tbl_image (tbl_new k h pre))) = 36 + N.of_nat (length (mid k pre 0))).
  { rewrite length_image by exact Hh. cbn. lia. }
  constructor; cbn [tbl_new t_hdr t_len t_ck t_hck t_hoff t_cnt]; try reflexivity; try (now rewrite Hlen).
  - exact Hh.
  - unfold ck_append. do 2 apply fold_wadd8_lt. lia.
  - unfold tbl_image0. cbn [tbl_new t_hdr t_len t_kind t_pre t_cnt t_body t_ents t_rents frev rev_append concat].
    rewrite app_nil_r, zsum_app, <- Hx. unfold ck_append.
    rewrite fold_wadd8_Z, <- Zplus_mod_idemp_l, fold_wadd8_Z, Zplus_mod_idemp_l. reflexivity.
Qed.

Lemma tbl_new_inv2 k h pre : hdr_ok h = true ->
  (zsum (init_extra k pre) = zsum (mid k pre 0))%Z -> Inv2 k (tbl_new k h pre).
Proof. intros H1 H2. split; [now apply tbl_new_inv|split; [reflexivity|intros _; constructor]]. Qed.

(* the header decoder of the constructors (Impl/Madt.v) yields a well-formed header *)
Lemma sx_hdr_ok sig rev o t r h : sx_hdr sig rev o t r = Some h -> length sig = 4%nat -> hdr_ok h = true.
Proof.
  intros H Hs. revert H. unfold sx_hdr.
  destruct (sx_arr 6 o) as [oem|] eqn:Eo; [|discriminate]. cbn [option_bind].
  destruct (sx_arr 8 t) as [tb|] eqn:Et; [|discriminate]. cbn [option_bind].
  destruct (sx_num r); [|discriminate]. cbn [option_bind]. intros H. inversion H; subst.
  unfold hdr_ok. cbn [h_sig h_oem h_tbl]. rewrite Hs, (sx_arr_length _ _ _ Eo), (sx_arr_length _ _ _ Et). reflexivity.
Qed.

(* the constructor of every table but the MADT and the RHCT: a header from the three standard arguments and an empty table
   (`xsdt_new`, `mcfg_new`, ... are this function by conversion) *)
Definition plain_new (k : tkind) (sig : list N) (rev : N) (c : sx) : option tbl :=
  match c with
  | SL [o; t; r] => do h <- sx_hdr sig rev o t r; Some (tbl_new k h [])
  | _ => None
  end.

Lemma plain_new_shape k sig rev c s0 : plain_new k sig rev c = Some s0 -> exists h, s0 = tbl_new k h [].
Proof.
  unfold plain_new. destruct c as [|[|o [|t [|r [|]]]]]; try discriminate.
  destruct (sx_hdr sig rev o t r) as [h|]; [|discriminate]. intros H. apply Some_inj in H. now exists h.
Qed.

Lemma plain_new_empty k sig rev c s0 : plain_new k sig rev c = Some s0 -> t_ents s0 = [].
Proof. intros H. destruct (plain_new_shape _ _ _ _ _ H) as [h ->]. reflexivity. Qed.

Lemma plain_new_inv k sig rev c s0 : plain_new k sig rev c = Some s0 -> length sig = 4%nat -> Inv2 k s0.
Proof.
  unfold plain_new. destruct c as [|[|o [|t [|r [|]]]]]; try discriminate.
  destruct (sx_hdr sig rev o t r) as [h|] eqn:Eh; [|discriminate]. intros H Hs. apply Some_inj in H. subst s0.
  apply tbl_new_inv2; [exact (sx_hdr_ok _ _ _ _ _ _ Eh Hs)|now destruct k].
Qed.
