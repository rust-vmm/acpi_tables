(* Two definitions and no lemma: the statements coherence_judge_history and coherence_pending_origin (Props/CoherenceWalk.v)
   speak of them, and the generic file Proofs/CoherenceTablesP.v, which proves those statements (judge_obs, pend_in) and
   walk_coherent, needs them before it can state anything.

   c05_oracle (Spec/Layout.v) gives judge_history the check [c05_handles_ok ts] of every handle returned so far (pending :
   list of (handle, index of the operation that returned it)) against the offset at which the Spec walker finds that
   operation's entry in the observed image.  [pend step] is that pending list after a prefix of real operations, when the
   handles are those a step function [step] reports. *)
From Coq Require Import NArith List.
From ACPI Require Import Lib.Sx.
Import ListNotations.
Open Scope N_scope.

(* no observation marker (or other atom) in the list: what [real_ops] leaves *)
Definition all_lists (p : list sx) : Prop := Forall (fun o => match o with SA _ => False | SL _ => True end) p.

Section Pending.
  Context {S : Type}.
  Variable step : S -> sx -> option (S * list ev).
  Variable returns : sx -> bool.

  (* the pending handles after the operations p, applied from state s when n operations had been applied before *)
  Fixpoint pend (s : S) (n : nat) (p : list sx) (acc : list (N * nat)) : list (N * nat) :=
    match p with
    | [] => acc
    | o :: r =>
        match step s o with
        | Some (s', evs) =>
            pend s' (Datatypes.S n) r
                 (match evs with EvNum h :: _ => if returns o then (h, n) :: acc else acc | _ => acc end)
        | None => acc
        end
    end.
End Pending.
