(* C07 -- PkgLength encodings are correct for every representable length. *)
From Coq Require Import NArith List.
From ACPI Require Import Lib.Sx Impl.AmlCore Impl.AmlTerm Spec.AmlCoreS Proofs.PkgLenP Proofs.FrameSitesP.
Import ListNotations.
Open Scope N_scope.

(* Self-inclusive form (every length-prefixed object): whenever create_pkg_length returns bytes e for a
   content size n, then for every continuation r the specification's decoder reads, from e ++ r, exactly
   n + |e| (the distance from the first PkgLength byte to the end of the object) and stops right after e;
   e has the specification's lead-byte format; and no shorter PkgLength could have included its own size. *)
Theorem c07_inclusive :
  forall md n e r, n < 2 ^ 63 -> pkg_len md n true = Some e ->
    pkg_decode (e ++ r) = Some (n + N.of_nat (length e), r) /\ lead_ok e /\
    (forall w, (1 <= w < length e)%nat -> pkg_cap w < n + N.of_nat w).
Proof. intros md n e r Hn H. destruct (pkg_len_incl_correct md n e Hn H) as (D & L & M). auto. Qed.

(* Exclusive form (named / reserved field widths): decodes to exactly the width given. *)
Theorem c07_exclusive :
  forall md n e r, n < 2 ^ 63 -> pkg_len md n false = Some e ->
    pkg_decode (e ++ r) = Some (n, r) /\ lead_ok e.
Proof. exact pkg_len_excl_correct. Qed.

(* Every content size below 2^28 - 4 is accepted, in both forms and both build profiles. *)
Theorem c07_accepts :
  forall md n (incl : bool), n + 4 < 2 ^ 28 -> exists e, pkg_len md n incl = Some e.
Proof.
  intros md n incl H. destruct (pkg_len_accept md n incl) as (e & E & _); [|now exists e].
  destruct incl; [exact H|]. rewrite N.add_0_r. eapply N.lt_trans; [|exact H]. apply N.lt_add_pos_r. reflexivity.
Qed.

(* A total of 2^28 or more is refused in both build profiles (shared with C18). *)
Theorem c07_refuses :
  forall md n (incl : bool), n < 2 ^ 63 -> 2 ^ 28 <= n + (if incl then pkg_ll n else 0) -> pkg_len md n incl = None.
Proof. exact pkg_len_refuse. Qed.

(* The call sites: every constructor that emits a length-prefixed object (frame_op lists them with their opcodes: Buffer
   data / terms, Uuid buffers, resource templates, variable packages, Device, Scope and Scope::raw, Method, PowerResource,
   Field, Package and PackageBuilder, If, Else, While) emits  opcode ++ PkgLength ++ body  where the PkgLength decodes,
   whatever follows the object, to exactly the distance from its own first byte to the end of the object, has the
   specification's lead-byte format and is the shortest that can include its own size. *)
Theorem c07_call_sites :
  forall md t op b, frame_op t = Some op -> enc md t = Some b -> N.of_nat (length b) < 2 ^ 63 ->
    exists pl body,
      b = op ++ pl ++ body /\
      (forall r, pkg_decode (pl ++ body ++ r) = Some (N.of_nat (length pl + length body), body ++ r)) /\
      lead_ok pl /\
      (forall w, (1 <= w < length pl)%nat -> pkg_cap w < N.of_nat (length body) + N.of_nat w).
Proof. exact frame_sites. Qed.

(* Field-list entries: the width of a named or reserved field decodes to exactly the width given. *)
Theorem c07_field_entries :
  forall md e b, enc_fentry md e = Some b ->
    match e with
    | FNamed name len => len < 2 ^ 63 -> exists pl, b = name ++ pl /\ forall r, pkg_decode (pl ++ r) = Some (len, r)
    | FReserved len => len < 2 ^ 63 -> exists pl, b = 0 :: pl /\ forall r, pkg_decode (pl ++ r) = Some (len, r)
    end.
Proof.
  intros md [name len|len] b; cbn [enc_fentry]; intros H Hl;
    (destruct (pkg_len md len false) as [pl|] eqn:E; [|discriminate]); injection H as <-;
    (exists pl; split; [reflexivity|]); intros r; exact (proj1 (pkg_len_excl_correct md _ _ r Hl E)).
Qed.

Example c07_site_example :
  enc Wrapping (TResTemplate []) = Some [0x11; 0x05; 0x0A; 0x02; 0x79; 0x00] /\ frame_op (TResTemplate []) = Some [0x11].
Proof. vm_compute. split; reflexivity. Qed.

(* non-vacuity: one length per width, across the boundaries 63/64, 4095/4096, 2^20 *)
Example c07_examples :
  pkg_len Wrapping 62 true = Some [63] /\ pkg_len Wrapping 63 true = Some [0x41; 0x04] /\
  pkg_len Checked 4093 true = Some [0x4F; 0xFF] /\ pkg_len Checked 4094 true = Some [0x81; 0x00; 0x01] /\
  pkg_len Wrapping 1048573 true = Some [0xC1; 0x00; 0x00; 0x01] /\ pkg_len Wrapping 63 false = Some [0x4F; 0x03].
Proof. vm_compute. repeat split. Qed.

Print Assumptions c07_inclusive.
Print Assumptions c07_exclusive.
Print Assumptions c07_accepts.
Print Assumptions c07_refuses.
Print Assumptions c07_call_sites.
Print Assumptions c07_field_entries.
