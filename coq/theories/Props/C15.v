(* C15 -- alternative construction paths for the same object emit identical bytes.  Statements; the proofs are in
   Proofs/FrameSitesP.v. *)
From Coq Require Import NArith List.
From ACPI Require Import Lib.Sx Impl.AmlTerm Proofs.FrameSitesP.
Import ListNotations.
Open Scope N_scope.

(* Scope::raw(path, concatenated child bytes) = Scope::new(path, children), for every path, every child list, every
   body size and both build profiles (including identical refusals) *)
Theorem c15_scope_raw : forall md p ks, enc md (TScopeRaw p ks) = enc md (TScope p ks).
Proof. exact scope_raw_eq. Qed.

(* a package filled element by element = the package built from the list of the same elements *)
Theorem c15_package_builder : forall md ks, enc md (TPkgBuilder ks) = enc md (TPackage ks).
Proof. exact pkg_builder_eq. Qed.

(* platform-width and 64-bit integers of equal value *)
Theorem c15_usize_u64 : forall md n, n < 2 ^ 64 -> enc md (TInt 0 n) = enc md (TInt 64 n).
Proof. exact usize_u64_eq. Qed.

(* borrowed and owned strings are the same model term (both call create_aml_string) *)
Theorem c15_str_string : forall b, term_of_sx (SL [SA 5; b]) = term_of_sx (SL [SA 6; b]).
Proof. exact str_string_same. Qed.

Example c15_example :
  enc Wrapping (TScopeRaw [95; 83; 66; 95] [TInt 8 5; TStr [65]]) = Some [0x10; 10; 95; 83; 66; 95; 0x0A; 5; 0x0D; 65; 0].
Proof. vm_compute. reflexivity. Qed.

Print Assumptions c15_scope_raw.
Print Assumptions c15_package_builder.
Print Assumptions c15_usize_u64.
Print Assumptions c15_str_string.
