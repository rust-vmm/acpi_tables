(* The AML encoder only emits bytes.

   [enc md t = Some b] gives a list of N; nothing in Impl/ says its elements are < 256.  Most of what [enc] writes is
   reduced on the way out ([cast U8], [le w], PkgLength nibbles, opcodes); the rest is copied from a constructor argument
   as it stands.  [typed t] lists exactly those arguments and asks each to be inside the Rust type it has in the crate's
   API (u8 < 256, bool <= 1, the field-flag enums inside their bit fields, byte strings made of bytes).  Under [typed],
   every list [enc] / [encs] / [enc_desc] / [enc_fentry] / [pkg_len] / the kernels return is [bytes_ok]; without it the
   statement is false (Example [typed_needed]).

   Arguments for which NO hypothesis is needed, because the model already reduces them the way the crate's types do:
     TInt 16/32/64/usize n (enc_u16.. fall through [cast] or [le]); TEisa / TUuid input characters (refused unless hex
     digits, results < 16 and recombined under [cast U8]); TArg / TLocal (asserted <= 6 / <= 7 before use);
     Method args (asserted <= 7, masked with 7); PowerResource order, Acquire timeout, IO min/max (w2 = le 2);
     Memory32Fixed base/len, Interrupt number (d4); Register address (q8); AddressSpace cacheable (cast U8 of the shift),
     min/max/translation/length (le w); Package / PackageBuilder element count (asserted <= 255, cast U8);
     FieldEntry widths (PkgLength); every PkgLength and BufferSize.
   Arguments [wf] (Proofs/AmlRoundTrip.v) already bounds at least as tightly as [typed] does:
     TInt 8 n (n < 2^8), TFieldName (a NameSeg), Method serialized (<= 1), PowerResource level (< 256), OpRegion space
     (< 256), Mutex sync level (< 256), Field access (< 16) lock (<= 1) update (< 4), named field entries (NameSegs).
   [wf] does not bound: the characters of TStr (only non-zero) and TBufData, and descriptor arguments (a bare descriptor
   is not wf at all, and inside a ResourceTemplate wf only asks that the children are descriptors). *)
From Coq Require Import NArith List Lia Bool.
From ACPI Require Import Lib.Bytes Lib.Sx Lib.Machine Impl.AmlCore Impl.AmlTerm Spec.AmlCoreS Spec.AmlTermS
  Impl.Sink Impl.Sdt Impl.Sink2
  Proofs.BitsP Proofs.PkgLenP Proofs.PathP Proofs.EisaUuidP Proofs.FieldListP Proofs.Sink2P Proofs.FrameSitesP Proofs.AmlRoundTrip Proofs.DsdtP Proofs.BaseP.
Import ListNotations.
Open Scope N_scope.

(* resource descriptors.  Memory32Fixed::new(read_write: bool, ..); AddressSpace: the type is one of the three
   constructors (0 new_memory 1 new_io 2 new_bus_number) and read_write: bool exists for new_memory only;
   IO::new(.., alignment: u8, length: u8); Interrupt::new(four bools, ..); Register::new(GAS): four u8 fields *)
Definition typed_descb (d : desc) : bool :=
  match d with
  | DMem32 rw _ _ => rw <=? 1
  | DAddr _ ty _ rw _ _ _ => (ty <=? 2) && (negb (ty =? 0) || (rw <=? 1))
  | DIO _ _ align len => (align <? 256) && (len <? 256)
  | DIrq consumer edge active_low shared _ => (consumer <=? 1) && (edge <=? 1) && (active_low <=? 1) && (shared <=? 1)
  | DReg space width offset access _ => (space <? 256) && (width <? 256) && (offset <? 256) && (access <? 256)
  end.

(* FieldEntry::Named([u8; 4], usize): the name is copied *)
Definition typed_fentryb (e : fentry) : bool :=
  match e with FNamed name _ => bytes_ok name | FReserved _ => true end.

Fixpoint typedb (t : term) {struct t} : bool :=
  let all := fix all (l : list term) : bool := match l with [] => true | x :: r => typedb x && all r end in
  match t with
  | TZero | TOne | TOnes => true
  | TInt ty n => negb (ty =? 8) || (n <? 256)                       (* u8: written as [0x0A; n] *)
  | TStr s | TPath s | TFieldName s | TBufData s => bytes_ok s      (* &str / Vec<u8>: copied *)
  | TEisa _ | TUuid _ | TArg _ | TLocal _ => true
  | TDesc d => typed_descb d
  | TOp1 _ a => typedb a
  | TOp2 _ a b => typedb a && typedb b
  | TOp3 _ x a b => typedb x && typedb a && typedb b
  | TOp4 _ a b c d => typedb a && typedb b && typedb c && typedb d
  | TName p i => bytes_ok p && typedb i
  | TDevice p ks | TScope p ks | TScopeRaw p ks | TCall p ks => bytes_ok p && all ks
  | TMethod p _ serialized ks => bytes_ok p && (serialized <=? 1) && all ks          (* serialized: bool *)
  | TPowerRes p level _ ks => bytes_ok p && (level <? 256) && all ks                  (* level: u8 *)
  | TOpRegion p space o l => bytes_ok p && (space <? 256) && typedb o && typedb l     (* space as u8 *)
  | TMutex p sync => bytes_ok p && (sync <? 256)                                      (* sync_level: u8 *)
  | TAcquire p _ | TRelease p => bytes_ok p
  | TField p access lock update es =>
      (* access | lock << 4 | update << 5: FieldAccessType 0..5, FieldLockRule 0..1, FieldUpdateRule 0..2 *)
      bytes_ok p && (access <? 16) && (lock <=? 1) && (update <? 4) && forallb typed_fentryb es
  | TPackage ks | TPkgBuilder ks | TResTemplate ks | TElse ks => all ks
  | TIf pr ks | TWhile pr ks => typedb pr && all ks
  end.

Definition typed (t : term) : Prop := typedb t = true.
Definition typed_desc (d : desc) : Prop := typed_descb d = true.
Definition typed_fentry (e : fentry) : Prop := typed_fentryb e = true.

Lemma typed_all l : forallb typedb l = true <-> Forall typed l.
Proof. rewrite forallb_forall, Forall_forall. reflexivity. Qed.

(* [inversion] would also compute inside the list; this does not *)
Ltac inv_some E b := apply Some_inj in E; subst b.

Lemma bok_cons x l : bytes_ok (x :: l) = is_byte x && bytes_ok l.
Proof. reflexivity. Qed.

Lemma is_byte_lt x : x < 256 -> is_byte x = true.
Proof. intros H. unfold is_byte. now apply N.ltb_lt. Qed.

Lemma cast_u8_lt x : cast U8 x < 256.
Proof. unfold cast, U8. change (2 ^ 8) with 256. apply N.mod_lt. lia. Qed.

Lemma is_byte_cast x : is_byte (cast U8 x) = true.
Proof. apply is_byte_lt, cast_u8_lt. Qed.

Lemma bok_in l x : bytes_ok l = true -> In x l -> x < 256.
Proof. intros H Hx. unfold bytes_ok in H. rewrite forallb_forall in H. apply N.ltb_lt. now apply H. Qed.

Lemma bok_forall l : (forall x, In x l -> x < 256) -> bytes_ok l = true.
Proof. intros H. unfold bytes_ok. apply forallb_forall. intros x Hx. apply is_byte_lt. now apply H. Qed.

Lemma bok_rev l : bytes_ok l = true -> bytes_ok (rev l) = true.
Proof. intros H. apply bok_forall. intros x Hx. apply (bok_in l x H). now apply in_rev. Qed.

Lemma bok_tl l : bytes_ok l = true -> bytes_ok (tl l) = true.
Proof. destruct l as [|x l]; [trivial|]. rewrite bok_cons, andb_true_iff. now intros [_ H]. Qed.

Lemma bok_firstn n l : bytes_ok l = true -> bytes_ok (firstn n l) = true.
Proof.
  intros H. rewrite <- (firstn_skipn n l), bytes_ok_app, andb_true_iff in H. exact (proj1 H).
Qed.

Lemma bok_skipn n l : bytes_ok l = true -> bytes_ok (skipn n l) = true.
Proof.
  intros H. rewrite <- (firstn_skipn n l), bytes_ok_app, andb_true_iff in H. exact (proj2 H).
Qed.

Lemma bok_app_intro a b : bytes_ok a = true -> bytes_ok b = true -> bytes_ok (a ++ b) = true.
Proof. intros Ha Hb. now rewrite bytes_ok_app, Ha, Hb. Qed.

Lemma bok_cons_intro x l : is_byte x = true -> bytes_ok l = true -> bytes_ok (x :: l) = true.
Proof. intros Hx Hl. now rewrite bok_cons, Hx, Hl. Qed.

(* a ++ (x :: b) ++ ... : one goal per piece (syntactic: a piece such as [w2 n] is not unfolded); [leaf] closes what it can *)
Ltac bok_with leaf :=
  lazymatch goal with
  | |- bytes_ok (?a ++ ?b) = true => apply (bok_app_intro a b); [bok_with leaf|bok_with leaf]
  | |- bytes_ok (?x :: ?l) = true => apply (bok_cons_intro x l); [try reflexivity; try leaf|bok_with leaf]
  | |- bytes_ok [] = true => reflexivity
  | |- _ => try reflexivity; try leaf
  end.

Ltac bok_split := bok_with ltac:(first [apply le_bytes_ok | apply is_byte_cast]).

Lemma lor_byte a b : a < 256 -> b < 256 -> is_byte (N.lor a b) = true.
Proof. intros Ha Hb. apply is_byte_lt. change 256 with (2 ^ 8). now apply lor_lt. Qed.

Lemma shiftl_lt x k m : x * 2 ^ k < m -> N.shiftl x k < m.
Proof. now rewrite shiftl_mul. Qed.

Lemma framed_bytes_ok md op body e :
  bytes_ok op = true -> bytes_ok body = true -> framed md op body = Some e -> bytes_ok e = true.
Proof.
  intros Hop Hbody H. destruct (framed_inv md op body e H) as (pl & Epl & ->).
  rewrite !bytes_ok_app, Hop, Hbody, (pkg_len_bytes_ok _ _ _ _ Epl). reflexivity.
Qed.

(* integers: u8 is the one carrier whose value is written as it stands *)
Lemma enc_u8_bytes_ok n : n < 256 -> bytes_ok (enc_u8 n) = true.
Proof.
  intros H. unfold enc_u8. destruct n as [|[p|p|]]; try reflexivity; rewrite !bok_cons, (is_byte_lt _ H); reflexivity.
Qed.

Lemma enc_u16_bytes_ok n : bytes_ok (enc_u16 n) = true.
Proof.
  unfold enc_u16. destruct (n <=? 255); [apply enc_u8_bytes_ok, cast_u8_lt|]. rewrite bok_cons, le_bytes_ok. reflexivity.
Qed.

Lemma enc_u32_bytes_ok n : bytes_ok (enc_u32 n) = true.
Proof.
  unfold enc_u32. destruct (n <=? 65535); [apply enc_u16_bytes_ok|]. rewrite bok_cons, le_bytes_ok. reflexivity.
Qed.

Lemma enc_u64_bytes_ok n : bytes_ok (enc_u64 n) = true.
Proof.
  unfold enc_u64. destruct (n <=? 4294967295); [apply enc_u32_bytes_ok|]. rewrite bok_cons, le_bytes_ok. reflexivity.
Qed.

Lemma enc_usize_bytes_ok n : bytes_ok (enc_usize n) = true.
Proof. apply enc_u64_bytes_ok. Qed.

Lemma enc_int_bytes_ok ty n e : (ty = 8 -> n < 256) -> enc_int ty n = Some e -> bytes_ok e = true.
Proof.
  intros Hn H. unfold enc_int in H.
  split_matches H; inversion H; subst e;
    first [ apply enc_u8_bytes_ok, Hn; reflexivity | apply enc_u16_bytes_ok | apply enc_u32_bytes_ok
          | apply enc_u64_bytes_ok | apply enc_usize_bytes_ok ].
Qed.

(* Path::new(text).to_aml_bytes: the prefix bytes are constants or a cast; the name segments are pieces of the text *)
Lemma split_dot_bytes_ok s : forall cur, bytes_ok cur = true -> bytes_ok s = true ->
  bytes_ok (concat (split_dot cur s)) = true.
Proof.
  induction s as [|c r IH]; intros cur Hcur Hs.
  - cbn [split_dot concat]. rewrite app_nil_r. now apply bok_rev.
  - rewrite bok_cons, andb_true_iff in Hs. destruct Hs as [Hc Hr]. cbn [split_dot].
    destruct (c =? 0x2E).
    + cbn [concat]. rewrite bytes_ok_app, (bok_rev _ Hcur). now apply IH.
    + apply IH; [|exact Hr]. rewrite bok_cons, Hc, Hcur. reflexivity.
Qed.

Lemma path_new_bytes_ok s p : bytes_ok s = true -> path_new s = Some p -> bytes_ok (concat (p_parts p)) = true.
Proof.
  intros Hs H. unfold path_new in H.
  destruct (forallb _ _); [|discriminate H]. inversion H; subst p. cbn [p_parts].
  apply split_dot_bytes_ok; [reflexivity|]. destruct (match s with [] => false | c :: _ => c =? 0x5C end); [now apply bok_tl|exact Hs].
Qed.

Lemma path_enc_bytes_ok p e : bytes_ok (concat (p_parts p)) = true -> path_enc p = Some e -> bytes_ok e = true.
Proof.
  intros Hp H. destruct (path_enc_inv p e H) as [Hl ->]. unfold spec_path_form. rewrite !bytes_ok_app, Hp, andb_true_r.
  assert (Hk : N.of_nat (length (p_parts p)) < 256) by lia. revert Hk.
  destruct (p_root p), (p_parts p) as [|s1 [|s2 [|s3 rest]]]; intros Hk; try reflexivity; rewrite !bok_cons, (is_byte_lt _ Hk); reflexivity.
Qed.

Lemma enc_path_text_bytes_ok s e : bytes_ok s = true -> enc_path_text s = Some e -> bytes_ok e = true.
Proof.
  intros Hs H. unfold enc_path_text in H. destruct (path_new s) as [p|] eqn:Ep; [|discriminate H].
  cbn [option_bind] in H. exact (path_enc_bytes_ok p e (path_new_bytes_ok s p Hs Ep) H).
Qed.

(* EISAName::new: whatever characters come in, the result is an integer encoding (or a refusal) *)
Lemma eisa_enc_bytes_ok s e : eisa_enc s = Some e -> bytes_ok e = true.
Proof.
  unfold eisa_enc. destruct (eisa_value s) as [v|]; [|discriminate]. cbn [option_map]. intros H; inversion H; subst e.
  apply enc_u32_bytes_ok.
Qed.

(* Uuid::new: each of the 16 bytes is (hi << 4) as u8 | lo with two hex digits *)
Lemma hex2byte_lt v1 v2 x : hex2byte v1 v2 = Some x -> x < 256.
Proof.
  unfold hex2byte. destruct (hex_digit v1) as [hi|]; [|discriminate]. cbn [option_bind].
  destruct (hex_digit v2) as [lo|] eqn:Elo; [|discriminate]. cbn [option_bind]. intros H; inversion H; subst x.
  apply hex_digit_lt in Elo. change 256 with (2 ^ 8). apply lor_lt; [apply cast_u8_lt|]. change (2 ^ 8) with 256. lia.
Qed.

Lemma opt_all_bytes_ok (l : list (option N)) r :
  (forall x, In (Some x) l -> x < 256) -> opt_all l = Some r -> bytes_ok r = true.
Proof.
  revert r. induction l as [|o l IH]; intros r Hl H.
  - inversion H; subst r. reflexivity.
  - cbn [opt_all] in H. destruct o as [x|]; [|discriminate H].
    destruct (opt_all l) as [r'|]; [|discriminate H]. cbn [option_map] in H. inversion H; subst r.
    rewrite bok_cons, (is_byte_lt x), (IH r'); [reflexivity| |reflexivity|].
    + intros y Hy. apply Hl. now right.
    + apply Hl. now left.
Qed.

Lemma uuid_bytes_bytes_ok s b : uuid_bytes s = Some b -> bytes_ok b = true.
Proof.
  unfold uuid_bytes. destruct (assert (Nat.eqb _ _)); [|discriminate]. cbn [option_bind].
  destruct (assert _); [|discriminate]. cbn [option_bind]. apply opt_all_bytes_ok.
  intros x Hx. apply in_map_iff in Hx. destruct Hx as ([i j] & Hx & _). exact (hex2byte_lt _ _ _ Hx).
Qed.

Lemma buffer_data_bytes_ok md data e : bytes_ok data = true -> buffer_data md data = Some e -> bytes_ok e = true.
Proof.
  intros Hd. unfold buffer_data. apply framed_bytes_ok; [reflexivity|]. rewrite bytes_ok_app, enc_usize_bytes_ok, Hd. reflexivity.
Qed.

Lemma uuid_enc_bytes_ok md s e : uuid_enc md s = Some e -> bytes_ok e = true.
Proof.
  unfold uuid_enc. destruct (uuid_bytes s) as [b|] eqn:Eb; [|discriminate]. cbn [option_bind].
  apply buffer_data_bytes_ok. exact (uuid_bytes_bytes_ok s b Eb).
Qed.

Lemma shiftl_bool_lt x k : x <= 1 -> k < 8 -> N.shiftl x k < 256.
Proof.
  intros Hx Hk. assert (Hc : x = 0 \/ x = 1) by lia. destruct Hc as [->| ->].
  - rewrite N.shiftl_0_l. lia.
  - rewrite N.shiftl_1_l. change 256 with (2 ^ 8). apply N.pow_lt_mono_r; lia.
Qed.

Ltac tnum :=
  repeat match goal with
         | H : (_ <=? _) = true |- _ => apply N.leb_le in H
         | H : (_ <? _) = true |- _ => apply N.ltb_lt in H
         end.

Theorem enc_desc_bytes_ok : forall d b, typed_desc d -> enc_desc d = Some b -> bytes_ok b = true.
Proof.
  intros d b T E. unfold typed_desc in T. destruct d as [rw base len|width ty cacheable rw min max trans0|min max align len
                                                       |consumer edge active_low shared number|space width offset access addr];
    cbn [typed_descb] in T; cbn [enc_desc] in E.
  - inv_some E b. tnum. unfold w2, d4. bok_split. apply is_byte_lt. lia.
  - andbs T. tnum.
    assert (Htf : is_byte (match ty with 0 => N.lor (cast U8 (N.shiftl cacheable 1)) rw | 1 => 3 | _ => 0 end) = true).
    { assert (Hc : ty = 0 \/ ty = 1 \/ ty = 2) by lia. destruct Hc as [->|[->| ->]]; try reflexivity.
      cbn [negb orb N.eqb] in T0. change (0 =? 0) with true in T0. cbn [negb orb] in T0. tnum.
      apply lor_byte; [apply cast_u8_lt|lia]. }
    assert (Hty : is_byte ty = true) by (apply is_byte_lt; lia).
    destruct (if width =? 16 then _ else _) as [[[dcode w] m]|] eqn:Ew; [|discriminate E]. cbn [option_bind] in E.
    assert (Hd : is_byte dcode = true).
    { destruct (width =? 16); [inversion Ew; reflexivity|]. destruct (width =? 32); [inversion Ew; reflexivity|].
      destruct (width =? 64); [inversion Ew; reflexivity|discriminate Ew]. }
    destruct (sub_c max min) as [diff|]; [|discriminate E]. cbn [option_bind] in E.
    destruct (add_c m diff 1) as [ln|]; [|discriminate E]. cbn [option_bind] in E. inv_some E b.
    unfold w2. bok_split; assumption.
  - inv_some E b. andbs T. tnum. unfold w2. bok_split; apply is_byte_lt; assumption.
  - inv_some E b. andbs T. tnum. unfold w2, d4. bok_split.
    apply is_byte_lt. change 256 with (2 ^ 8). repeat apply lor_lt; change (2 ^ 8) with 256;
      try (apply shiftl_bool_lt; lia); lia.
  - inv_some E b. andbs T. tnum. unfold w2, q8. bok_split; apply is_byte_lt; assumption.
Qed.

Theorem enc_fentry_bytes_ok : forall md e b, typed_fentry e -> enc_fentry md e = Some b -> bytes_ok b = true.
Proof.
  intros md e b T E. unfold typed_fentry in T. destruct e as [name len|len]; cbn [typed_fentryb] in T; cbn [enc_fentry] in E;
    (destruct (pkg_len md len false) as [p|] eqn:Ep; [|discriminate E]); cbn [option_bind] in E; inv_some E b.
  - rewrite bytes_ok_app, T, (pkg_len_bytes_ok _ _ _ _ Ep). reflexivity.
  - rewrite bok_cons, (pkg_len_bytes_ok _ _ _ _ Ep). reflexivity.
Qed.

Lemma opt_concat_map_bytes_ok {A} (f : A -> option (list N)) (ok : A -> bool) l :
  Forall (fun x => forall b, ok x = true -> f x = Some b -> bytes_ok b = true) l ->
  forall e, forallb ok l = true -> opt_concat_map f l = Some e -> bytes_ok e = true.
Proof.
  induction 1 as [|x l Hx _ IH]; intros e T E.
  - inversion E; subst e. reflexivity.
  - cbn [forallb] in T. apply andb_true_iff in T. destruct T as [Tx Tl]. cbn [opt_concat_map] in E.
    destruct (f x) as [a|]; [|discriminate E]. cbn [option_bind] in E.
    destruct (opt_concat_map f l) as [r|]; [|discriminate E]. cbn [option_bind] in E. inversion E; subst e.
    rewrite bytes_ok_app, (Hx a Tx eq_refl), (IH r Tl eq_refl). reflexivity.
Qed.

Lemma fentries_bytes_ok md es e :
  forallb typed_fentryb es = true -> opt_concat_map (enc_fentry md) es = Some e -> bytes_ok e = true.
Proof. apply opt_concat_map_bytes_ok, Forall_forall. intros x _ b. apply enc_fentry_bytes_ok. Qed.


Lemma op1_code_bytes_ok k op : op1_code k = Some op -> bytes_ok op = true.
Proof. intros H. unfold op1_code in H. split_matches H; inversion H; reflexivity. Qed.

Lemma cmp_code_bytes_ok k op : cmp_code k = Some op -> bytes_ok op = true.
Proof. intros H. unfold cmp_code in H. split_matches H; inversion H; reflexivity. Qed.

Lemma op3_code_byte k op : op3_code k = Some op -> is_byte op = true.
Proof.
  intros H. unfold op3_code in H. apply nth_error_In in H. cbn [In] in H.
  repeat (destruct H as [<-|H]; [reflexivity|]). destruct H.
Qed.

Lemma land7_lt x : N.land x 7 < 256.
Proof.
  change 7 with (N.ones 3). rewrite land_ones_k. change (2 ^ 3) with 8. assert (x mod 8 < 8) by (apply N.mod_lt; lia). lia.
Qed.

Definition EB (t : term) : Prop := forall md b, typedb t = true -> enc md t = Some b -> bytes_ok b = true.

Lemma kids_eb md ks : Forall EB ks -> forall e, forallb typedb ks = true -> encs md ks = Some e -> bytes_ok e = true.
Proof. intros HF. apply opt_concat_map_bytes_ok. eapply Forall_impl; [|exact HF]. intros x Hx. exact (Hx md). Qed.

(* one piece of the output: produced by a sub-term, a child list, a path, a PkgLength, a field list, an opcode table *)
Ltac piece :=
  idtac; match goal with
  | |- bytes_ok (le _ _) = true => apply le_bytes_ok
  | |- bytes_ok (w2 _) = true => apply le_bytes_ok
  | |- bytes_ok (enc_usize _) = true => apply enc_usize_bytes_ok
  | |- is_byte (cast U8 _) = true => apply is_byte_cast
  | H : bytes_ok ?e = true |- bytes_ok ?e = true => exact H
  | H : enc_path_text ?s = Some ?e |- bytes_ok ?e = true => apply (enc_path_text_bytes_ok s e); [assumption|exact H]
  | IH : EB ?a, H : enc ?md ?a = Some ?e |- bytes_ok ?e = true => apply (IH md e); [assumption|exact H]
  | HF : Forall _ ?ks, H : encs ?md ?ks = Some ?e |- bytes_ok ?e = true => apply (kids_eb md ks HF e); [assumption|exact H]
  | H : pkg_len _ _ _ = Some ?e |- bytes_ok ?e = true => exact (pkg_len_bytes_ok _ _ _ _ H)
  | H : opt_concat_map (enc_fentry ?md) ?es = Some ?e |- bytes_ok ?e = true => apply (fentries_bytes_ok md es e); [assumption|exact H]
  | H : op1_code _ = Some ?e |- bytes_ok ?e = true => exact (op1_code_bytes_ok _ _ H)
  | H : cmp_code _ = Some ?e |- bytes_ok ?e = true => exact (cmp_code_bytes_ok _ _ H)
  | H : op3_code _ = Some ?e |- is_byte ?e = true => exact (op3_code_byte _ _ H)
  | H : ?x < 256 |- is_byte ?x = true => exact (is_byte_lt x H)
  end.

Ltac pieces := bok_with piece.

(* E is either  framed md op body = Some b  or  Some (...) = Some b *)
Ltac finish E :=
  lazymatch type of E with
  | framed ?md ?op ?body = Some ?b => apply (framed_bytes_ok md op body b); [reflexivity| |exact E]; pieces
  | Some _ = Some ?b => inv_some E b; pieces
  | None = Some _ => discriminate E
  end.

Theorem enc_bytes_ok_all : forall t, EB t.
Proof.
  apply term_ind'. intros t IH.
  destruct t as [ | | |ty n|s|s|s|s|s|b|n|n|d|k a|k a b|k t a b|k a b c d|p i|p ks|p ks|p ks|p ar sr ks|p lv od ks|p sp o l|p sy|p tm|p
                |p args|p ac lk up entries|ks|ks|ks|pr ks|ks|pr ks]; cbn [sub_all] in IH; decompose [and] IH; intros md b0 T E.
  all: cbn [typedb] in T; rewrite ?forallb_fix in T; andbs T; tnum;
    rewrite ?scope_raw_eq, ?pkg_builder_eq in E; cbn [enc] in E; cbv zeta in E; rewrite ?encs_fix in E.
  (* Every piece of the output is a constant, or comes with one of the [_bytes_ok] lemmas collected in [piece].  That alone closes
     TZero TOne TOnes TFieldName, the operators TOp1 TOp2 TOp3 TOp4, TName TDevice TScope TScopeRaw TPowerRes TOpRegion TMutex TAcquire
     TRelease TCall TPackage TPkgBuilder TResTemplate TIf TElse TWhile, once the binds and the opcode tables are taken apart: *)
  all: try solve [split_matches E; finish E].
  - apply (enc_int_bytes_ok ty n b0); [|exact E]. intros ->. change (8 =? 8) with true in T. cbn [negb orb] in T. tnum. exact T.
  - inv_some E b0. unfold enc_string. pieces.
  - exact (enc_path_text_bytes_ok s b0 T E).
  - exact (eisa_enc_bytes_ok s b0 E).
  - exact (uuid_enc_bytes_ok md s b0 E).
  - exact (buffer_data_bytes_ok md b b0 T E).
  - (* TArg: asserted <= 6 before use *) binds E. apply assert_true in E0. tnum. finish E. apply is_byte_lt. lia.
  - (* TLocal: asserted <= 7 *) binds E. apply assert_true in E0. tnum. finish E. apply is_byte_lt. lia.
  - exact (enc_desc_bytes_ok d b0 T E).
  - (* TMethod: the flags byte *) binds E. finish E. apply lor_byte; [|apply shiftl_bool_lt; lia]. apply land7_lt.
  - (* TField: the flags byte *) binds E. finish E. apply is_byte_lt. change 256 with (2 ^ 8). repeat apply lor_lt; change (2 ^ 8) with 256.
    + lia.
    + apply shiftl_bool_lt; lia.
    + apply shiftl_lt. change (2 ^ 5) with 32. lia.
Qed.

Theorem enc_bytes_ok : forall md t b, typed t -> enc md t = Some b -> bytes_ok b = true.
Proof. intros md t b T E. exact (enc_bytes_ok_all t md b T E). Qed.

Theorem encs_bytes_ok : forall md ks b, Forall typed ks -> encs md ks = Some b -> bytes_ok b = true.
Proof.
  intros md ks b T E. apply (kids_eb md ks); [|apply typed_all; exact T|exact E].
  apply Forall_forall. intros x _. apply enc_bytes_ok_all.
Qed.

(* A string whose one character is 300: well-formed in the sense of the round-trip theorem (no NUL), not typed, and the
   encoder copies the 300 into its output.  So [wf] alone cannot replace [bytes_ok b] in the DSDT theorems. *)
Example typed_needed :
  let t := TStr [300] in
  wf (fun _ => O) false t /\ typedb t = false /\ enc Checked t = Some [0x0D; 300; 0] /\ bytes_ok [0x0D; 300; 0] = false.
Proof. split; [repeat constructor; discriminate|]. vm_compute. repeat split. Qed.

(* One witness per argument [typed] speaks about: the term is not typed, is encoded in both profiles, and the encoding
   contains a non-byte.  (For the bool / bit-field arguments the witness shows that SOME bound is needed; the bound
   [typed] asks for is the range of the Rust type, which is tighter than the largest value that would still fit.) *)
Definition untyped_witnesses : list term :=
  let nm := [65; 66; 67; 68] in let bad := [65; 66; 67; 256] in
  [ TInt 8 256; TStr [256]; TPath bad; TFieldName [256; 66; 67; 68]; TBufData [256];
    TDesc (DMem32 256 0 0);
    TDesc (DAddr 16 256 0 0 0 0 None); TDesc (DAddr 32 0 0 256 0 0 None);
    TDesc (DIO 0 0 256 0); TDesc (DIO 0 0 0 256);
    TDesc (DIrq 256 0 0 0 0); TDesc (DIrq 0 128 0 0 0); TDesc (DIrq 0 0 64 0 0); TDesc (DIrq 0 0 0 32 0);
    TDesc (DReg 256 0 0 0 0); TDesc (DReg 0 256 0 0 0); TDesc (DReg 0 0 256 0 0); TDesc (DReg 0 0 0 256 0);
    TName bad TZero; TDevice bad []; TScope bad []; TScopeRaw bad []; TCall bad [];
    TMethod bad 0 0 []; TMethod nm 0 32 [];
    TPowerRes bad 0 0 []; TPowerRes nm 256 0 [];
    TOpRegion bad 0 TZero TZero; TOpRegion nm 256 TZero TZero;
    TMutex bad 0; TMutex nm 256; TAcquire bad 0; TRelease bad;
    TField bad 0 0 0 []; TField nm 256 0 0 []; TField nm 0 16 0 []; TField nm 0 0 8 []; TField nm 0 0 0 [FNamed bad 8];
    (* and through a parent: the violation may sit at any depth *)
    TIf TOne [TPackage [TOp1 2 (TStr [256])]]; TResTemplate [TDesc (DIO 0 0 256 0)] ].

Example every_conjunct_needed :
  forallb (fun t => negb (typedb t) &&
                    match enc Checked t, enc Wrapping t with
                    | Some b, Some b' => negb (bytes_ok b) && negb (bytes_ok b')
                    | _, _ => false
                    end) untyped_witnesses = true.
Proof. vm_compute. reflexivity. Qed.

(* [dsdt_composition], [dsdt_body_composition], [dsdt_from_new] of Proofs/DsdtP.v with [bytes_ok b = true] replaced by [typed] *)
Theorem dsdt_composition_typed : forall env t md b v0,
  wf env false t -> typed t -> enc md t = Some b ->
  (36 <= length v0)%nat -> N.of_nat (length v0 + length b) < 2 ^ 32 ->
  exists img g,
    sdt_sink_vec md v0 b = Some img /\ sdt_append_slice md v0 b = Some img /\
    (forall tr, flatten tr = b -> run_sdt md v0 tr = Some img) /\
    payload_image v0 b img /\
    norm false t = Some g /\
    forall f, (depth t < f)%nat -> parse env f false (skipn (length v0) img) = Some (g, []).
Proof.
  intros env t md b v0 Hwf Ht Henc H36 Hsz.
  exact (dsdt_composition env t md b v0 Hwf Henc (enc_bytes_ok md t b Ht Henc) H36 Hsz).
Qed.

Theorem dsdt_body_composition_typed : forall env ks md b v0,
  Forall (wf env false) ks -> Forall typed ks -> encs md ks = Some b -> b <> [] ->
  (36 <= length v0)%nat -> N.of_nat (length v0 + length b) < 2 ^ 32 ->
  exists img gs,
    sdt_sink_vec md v0 b = Some img /\ sdt_append_slice md v0 b = Some img /\
    (forall tr, flatten tr = b -> run_sdt md v0 tr = Some img) /\
    payload_image v0 b img /\
    norms false ks = Some gs /\
    forall f, (depths ks < f)%nat ->
      parse_all (parse env f) (length img - length v0) false (skipn (length v0) img) = Some gs.
Proof.
  intros env ks md b v0 Hwf Ht Henc Hne H36 Hsz.
  exact (dsdt_body_composition env ks md b v0 Hwf Henc (encs_bytes_ok md ks b Ht Henc) Hne H36 Hsz).
Qed.

Corollary dsdt_from_new_typed : forall env t md b c v0,
  sdt_new c = Some v0 -> wf env false t -> typed t -> enc md t = Some b ->
  N.of_nat (length v0 + length b) < 2 ^ 32 ->
  exists img g,
    sdt_sink_vec md v0 b = Some img /\ sdt_append_slice md v0 b = Some img /\
    payload_image v0 b img /\ norm false t = Some g /\
    forall f, (depth t < f)%nat -> parse env f false (skipn (length v0) img) = Some (g, []).
Proof.
  intros env t md b c v0 Hnew Hwf Ht Henc Hsz.
  exact (dsdt_from_new env t md b c v0 Hnew Hwf Henc (enc_bytes_ok md t b Ht Henc) Hsz).
Qed.

(* Under the well-formedness hypothesis of the round-trip theorem most of [typed] is redundant: wf bounds every flag /
   level / space argument, and makes every name text a rendering of NameSegs (upper-case letters, digits, '_', and the
   separators '\' '.').  What wf leaves open is [rawb]: the characters of strings and of BufferData, and the arguments of
   the descriptors inside a ResourceTemplate. *)
Fixpoint rawb (t : term) {struct t} : bool :=
  let all := fix all (l : list term) : bool := match l with [] => true | x :: r => rawb x && all r end in
  match t with
  | TStr s | TBufData s => bytes_ok s
  | TDesc d => typed_descb d
  | TOp1 _ a | TName _ a => rawb a
  | TOp2 _ a b | TOpRegion _ _ a b => rawb a && rawb b
  | TOp3 _ x a b => rawb x && rawb a && rawb b
  | TOp4 _ a b c d => rawb a && rawb b && rawb c && rawb d
  | TDevice _ ks | TScope _ ks | TScopeRaw _ ks | TCall _ ks | TMethod _ _ _ ks | TPowerRes _ _ _ ks
  | TPackage ks | TPkgBuilder ks | TResTemplate ks | TElse ks => all ks
  | TIf pr ks | TWhile pr ks => rawb pr && all ks
  | _ => true
  end.

Lemma name_char_lt c : is_name_char c = true -> c < 256.
Proof.
  unfold is_name_char, is_lead_name_char. intros H.
  repeat match type of H with
         | (_ || _) = true => apply orb_true_iff in H; destruct H as [H|H]
         | (_ && _) = true => apply andb_true_iff in H; destruct H as [_ H]
         end; first [apply N.leb_le in H | apply N.eqb_eq in H]; lia.
Qed.

Lemma nameseg_bytes_ok s : is_nameseg s = true -> bytes_ok s = true.
Proof.
  intros H. destruct (nameseg_shape s H) as (a & b & c & d & -> & Ha & Hb & Hc & Hd).
  assert (Ha' : is_name_char a = true) by (unfold is_name_char; now rewrite Ha).
  rewrite !bok_cons, !is_byte_lt by now apply name_char_lt. reflexivity.
Qed.

Lemma join_dot_bytes_ok parts : Forall (fun s => bytes_ok s = true) parts -> bytes_ok (join_dot parts) = true.
Proof.
  induction parts as [|x r IH]; intros HF; [reflexivity|]. inversion HF as [|? ? Hx Hr]; subst.
  destruct r as [|y r]; [exact Hx|].
  change (join_dot (x :: y :: r)) with (x ++ 0x2E :: join_dot (y :: r)). rewrite bytes_ok_app, bok_cons, Hx, (IH Hr). reflexivity.
Qed.

Lemma path_text_bytes_ok s : (exists q, path_new s = Some q /\ wf_parts (p_parts q)) -> bytes_ok s = true.
Proof.
  intros (q & Hq & Hwf). destruct (path_new_sound s q Hq) as [<- _]. unfold render. rewrite bytes_ok_app.
  rewrite join_dot_bytes_ok; [destruct (p_root q); reflexivity|].
  unfold wf_parts in Hwf. eapply Forall_impl; [|exact Hwf]. intros part. apply nameseg_bytes_ok.
Qed.

Lemma wf_fentries_typed es : Forall wf_fentry es -> forallb typed_fentryb es = true.
Proof.
  induction es as [|e es IH]; intros HF; [reflexivity|]. inversion HF as [|? ? He Hes]; subst. cbn [forallb].
  rewrite (IH Hes), andb_true_r. destruct e as [name len|len]; [|reflexivity]. destruct He as [Hn _]. now apply nameseg_bytes_ok.
Qed.

Lemma desc_children_typed ks : Forall desc_child ks -> forallb rawb ks = true -> forallb typedb ks = true.
Proof.
  induction 1 as [|k ks [d ->] _ IH]; intros R; [reflexivity|]. cbn [forallb rawb typedb] in R |- *.
  apply andb_true_iff in R. destruct R as [Rd Rk]. rewrite Rd, (IH Rk). reflexivity.
Qed.

Section WfTyped.
  Variable env : arity_env.

  Definition WT (t : term) : Prop := forall el, wf env el t -> rawb t = true -> typedb t = true.

  Lemma kids_wt ks : Forall WT ks -> forall el, wfs env el ks -> forallb rawb ks = true -> forallb typedb ks = true.
  Proof.
    induction ks as [|x ks IH]; intros HF el W R; [reflexivity|].
    inversion HF as [|? ? Hx Hks]; subst. inversion W as [|? ? Wx Wks]; subst.
    cbn [forallb] in R |- *. apply andb_true_iff in R. destruct R as [Rx Rks].
    rewrite (Hx el Wx Rx), (IH Hks el Wks Rks). reflexivity.
  Qed.

  (* a conjunction of checks of [typedb], each from the hypothesis that says the same of [wf] or of [rawb] *)
  Ltac wsplit :=
    repeat (apply andb_true_iff; split);
    try match goal with
    | H : ?x = true |- ?x = true => exact H
    | H : wf_name ?p |- bytes_ok ?p = true => exact (path_text_bytes_ok p H)
    | IH : WT ?a, W : wf env ?el ?a |- typedb ?a = true => apply (IH el W); assumption
    | HF : Forall _ ?ks, W : wfs env ?el ?ks |- forallb typedb ?ks = true => apply (kids_wt ks HF el W); assumption
    | H : ?a < ?b |- (?a <? ?b) = true => now apply N.ltb_lt
    | H : ?a <= ?b |- (?a <=? ?b) = true => now apply N.leb_le
    end.

  Theorem wf_raw_typed_all : forall t, WT t.
  Proof.
    apply term_ind'. intros t IH.
    destruct t as [ | | |ty n|s|s|s|s|s|b|n|n|d|k a|k a b|k t a b|k a b c d|p i|p ks|p ks|p ks|p ar sr ks|p lv od ks|p sp o l|p sy|p tm|p
                  |p args|p ac lk up entries|ks|ks|ks|pr ks|ks|pr ks]; cbn [sub_all] in IH; decompose [and] IH; intros el W R.
    all: cbn [wf] in W; rewrite ?wfs_fix in W; cbn [rawb] in R; rewrite ?forallb_fix in R; andbs R; cbn [typedb]; rewrite ?forallb_fix.
    (* TZero TOne TOnes TEisa TUuid TArg TLocal ask nothing; for TStr TBufData TDesc [typedb] is [rawb] *)
    all: try reflexivity; try exact R.
    (* the operators, TName TDevice TScope TScopeRaw TMethod TPowerRes TOpRegion TMutex TAcquire TRelease TPackage TPkgBuilder TIf TElse
       TWhile: conjunct by conjunct *)
    all: try solve [decompose [and] W; wsplit].
    - (* TInt *) destruct W as [[-> Hn]|[[-> _]|[[-> _]|[[-> _]|[-> _]]]]]; try reflexivity.
      change (8 =? 8) with true. cbn [negb orb]. apply N.ltb_lt. exact Hn.
    - (* TPath *) destruct W as (q & Hq & Hwf & _). apply path_text_bytes_ok. now exists q.
    - (* TFieldName *) apply nameseg_bytes_ok. exact (proj1 W).
    - (* TCall *) destruct W as ((q & Hq & Hwf & _) & Wk). wsplit. apply path_text_bytes_ok. now exists q.
    - (* TField *) destruct W as (Wp & Wa & Wl & Wu & We). wsplit. now apply wf_fentries_typed.
    - (* TResTemplate *) exact (desc_children_typed ks W R).
  Qed.
End WfTyped.

Theorem wf_raw_typed : forall env el t, wf env el t -> rawb t = true -> typed t.
Proof. intros env el t W R. exact (wf_raw_typed_all env t el W R). Qed.

Corollary enc_bytes_ok_wf : forall env el md t b, wf env el t -> rawb t = true -> enc md t = Some b -> bytes_ok b = true.
Proof. intros env el md t b W R E. exact (enc_bytes_ok md t b (wf_raw_typed env el t W R) E). Qed.

Print Assumptions enc_bytes_ok.
Print Assumptions encs_bytes_ok.
Print Assumptions enc_desc_bytes_ok.
Print Assumptions enc_fentry_bytes_ok.
Print Assumptions pkg_len_bytes_ok.
Print Assumptions dsdt_composition_typed.
Print Assumptions dsdt_body_composition_typed.
Print Assumptions dsdt_from_new_typed.
Print Assumptions wf_raw_typed.
