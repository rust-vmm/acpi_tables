(* VIOT: the table-specific obligations of the generic history invariant.  The VIOT keeps a u16 handle counter and a u16
   node count (needs_pos KViot = true), so besides "claimed len() = bytes written" every node must be non-empty and
   shorter than 2^16. *)
From Coq Require Import ZArith List Lia.
From ACPI Require Import Lib.Bytes Impl.Table Impl.Viot Spec.Layout Proofs.TableP Proofs.Tables
  Proofs.BaseP Proofs.ViotStructP.
Import ListNotations.
Open Scope N_scope.

Lemma viot_new_inv c s0 : viot_new c = Some s0 -> Inv2 KViot s0.
Proof. intros H. exact (plain_new_inv KViot _ _ c s0 H eq_refl). Qed.

Lemma viot_addition_sound s o e : t_kind s = KViot -> viot_addition s o = Some e ->
  a_claimed e = N.of_nat (length (a_bytes e)) /\
  (needs_pos (t_kind s) = true -> (1 <= length (a_bytes e))%nat /\ a_claimed e < 2 ^ 16).
Proof.
  intros _ H. apply viot_addition_cases in H as (d & _ & ->). cbn [viot_node_addition a_claimed a_bytes].
  rewrite viot_node_length. split; [reflexivity|]. intros _.
  destruct (viot_node_size_cases d) as [-> | ->]; (split; [lia|reflexivity]).
Qed.

Definition viot_table : addtable :=
  {| at_name := [86; 73; 79; 84]; at_kind := KViot; at_new := viot_new; at_entry := viot_addition;
     at_new_inv := viot_new_inv; at_sound := viot_addition_sound |}.

(* C01, C02 for the VIOT *)
Corollary viot_history md c ops s0 s :
  viot_new c = Some s0 -> run_adds viot_addition md s0 ops = Some s -> N.of_nat (length (tbl_image s)) < 2 ^ 32 ->
  sum8 (tbl_image s) = 0 /\ field_at (tbl_image s) 4 4 = N.of_nat (length (tbl_image s)).
Proof. exact (addtable_sum_len viot_table md c ops s0 s). Qed.
