(* Coherence of the executable judgement with the history-level theorems, component 31: the generic user-defined table `Sdt`
   (C13, C01, C02).  What is proved, with every hypothesis spelled out, is said at the head of Props/CoherenceSdt.v.

   The generic table does not have the protocol of the tables of Proofs/CoherenceTablesP.v: an operation is never fatal -- it is
   PERFORMED (EvNum 0) or REFUSED (EvNum 1, table unchanged) -- so the history goes on after a refusal, the reference image of
   Spec/SdtS.v is defined for EVERY history of well-formed operations (a refused operation leaves the reference vector
   unchanged), and C13 has a third judgement, [sdt_oracle] (which operations must be refused).  Built on the generic
   [shows_c04], [run_history_obs] and on [sdt_every_prefix_sums_to_zero], [sdt_new_length_field_tracks_size], [sdt_step_sim]
   of Proofs/SdtHistP.v. *)
From Coq Require Import NArith List Bool Lia.
From ACPI Require Import Lib.Bytes Lib.Sx Impl.Run Impl.Sdt
  Spec.Layout Spec.SdtS Proofs.FixedP Proofs.SdtP Proofs.Sink2P Proofs.SdtHistP
  Judge Proofs.CoherenceTablesP Proofs.BaseP.
Import ListNotations.
Open Scope N_scope.

Definition sdt_img (d : list N) : option (list N) := Some d.

(* the generic runner skips atoms; on a list of operations proper it is [sdt_model_run] *)
Lemma run_steps_model md ops : forall v, CoherenceWalkP.all_lists ops -> run_steps (sdt_step md) v ops = sdt_model_run md v ops.
Proof.
  induction ops as [|[n|l] r IH]; intros v H; [reflexivity|now inversion H|]. inversion H as [|? ? _ Hr]; subst.
  cbn [run_steps sdt_model_run]. destruct (sdt_step md v (SL l)) as [[v' e]|]; [now apply IH|reflexivity].
Qed.

Record sdt_case_ok (ctor : sx) (ops : list sx) (v0 : list N) : Prop := {
  sco_new : sdt_spec_new ctor = Some v0;
  sco_markers : markers_ok ops = true;
  sco_ops : Forall sdt_op_ok (real_ops ops);
  sco_size : N.of_nat (length v0) + ops_growth (real_ops ops) < 2 ^ 62 }.

Definition sdt_case_okb (ctor : sx) (ops : list sx) : bool :=
  match sdt_spec_new ctor with
  | Some v0 => markers_ok ops && forallb sdt_op_okb (real_ops ops)
               && (N.of_nat (length v0) + ops_growth (real_ops ops) <? 2 ^ 62)
  | None => false
  end.

Lemma sdt_case_okb_sound ctor ops : sdt_case_okb ctor ops = true -> exists v0, sdt_case_ok ctor ops v0.
Proof.
  unfold sdt_case_okb. destruct (sdt_spec_new ctor) as [v0|] eqn:Hn; [|discriminate]. intros H.
  apply andb_true_iff in H. destruct H as [H Hsz]. apply andb_true_iff in H. destruct H as [Hm Hok].
  exists v0. split; [exact Hn|exact Hm|now apply sdt_ops_okb_sound|now apply N.ltb_lt].
Qed.

(* the [match] is the test that [Judge.sdt_writes_length] applies to each operation *)
Lemma keeps_of_not_writes o : sdt_op_ok o ->
  match o with
  | SL [SA 3; SA off; SL bs] => (off <? 8) && (4 <? off + N.of_nat (length bs))
  | SL [SA 4; SA w; SA off; _] => (off <? 8) && (4 <? off + w)
  | _ => false
  end = false -> op_keeps_length o.
Proof.
  intros Ho H. destruct Ho as [w k x Hw|b bytes Hb Hl|off b bytes Hoff Hb Hl|w k off x Hoff Hw|w k x Hw|b bytes Hb Hbo Hl|];
    try (now constructor).
  - apply (kl_write_bytes off b bytes Hb). destruct b as [n|bs]; [discriminate Hb|].
    rewrite andb_false_iff, !N.ltb_ge, <- (sx_nums_length bs bytes Hb) in H. exact H.
  - apply (kl_write_int w k off x Hw). rewrite andb_false_iff, !N.ltb_ge, (proj1 (spec_width_inv w k Hw)) in H. exact H.
Qed.

Lemma all_keep_length (ctor : sx) (l : list sx) :
  Forall sdt_op_ok (real_ops l) -> sdt_writes_length (SL (ctor :: l)) = false -> Forall op_keeps_length (real_ops l).
Proof.
  unfold sdt_writes_length.
  induction l as [|o r IH]; intros Hokl H; [constructor|].
  cbn [existsb] in H. apply orb_false_iff in H. destruct H as [H1 H2].
  destruct o as [n|k]; [rewrite real_ops_cons_SA in *; now apply IH|].
  rewrite real_ops_cons_SL in *. inversion Hokl as [|? ? Hok1 Hokr]; subst.
  constructor; [now apply keeps_of_not_writes|now apply IH].
Qed.

(* what [Judge.oracle] is on component 31, for C13 and for C02 *)
Lemma oracle_13_31 c evs : oracle 13 31 c evs = c04_oracle sdt_spec c evs && c01_oracle c evs && sdt_oracle c evs.
Proof. reflexivity. Qed.

Lemma oracle_2_31 c evs : oracle 2 31 c evs = if sdt_writes_length c then true else c02_oracle c evs.
Proof. reflexivity. Qed.

Section Case.
  Variable md : mode.
  Variable ctor : sx.
  Variable ops : list sx.
  Variable v0 : list N.
  Hypothesis Hcase : sdt_case_ok ctor ops v0.

  Let Hnew := sco_new _ _ _ Hcase.
  Let Hm := sco_markers _ _ _ Hcase.
  Let Hok := sco_ops _ _ _ Hcase.
  Let Hsz := sco_size _ _ _ Hcase.

  Lemma sdt_model_new : sdt_new ctor = Some v0.
  Proof. exact (sdt_new_refines ctor v0 Hnew). Qed.

  (* C04 (also C11), and with it any judgement [P] of single images (C01: [sum_ok], C02: [len_ok]).  What is asked for is what
     the history theorems of Proofs/SdtHistP.v conclude: after every prefix of the operations the model and the Spec have run
     to one and the same table, and [P] holds of it. *)
  Lemma sdt_c04_images (P : list N -> bool) :
    (forall p q, real_ops ops = p ++ q ->
       exists v, sdt_model_run md v0 p = Some v /\ sdt_spec_run v0 p = Some v /\ P v = true) ->
    let evs := sdt_case md (SL (ctor :: ops)) in
    c04_oracle sdt_spec (SL (ctor :: ops)) evs = true /\ all_images P evs = true.
  Proof.
    intros HP. apply (shows_c04 sdt_img (sdt_step md) (sdt_step_one md) sdt_new sdt_spec P ctor ops Hm).
    destruct (HP (real_ops ops) [] (eq_sym (app_nil_r _))) as (sf & Hr & _).
    exists v0, sf. split; [exact sdt_model_new|].
    split; [now rewrite <- run_steps_real, run_steps_model by apply real_ops_all_lists|].
    intros p s1 Hpre Hs. rewrite run_steps_model in Hs by exact (all_lists_prefix ops p Hpre). destruct Hpre as [q E].
    destruct (HP p q E) as (v & Hv & Hsp & HPv). rewrite Hs in Hv. injection Hv as <-.
    exists s1. split; [reflexivity|]. split; [|exact HPv].
    intros r Ht. cbn [ts_image sdt_spec] in Ht. unfold sdt_image in Ht. rewrite Hnew, Hsp in Ht. now injection Ht.
  Qed.

  (* C04 and C01 from one fact: after every prefix the two tables are one, and it sums to 0 *)
  Lemma sdt_c04_c01 :
    c04_oracle sdt_spec (SL (ctor :: ops)) (sdt_case md (SL (ctor :: ops))) = true /\
    c01_oracle (SL (ctor :: ops)) (sdt_case md (SL (ctor :: ops))) = true.
  Proof.
    apply (sdt_c04_images sum_ok). intros p q E. pose proof Hok as F. pose proof Hsz as Z. rewrite E in F, Z.
    destruct (sdt_every_prefix_sums_to_zero md ctor v0 p q sdt_model_new F Z) as (v & Hr & Hsp & _ & Hsum).
    exists v. split; [exact Hr|]. split; [exact Hsp|]. now apply N.eqb_eq.
  Qed.

  Lemma sdt_refusals_obs : forall l v,
    sdt_wf v -> markers_ok l = true -> Forall sdt_op_ok (real_ops l) -> N.of_nat (length v) + ops_growth (real_ops l) < 2 ^ 62 ->
    sdt_refusals_ok v l (obs sdt_img (sdt_step md) v l) = true.
  Proof.
    induction l as [|o r IH]; intros v Hwf Hml Hokl Hszl; [reflexivity|].
    cbn [markers_ok forallb] in Hml. apply andb_true_iff in Hml. destruct Hml as [Ho Hmr].
    destruct o as [n|k].
    - apply N.eqb_eq in Ho. subst n. rewrite real_ops_cons_SA in Hokl, Hszl.
      cbn [obs sdt_img sdt_refusals_ok]. now apply IH.
    - rewrite real_ops_cons_SL in Hokl, Hszl. inversion Hokl as [|? ? Hok1 Hokr]; subst. cbn [ops_growth] in Hszl.
      destruct (sdt_step_sim md v (SL k) Hwf Hok1) as (r1 & Em & Es & K).
      destruct (step_kind_wf v (SL k) r1 Hwf ltac:(lia) K) as [Hwf1 Hl2].
      cbn [obs sdt_refusals_ok]. unfold sdt_step. rewrite Em, Es.
      destruct r1 as [v1|]; cbn [app sdt_after] in *; rewrite N.eqb_refl; apply IH; try assumption; lia.
  Qed.

  Lemma sdt_refusals : sdt_oracle (SL (ctor :: ops)) (sdt_case md (SL (ctor :: ops))) = true.
  Proof.
    unfold sdt_oracle, sdt_case. rewrite Hnew.
    rewrite (run_history_obs (fun d => Some d) (sdt_step md) sdt_new ctor ops v0 sdt_model_new).
    exact (sdt_refusals_obs ops v0 (proj1 (sdt_spec_new_props ctor v0 Hnew)) Hm Hok Hsz).
  Qed.

  Lemma sdt_c02 :
    sdt_writes_length (SL (ctor :: ops)) = true \/ N.of_nat (length v0) + ops_growth (real_ops ops) < 2 ^ 32 ->
    oracle 2 31 (SL (ctor :: ops)) (sdt_case md (SL (ctor :: ops))) = true.
  Proof.
    intros Hlen. rewrite oracle_2_31. destruct (sdt_writes_length (SL (ctor :: ops))) eqn:Ew; [reflexivity|].
    destruct Hlen as [Hlen|Hlen]; [discriminate Hlen|].
    pose proof (all_keep_length ctor ops Hok Ew) as Hk.
    apply (sdt_c04_images len_ok). intros p q E. pose proof Hok as F. rewrite E in F, Hk, Hlen.
    destruct (sdt_new_length_field_tracks_size md ctor v0 p q Hnew F Hk Hlen) as (_ & v & Hr & Hsp & Hf & _).
    exists v. split; [exact Hr|]. split; [exact Hsp|]. now apply N.eqb_eq.
  Qed.
End Case.

Theorem sdt_coherent : forall md ctor ops v0,
  sdt_case_ok ctor ops v0 ->
  let c := SL (ctor :: ops) in
  oracle 13 31 c (run_case md 31 c) = true /\ oracle 1 31 c (run_case md 31 c) = true.
Proof.
  intros md ctor ops v0 Hcase c.
  destruct (sdt_c04_c01 md ctor ops v0 Hcase) as [H4 H1].
  pose proof (sdt_refusals md ctor ops v0 Hcase) as H3.
  split; [|exact H1]. rewrite oracle_13_31.
  change (run_case md 31 c) with (sdt_case md (SL (ctor :: ops))). subst c. rewrite H4, H1, H3. reflexivity.
Qed.

(* The 2^32 of [sdt_c02] cannot be the 2^62 of C13 (Props/CoherenceSdt.v, coherence_sdt_c02_bound_needed): a slice append that
   takes the table to 4 GiB is performed, `new_length as u32` truncates, and C02's judgement rejects the image. *)
Lemma sdt_slice_case md ctor v0 b bytes :
  sdt_spec_new ctor = Some v0 -> sx_bytes b = Some bytes -> N.of_nat (length v0) + N.of_nat (length bytes) < 2 ^ 62 ->
  sdt_case_ok ctor [SL [SA 2; b]; SA 1] v0 /\
  run_case md 31 (SL [ctor; SL [SA 2; b]; SA 1]) = [EvNum 0; EvBytes (with_checksum (with_length (v0 ++ bytes)))].
Proof.
  intros Hnew Hb Hhi. assert (Hok : sdt_op_ok (SL [SA 2; b])) by (apply (ok_append_slice b bytes Hb); lia).
  split; [split; [exact Hnew|reflexivity|now repeat constructor|cbn [real_ops filter ops_growth op_growth]; rewrite Hb; lia]|].
  change (run_case md 31 (SL [ctor; SL [SA 2; b]; SA 1])) with (sdt_case md (SL [ctor; SL [SA 2; b]; SA 1])). unfold sdt_case.
  rewrite (run_history_obs (fun d => Some d) (sdt_step md) sdt_new ctor _ v0 (sdt_new_refines ctor v0 Hnew)).
  cbn [obs]. unfold sdt_step. rewrite (op_refines md v0 _ (proj1 (sdt_spec_new_props ctor v0 Hnew)) Hok).
  cbn [sdt_spec_op]. now rewrite Hb.
Qed.

Lemma c02_rejects_past_4GiB c v0 bytes : (36 <= length v0)%nat -> 2 ^ 32 <= N.of_nat (length v0) + N.of_nat (length bytes) ->
  c02_oracle c [EvNum 0; EvBytes (with_checksum (with_length (v0 ++ bytes)))] = false.
Proof.
  intros H36 Hlo. unfold c02_oracle. cbn [forallb]. rewrite andb_true_r, <- sappend_spec, length_sappend, length_field_sappend by lia. apply N.eqb_neq.
  pose proof (N.mod_upper_bound (N.of_nat (length v0 + length bytes)) (2 ^ 32)) as Hmod. lia.
Qed.

Lemma sdt_spec_new_none ctor : sdt_new ctor = None -> sdt_spec_new ctor = None.
Proof.
  intros H. destruct (sdt_spec_new ctor) as [v|] eqn:E; [|reflexivity]. rewrite (sdt_new_refines ctor v E) in H. discriminate H.
Qed.

Lemma sdt_case_refused md ctor ops : sdt_new ctor = None -> run_case md 31 (SL (ctor :: ops)) = [EvPanic].
Proof. intros Hn. change (sdt_case md (SL (ctor :: ops)) = [EvPanic]). unfold sdt_case, run_history. now rewrite Hn. Qed.

Lemma sdt_panic_accepted ctor ops : sdt_spec_new ctor = None -> ops <> [] ->
  let c := SL (ctor :: ops) in
  oracle 13 31 c [EvPanic] = true /\ oracle 1 31 c [EvPanic] = true /\ oracle 2 31 c [EvPanic] = true.
Proof.
  intros Hs Hne c. split; [|split; [reflexivity|]].
  - rewrite oracle_13_31. subst c.
    assert (H4 : c04_oracle sdt_spec (SL (ctor :: ops)) [EvPanic] = true).
    { unfold c04_oracle, case_parts. cbn [ts_image ts_returns sdt_spec]. unfold sdt_image. rewrite Hs.
      destruct ops as [|[n|k] r]; [now elim Hne| |]; reflexivity. }
    assert (H3 : sdt_oracle (SL (ctor :: ops)) [EvPanic] = true) by (unfold sdt_oracle; now rewrite Hs).
    now rewrite H4, H3.
  - rewrite oracle_2_31. now destruct (sdt_writes_length c).
Qed.

(* [ops <> []] in [sdt_panic_accepted] is needed: a constructor refused for its declared length 35, with nothing after it
   (the generators always end a case with an observation marker) *)
Definition sdt_bad_ctor : sx :=
  SL [SL [SA 68; SA 83; SA 68; SA 84]; SA 35; SA 2; SL [SA 67; SA 76; SA 79; SA 85; SA 68; SA 72];
      SL [SA 67; SA 72; SA 68; SA 83; SA 68; SA 84; SA 32; SA 32]; SA 1].

Example sdt_refused_ctor_alone :
  let c := SL [sdt_bad_ctor] in
  sdt_new sdt_bad_ctor = None /\ run_case Checked 31 c = [EvPanic] /\ run_case Wrapping 31 c = [EvPanic] /\
  oracle 13 31 c (run_case Checked 31 c) = false /\ oracle 4 31 c (run_case Checked 31 c) = false /\
  oracle 1 31 c (run_case Checked 31 c) = true /\ oracle 2 31 c (run_case Checked 31 c) = true.
Proof. vm_compute. repeat split. Qed.

(* K, as the driver computes it through Judge.project, determines the verdicts of C01 and C02 on a stream *)
Lemma sdt_oracle1_through_projection c a b : project 1 31 a = project 1 31 b -> oracle 1 31 c a = oracle 1 31 c b.
Proof.
  intros H. apply (forallb_proj _ (project_ev 1 31) g_sum2); [|exact H].
  intros [img|n|]; try reflexivity; cbv beta iota delta [g_sum2 project_ev N.eqb Pos.eqb]; now rewrite ?andb_true_r.
Qed.

Lemma sdt_oracle2_through_projection c a b : project 2 31 a = project 2 31 b -> oracle 2 31 c a = oracle 2 31 c b.
Proof.
  intros H. rewrite !oracle_2_31. destruct (sdt_writes_length c); [reflexivity|].
  apply (forallb_proj _ (project_ev 2 31) g_len); [|exact H]. intros [img|n|]; reflexivity.
Qed.

(* Sdt::new("DSDT", 40, 2, "CLOUDH", "CHDSDT  ", 1), and a history with every kind of operation, five observations and no
   write into Length *)
Definition sdt_ex_ctor : sx :=
  SL [SL [SA 68; SA 83; SA 68; SA 84]; SA 40; SA 2; SL [SA 67; SA 76; SA 79; SA 85; SA 68; SA 72];
      SL [SA 67; SA 72; SA 68; SA 83; SA 68; SA 84; SA 32; SA 32]; SA 1].

Definition sdt_ex_ops : list sx :=
  [SA 1;
   SL [SA 1; SA 1; SA 0xAB];                          (* append::<u8>                                    40 -> 41 *)
   SL [SA 1; SA 2; SA 0xBEEF];                        (* append::<u16>                                   41 -> 43 *)
   SL [SA 1; SA 4; SA 0xDEADBEEF];                    (* append::<u32>                                   43 -> 47 *)
   SL [SA 1; SA 8; SA 0x0123456789ABCDEF];            (* append::<u64>                                   47 -> 55 *)
   SA 1;
   SL [SA 2; SL [SA 9; SA 8; SA 7]];                  (* append_slice                                    55 -> 58 *)
   SL [SA 3; SA 37; SL [SA 1; SA 2]];                 (* write_bytes(37, ..): inside the body *)
   SL [SA 3; SA 8; SL [SA 7; SA 0xAA; SA 3]];         (* write_bytes(8, ..): revision, CHECKSUM, oem_id[0] *)
   SA 1;
   SL [SA 4; SA 8; SA 52; SA 5];                      (* write_u64(52, 5): 60 > 58                       refused *)
   SL [SA 3; SA (2 ^ 64 - 1); SL [SA 1; SA 2]];       (* offset + len wraps to 1 in release              refused *)
   SA 1;
   SL [SA 5; SA 2; SA 0x1234];                        (* sink.word                                       58 -> 60 *)
   SL [SA 6; SL [SA 1; SA 2; SA 3]];                  (* sink.vec                                        60 -> 63 *)
   SL [SA 6; SL []];                                  (* empty push: nothing happens *)
   SL [SA 4; SA 2; SA 9; SA 0xFFFF];                  (* write_u16(9, ..): CHECKSUM and oem_id[0] *)
   SL [SA 7];                                         (* update_checksum *)
   SA 1].

Example sdt_coherent_not_vacuous :
  let c := SL (sdt_ex_ctor :: sdt_ex_ops) in
  (exists v0, sdt_spec_new sdt_ex_ctor = Some v0 /\ markers_ok sdt_ex_ops = true /\ Forall sdt_op_ok (real_ops sdt_ex_ops) /\
              N.of_nat (length v0) + ops_growth (real_ops sdt_ex_ops) < 2 ^ 32) /\
  sdt_writes_length c = false /\
  oracle 13 31 c (run_case Wrapping 31 c) = true /\ oracle 13 31 c (run_case Checked 31 c) = true /\
  oracle 1 31 c (run_case Wrapping 31 c) = true /\ oracle 2 31 c (run_case Wrapping 31 c) = true /\
  run_case Checked 31 c = run_case Wrapping 31 c /\
  map (fun e => match e with EvBytes img => N.of_nat (length img) | EvNum n => n | EvPanic => 999 end) (run_case Wrapping 31 c)
  = [40; 0; 0; 0; 0; 55; 0; 0; 0; 58; 1; 1; 58; 0; 0; 0; 0; 0; 63].
Proof.
  split.
  - destruct (sdt_case_okb_sound sdt_ex_ctor sdt_ex_ops) as [v0 H]; [vm_compute; reflexivity|].
    exists v0. destruct H as [Hn A B _]. repeat split; try assumption. vm_compute in Hn. inversion Hn; subst v0.
    vm_compute. reflexivity.
  - vm_compute. repeat split.
Qed.

(* write_u32(4, 1000): the caller overwrites Length, and Judge.v does not judge C02 on such a history *)
Example sdt_writes_length_not_vacuous :
  let c := SL [sdt_ex_ctor; SA 1; SL [SA 4; SA 4; SA 4; SA 1000]; SA 1] in
  (let ops := [SA 1; SL [SA 4; SA 4; SA 4; SA 1000]; SA 1] in
   exists v0, sdt_spec_new sdt_ex_ctor = Some v0 /\ markers_ok ops = true /\ Forall sdt_op_ok (real_ops ops) /\
              N.of_nat (length v0) + ops_growth (real_ops ops) < 2 ^ 62) /\
  sdt_writes_length c = true /\ c02_oracle c (run_case Wrapping 31 c) = false /\
  oracle 2 31 c (run_case Wrapping 31 c) = true /\ oracle 13 31 c (run_case Wrapping 31 c) = true.
Proof.
  split; [|vm_compute; repeat split].
  destruct (sdt_case_okb_sound sdt_ex_ctor [SA 1; SL [SA 4; SA 4; SA 4; SA 1000]; SA 1]) as [v0 [Hn A B C]]; [vm_compute; reflexivity|].
  exists v0. auto.
Qed.

Example sdt_coherence_applies : forall md,
  let c := SL (sdt_ex_ctor :: sdt_ex_ops) in
  oracle 13 31 c (run_case md 31 c) = true /\ oracle 1 31 c (run_case md 31 c) = true /\ oracle 2 31 c (run_case md 31 c) = true.
Proof.
  intros md c. destruct sdt_coherent_not_vacuous as [(v0 & Hn & Hm & Hok & Hsz) _].
  assert (Hsz62 : N.of_nat (length v0) + ops_growth (real_ops sdt_ex_ops) < 2 ^ 62) by lia.
  pose proof (Build_sdt_case_ok sdt_ex_ctor sdt_ex_ops v0 Hn Hm Hok Hsz62) as Hcase.
  destruct (sdt_coherent md sdt_ex_ctor sdt_ex_ops v0 Hcase) as [H13 H1].
  split; [exact H13|]. split; [exact H1|]. apply (sdt_c02 md sdt_ex_ctor sdt_ex_ops v0 Hcase). now right.
Qed.
