(* SRAT: every structure an accepted add_* pushes describes itself (type u8, length u8) -- the walk instance for C03.
   The three structure sizes are the constants 40 / 32 / 20; there is no caller-controlled count or length inside a
   structure (nothing to refuse), and the table has no entry-count field.  The one-byte length field of every structure holds
   the structure's true size (`srat_structure_length_exact`; Props/C18 has no SRAT theorem). *)
From Coq Require Import NArith List Lia.
From ACPI Require Import Impl.Table Impl.Fields Impl.Srat Spec.Layout Proofs.TableP Proofs.MadtP Proofs.Tables
  Proofs.FixedP Proofs.SratP Proofs.WalkP Proofs.WalkW3Common Proofs.BaseP.
Import ListNotations.
Open Scope N_scope.

Lemma memaff_self m : exists ty, self_describing H_u8_u8 (memaff_bytes m) ty.
Proof. eexists. apply (spine_self H_u8_u8 1 0 1 1 [] 40); reflexivity. Qed.

Lemma geninit_self g : length (handle_bytes (gi_handle g)) = 16%nat -> exists ty, self_describing H_u8_u8 (geninit_bytes g) ty.
Proof.
  intros Hh. eexists. apply (spine_self H_u8_u8 1 0 1 5 [] 32); try reflexivity.
  change (32 = N.of_nat (length (geninit_bytes g))). now rewrite (geninit_bytes_length g Hh).
Qed.

Lemma rintc_self u clock bs f : length u = 4%nat -> apply_builders rintc_aff_builder (rintc_aff_new u clock) bs = Some f ->
  exists ty, self_describing H_u8_u8 (ser_flds f) ty.
Proof.
  intros Hu Hf. apply good_entry_self.
  apply (apply_builders_inv rintc_aff_builder (fun f => head2 f = Some (7, 20) /\ flds_len f = 20%nat)) in Hf.
  - destruct Hf as [Hh Hl]. eapply good_entry_intro; [exact Hh|reflexivity|reflexivity|rewrite Hl; reflexivity|rewrite Hl; lia].
  - intros x o x' [Hh Hl] Hb. destruct (rintc_aff_builder_inv _ _ _ Hb) as [-> ->]. auto.
  - split; [reflexivity|now apply rintc_aff_new_len].
Qed.

Lemma srat_addition_self s o e : srat_addition s o = Some e -> exists ty, self_describing H_u8_u8 (a_bytes e) ty.
Proof.
  intros H. unfold srat_addition in H. split_matches H; apply Some_inj in H; subst e; cbn [a_bytes].
  - (* RINTC affinity *)
    eapply rintc_self; [eapply sx_arr_length|]; eassumption.
  - (* generic initiator: the builders leave the handle alone *)
    apply geninit_self.
    match goal with Eh : sx_handle _ = Some ?hd, Eg : apply_builders geninit_builder _ _ = Some _ |- _ =>
      apply (apply_builders_inv geninit_builder (fun g => gi_handle g = hd)) in Eg;
        [rewrite Eg; exact (sx_handle_length _ _ Eh)| |reflexivity] end.
    intros x o x' Hx Hb. now rewrite (geninit_builder_handle _ _ _ Hb).
  - (* memory affinity *)
    apply memaff_self.
Qed.

Lemma srat_new_empty c s0 : srat_new c = Some s0 -> t_ents s0 = [].
Proof. exact (plain_new_empty KSrat _ _ c s0). Qed.

Definition srat_walk : walktable :=
  {| wt_table := srat_table; wt_ehdr := H_u8_u8; wt_self := srat_addition_self; wt_new_empty := srat_new_empty |}.

(* the one-byte length field of every structure is the number of bytes the structure occupies *)
Lemma srat_structure_length_exact s o e :
  srat_addition s o = Some e -> field_at (a_bytes e) 1 1 = N.of_nat (length (a_bytes e)).
Proof. exact (walktable_entry_len_field srat_walk 1 0 1 s o e eq_refl). Qed.

Corollary srat_history_structure_lengths md c ops s0 s :
  srat_new c = Some s0 -> run_adds srat_addition md s0 ops = Some s -> N.of_nat (length (tbl_image s)) < 2 ^ 32 ->
  Forall (fun e => field_at e 1 1 = N.of_nat (length e)) (t_ents s).
Proof. exact (walktable_history_len_fields srat_walk 1 0 1 md c ops s0 s eq_refl). Qed.

Print Assumptions srat_walk.
Print Assumptions srat_structure_length_exact.
Print Assumptions srat_history_structure_lengths.
