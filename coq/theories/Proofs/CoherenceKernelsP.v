(* Coherence of the Spec-layer oracles with the Impl model, for the pure kernels (components 1..6):
   on every case of the stated domain the oracle accepts the model's own output,
       oracle prop comp c (run_case md comp c) = true.
   Consequences: (i) on a case where the crate agrees with the model (K) the oracle cannot raise an alarm by itself;
   (ii) the executable judgements agree with the property theorems on all inputs, not only on the sampled ones.
   Every proof below goes through the lemmas behind Props/C07 C08 C09 C16 C17; nothing is reproved.
   The driver reaches each kernel as [oracle p comp] / [run_case md comp] with (p, comp) = (17, 1) checksum, (7, 2) and (18, 2)
   PkgLength, (8, 3) integers, (9, 4) and (18, 4) paths, (16, 5) EISA ids, (16, 6) UUIDs; these reduce to the functions named below. *)
From Coq Require Import ZArith List Lia Bool.
From ACPI Require Import Lib.Bytes Lib.Sx Impl.Checksum Spec.ChecksumS Impl.AmlCore Spec.AmlCoreS Proofs.BaseP.
From ACPI Require Import Proofs.ChecksumP Proofs.PkgLenP Proofs.PathP Proofs.EisaUuidP.
From ACPI Require Import Judge.
Import ListNotations.
Open Scope N_scope.

Definition ck_op_ok (o : sx) : bool := match ckop_of_sx o with Some _ => true | None => false end.
Definition ck_wf (c : sx) : bool := match c with SL ops => forallb ck_op_ok ops | SA _ => false end.

Lemma ck_delta_op o op : ckop_of_sx o = Some op -> ck_delta o = Some (op_added op - op_removed op)%Z.
Proof.
  intros H. unfold ckop_of_sx in H.
  (* by the shape of the operation: those with numeric operands are settled at once, those with a byte-list operand once the
     list is read *)
  break_sx H;
    try (inversion H; subst; clear H; cbn [ck_delta op_added op_removed]; rewrite ?zsumS_zsum; f_equal; lia).
  all: match type of H with option_map _ (sx_bytes ?l) = _ => destruct (sx_bytes l) as [bs|] eqn:Eb; [|discriminate H] end;
    cbn [option_map] in H; inversion H; subst; clear H;
    cbn [ck_delta]; rewrite Eb; cbn [option_map op_added op_removed]; rewrite ?zsumS_zsum; f_equal; lia.
Qed.

Lemma coh_ck_go ops : forall s acc,
  s < 256 -> Z.of_N s = (acc mod 256)%Z -> forallb ck_op_ok ops = true ->
  ck_oracle_go acc ops (ck_trace s ops) = true.
Proof.
  induction ops as [|o ops IH]; intros s acc Hs Hacc Hwf; [reflexivity|].
  cbn [forallb] in Hwf. apply andb_true_iff in Hwf. destruct Hwf as [Ho Hwf].
  unfold ck_op_ok in Ho. destruct (ckop_of_sx o) as [op|] eqn:Eo; [clear Ho|discriminate Ho].
  cbn [ck_trace]. rewrite Eo. cbn [ck_oracle_go]. rewrite (ck_delta_op o op Eo).
  pose proof (ck_step_lt s op Hs) as Hs'.
  pose proof (ck_step_Z s op) as HZ.
  destruct (ck_value_spec (ck_step s op) Hs') as [Hv1 Hv2].
  unfold ck_raw in *.
  assert (Hraw : Z.of_N (ck_step s op) = ((acc + (op_added op - op_removed op)) mod 256)%Z).
  { rewrite Hacc in HZ. rewrite <- Z.add_sub_assoc in HZ. rewrite Zplus_mod_idemp_l in HZ.
    rewrite Z.mod_small in HZ by lia. exact HZ. }
  assert (Hsum : ((Z.of_N (ck_step s op) + Z.of_N (ck_value (ck_step s op))) mod 256 = 0)%Z) by lia.
  repeat (apply andb_true_iff; split).
  - apply Z.eqb_eq. exact Hraw.
  - apply Z.eqb_eq. exact Hsum.
  - apply N.ltb_lt. exact Hv2.
  - apply IH; [exact Hs'|exact Hraw|exact Hwf].
Qed.

Lemma coh_ck_kernel c : ck_wf c = true -> ck_oracle c (ck_case c) = true.
Proof.
  destruct c as [n|ops]; cbn [ck_wf]; intros H; [discriminate H|].
  cbn [ck_oracle ck_case]. apply coh_ck_go; [lia|reflexivity|exact H].
Qed.

(* outside the grammar the model reports a panic and the oracle does not accept it: the domain is the largest one *)
Lemma coh_ck_sharp c : ck_oracle c (ck_case c) = true -> ck_wf c = true.
Proof.
  destruct c as [n|ops]; cbn [ck_oracle ck_case ck_wf]; intros H; [discriminate H|].
  revert H. generalize 0%N. generalize 0%Z.
  induction ops as [|o ops IH]; intros acc s H; [reflexivity|].
  cbn [forallb]. cbn [ck_trace] in H. unfold ck_op_ok at 1.
  destruct (ckop_of_sx o) as [op|]; [|cbn [ck_oracle_go] in H; discriminate H].
  cbn [ck_oracle_go] in H. destruct (ck_delta o); [|discriminate H].
  apply andb_true_iff in H. destruct H as [_ H]. cbn [andb]. exact (IH _ _ H).
Qed.


(* In the overflow-checking profile every n; in the wrapping profile the sum len + length_length must not leave usize
   (otherwise the MODEL, like the code, wraps the sum and emits bytes for a small total: see coh_pkglen_wrap_sharp) *)
Definition pkg_dom (md : mode) (n : N) (incl : bool) : bool :=
  match md with Checked => true | Wrapping => n + (if incl then 4 else 0) <? 2 ^ 64 end.

Lemma pkg_len_eval md n incl :
  pkg_dom md n incl = true ->
  pkg_len md n incl =
  (if n + (if incl then pkg_ll n else 0) <? 2 ^ 28
   then Some (pkg_bytes (pkg_ll n) (n + (if incl then pkg_ll n else 0))) else None).
Proof. intros Hd. apply pkg_len_total. intros ->. now apply N.ltb_lt. Qed.

Lemma lead_ok_bool e : lead_ok e -> pkg_lead_format_ok e = true.
Proof.
  destruct e as [|b0 [|b1 r]]; cbn [lead_ok pkg_lead_format_ok]; intros H.
  - destruct H.
  - now apply N.ltb_lt.
  - destruct H as (H1 & H2 & H3). rewrite H1, H2, !N.eqb_refl. cbn [andb]. now apply Nat.leb_le.
Qed.

Lemma pkg_minimal_bool n e :
  (forall w, (1 <= w < length e)%nat -> pkg_cap w < n + N.of_nat w) -> pkg_minimal n e = true.
Proof.
  intros H. unfold pkg_minimal. apply forallb_forall. intros w Hin.
  destruct (Nat.ltb_spec w (length e)) as [Hw|Hw]; [|reflexivity].
  apply N.ltb_lt. apply H. cbn [In] in Hin. destruct Hin as [<-|[<-|[<-|[]]]]; lia.
Qed.

Lemma pkg_representable_spec n incl :
  pkg_representable n incl = (n + (if incl then pkg_ll n else 0) <? 2 ^ 28).
Proof.
  unfold pkg_representable. cbn [pkg_cap].
  change (2 ^ 12 - 1) with 4095. change (2 ^ 20 - 1) with 1048575. change (2 ^ 28 - 1) with 268435455.
  change (2 ^ 28) with 268435456.
  apply Bool.eq_true_iff_eq. destruct incl.
  - rewrite !orb_true_iff, !N.leb_le, N.ltb_lt. destruct (pkg_ll_cases n) as [[Hr ->]|[[Hr ->]|[[Hr ->]|[Hr ->]]]]; lia.
  - rewrite N.leb_le, N.ltb_lt. lia.
Qed.

Lemma coh_pkglen_kernel md n i :
  pkg_dom md n (negb (i =? 0)) = true ->
  pkglen_oracle (SL [SA n; SA i]) (pkglen_case md (SL [SA n; SA i])) = true.
Proof.
  intros Hd. cbn [pkglen_oracle pkglen_case]. cbv zeta.
  set (incl := negb (i =? 0)) in *.
  pose proof (pkg_len_eval md n incl Hd) as Hev.
  destruct (N.ltb_spec (n + (if incl then pkg_ll n else 0)) (2 ^ 28)) as [Hlt|Hge].
  - (* accepted *)
    assert (Hn : n < 2 ^ 63) by lia.
    rewrite Hev. cbn [ev_opt]. rewrite pkg_bytes_bytes. cbn [andb].
    destruct (pkg_len_correct md n incl _ Hn Hev) as (Hdec & Hlead & Hlen).
    rewrite Hdec. cbn [opt_eqb_Nl]. rewrite Hlen, N.eqb_refl, list_N_eqb_refl, (lead_ok_bool _ Hlead). cbn [andb].
    destruct incl; [|reflexivity]. apply pkg_minimal_bool.
    destruct (pkg_ll_least n) as (k & _ & E & Hmin & _). intros w Hw. apply Hmin. lia.
  - (* refused *)
    rewrite Hev. cbn [ev_opt]. rewrite pkg_representable_spec.
    apply N.ltb_ge in Hge. rewrite Hge. reflexivity.
Qed.

Lemma coh_pkglen18_kernel md n i :
  pkg_dom md n (negb (i =? 0)) = true ->
  pkglen_oracle18 (SL [SA n; SA i]) (pkglen_case md (SL [SA n; SA i])) = true.
Proof.
  intros Hd. cbn [pkglen_oracle18 pkglen_case]. cbv zeta.
  set (incl := negb (i =? 0)) in *.
  rewrite pkg_representable_spec. rewrite (pkg_len_eval md n incl Hd).
  destruct (n + (if incl then pkg_ll n else 0) <? 2 ^ 28); reflexivity.
Qed.

(* the sizes C07 covers: both forms, both profiles *)
Lemma coh_pkglen_c07_sizes md n i :
  (if i =? 0 then n < 2 ^ 28 else n + 4 < 2 ^ 28) ->
  oracle 7 2 (SL [SA n; SA i]) (run_case md 2 (SL [SA n; SA i])) = true.
Proof.
  intros H. apply coh_pkglen_kernel. destruct md; [reflexivity|]. cbn [pkg_dom]. apply N.ltb_lt.
  change (2 ^ 28) with 268435456 in H. change (2 ^ 64) with 18446744073709551616.
  destruct (i =? 0); cbn [negb]; lia.
Qed.

(* the domain is sharp on usize: for a usize n outside pkg_dom (wrapping profile, inclusive form, n + 4 >= 2^64) the
   model emits bytes for the wrapped total and BOTH oracles reject them *)
Lemma coh_pkglen_wrap_sharp n i :
  n < 2 ^ 64 -> pkg_dom Wrapping n (negb (i =? 0)) = false ->
  oracle 7 2 (SL [SA n; SA i]) (run_case Wrapping 2 (SL [SA n; SA i])) = false /\
  oracle 18 2 (SL [SA n; SA i]) (run_case Wrapping 2 (SL [SA n; SA i])) = false.
Proof.
  intros Hn Hd. cbn [pkg_dom] in Hd. apply N.ltb_ge in Hd.
  change (2 ^ 64) with 18446744073709551616 in *.
  change (oracle 7 2 (SL [SA n; SA i]) (run_case Wrapping 2 (SL [SA n; SA i])))
    with (pkglen_oracle (SL [SA n; SA i]) (pkglen_case Wrapping (SL [SA n; SA i]))).
  change (oracle 18 2 (SL [SA n; SA i]) (run_case Wrapping 2 (SL [SA n; SA i])))
    with (pkglen_oracle18 (SL [SA n; SA i]) (pkglen_case Wrapping (SL [SA n; SA i]))).
  cbn [pkglen_oracle pkglen_oracle18 pkglen_case]. cbv zeta.
  destruct (negb (i =? 0)); [|lia].
  assert (n = 18446744073709551612 \/ n = 18446744073709551613 \/ n = 18446744073709551614 \/ n = 18446744073709551615)
    as [->|[->|[->| ->]]] by lia; vm_compute; split; reflexivity.
Qed.


(* the carrier of a type tag: 8 / 16 / 32 / 64 and 0 = usize (64-bit target) *)
Definition int_carrier (ty : N) : option N :=
  if ty =? 8 then Some (2 ^ 8) else if ty =? 16 then Some (2 ^ 16) else if ty =? 32 then Some (2 ^ 32)
  else if ty =? 64 then Some (2 ^ 64) else if ty =? 0 then Some (2 ^ 64) else None.

Definition int_dom (ty n : N) : bool := match int_carrier ty with Some m => n <? m | None => false end.

Lemma int_oracle_spec_int ty n e : n < 2 ^ 64 -> e = spec_int n -> int_oracle (SL [SA ty; SA n]) [EvBytes e] = true.
Proof.
  intros Hn ->. cbn [int_oracle]. rewrite list_N_eqb_refl. cbn [andb].
  pose proof (int_decode_spec_int n [] Hn) as Hd. rewrite app_nil_r in Hd. rewrite Hd.
  cbn [opt_eqb_Nl list_N_eqb]. now rewrite N.eqb_refl.
Qed.

Lemma coh_int_kernel ty n :
  int_dom ty n = true -> int_oracle (SL [SA ty; SA n]) (int_case (SL [SA ty; SA n])) = true.
Proof.
  unfold int_dom, int_carrier. intros H. cbn [int_case].
  (* one carrier at a time: the model's encoder of that carrier is the specification's form, which the oracle decodes *)
  destruct (N.eqb_spec ty 8) as [->|_].
  { apply N.ltb_lt in H. apply int_oracle_spec_int; [eapply N.lt_trans; [exact H|reflexivity]|now apply enc_u8_spec]. }
  destruct (N.eqb_spec ty 16) as [->|_].
  { apply N.ltb_lt in H. apply int_oracle_spec_int; [eapply N.lt_trans; [exact H|reflexivity]|now apply enc_u16_spec]. }
  destruct (N.eqb_spec ty 32) as [->|_].
  { apply N.ltb_lt in H. apply int_oracle_spec_int; [eapply N.lt_trans; [exact H|reflexivity]|now apply enc_u32_spec]. }
  destruct (N.eqb_spec ty 64) as [->|_].
  { apply N.ltb_lt in H. apply int_oracle_spec_int; [exact H|apply enc_u64_spec]. }
  destruct (N.eqb_spec ty 0) as [->|_]; [|discriminate H].
  apply N.ltb_lt in H. apply int_oracle_spec_int; [exact H|now apply enc_usize_spec].
Qed.

Lemma coh_path_kernel c s : sx_bytes c = Some s -> path_oracle c (path_case c) = true.
Proof.
  intros Hs. unfold path_oracle, path_case. rewrite Hs. cbv zeta.
  rewrite spec_split_is_split_dot. unfold path_new.
  set (root := match s with ch :: _ => ch =? 0x5C | [] => false end).
  set (parts := split_dot [] (if root then tl s else s)).
  destruct (forallb (fun p => Nat.eqb (length p) 4) parts) eqn:H4; cbn [negb option_bind ev_opt]; [|reflexivity].
  set (p := {| p_root := root; p_parts := parts |}).
  destruct (Nat.ltb_spec 255 (length parts)) as [Hbig|Hfit].
  - rewrite (path_enc_refuse p) by (right; exact Hbig). reflexivity.
  - destruct (forallb is_nameseg parts) eqn:Hseg; [|reflexivity].
    assert (Hwf : wf_parts (p_parts p)).
    { unfold wf_parts. apply Forall_forall. intros x Hx. rewrite forallb_forall in Hseg. now apply Hseg. }
    assert (Hlen : (1 <= length (p_parts p) <= 255)%nat).
    { cbn [p p_parts]. split; [|exact Hfit]. subst parts.
      destruct (split_dot [] (if root then tl s else s)) eqn:E; [now apply split_dot_nonempty in E|cbn [length]; lia]. }
    rewrite (path_enc_accept p Hlen). cbn [ev_opt]. rewrite (name_decode_form _ _ [0xAA] Hwf Hlen).
    rewrite !list_N_eqb_refl, Bool.eqb_reflx, Nat.eqb_refl. reflexivity.
Qed.


Lemma not_hex_any_digit h : is_hex_any h = false -> hex_digit h = None.
Proof.
  unfold is_hex_any, hex_digit. intros H.
  apply orb_false_iff in H. destruct H as [H H3]. apply orb_false_iff in H. destruct H as [H1 H2].
  now rewrite H1, H2, H3.
Qed.

Lemma coh_eisa_kernel c s : sx_bytes c = Some s -> eisa_oracle c (eisa_case c) = true.
Proof.
  intros Hs. unfold eisa_oracle, eisa_case. rewrite Hs.
  destruct (valid_eisa s) eqn:Hv.
  - (* valid: emitted, and the value decompresses back *)
    destruct (eisa_roundtrip s Hv) as (v & E & Hlt & D).
    rewrite (eisa_emitted s v E). cbn [ev_opt].
    rewrite enc_u32_spec by exact Hlt.
    assert (H64 : v < 2 ^ 64) by (eapply N.lt_trans; [exact Hlt|reflexivity]).
    pose proof (int_decode_spec_int v [] H64) as Hd. rewrite app_nil_r in Hd. rewrite Hd.
    rewrite D, list_N_eqb_refl. apply N.ltb_lt in Hlt. now rewrite Hlt.
  - destruct (negb (Nat.eqb (length s) 7) || negb (forallb is_hex_any (skipn 3 s))) eqn:Hbad; [|reflexivity].
    (* wrong length or a non-hex character among the last four: refused *)
    assert (Hnone : eisa_value s = None).
    { apply orb_true_iff in Hbad. destruct Hbad as [Hl|Hh].
      - apply eisa_refuse_length. apply negb_true_iff in Hl. now apply Nat.eqb_neq in Hl.
      - destruct s as [|c0 [|c1 [|c2 [|h3 [|h4 [|h5 [|h6 [|x s]]]]]]]]; try reflexivity.
        apply eisa_refuse_digit. apply negb_true_iff in Hh. cbn [skipn forallb] in Hh.
        rewrite andb_true_r in Hh.
        apply andb_false_iff in Hh. destruct Hh as [Hh|Hh]; [left; now apply not_hex_any_digit|right].
        apply andb_false_iff in Hh. destruct Hh as [Hh|Hh]; [left; now apply not_hex_any_digit|right].
        apply andb_false_iff in Hh. destruct Hh as [Hh|Hh]; [left|right]; now apply not_hex_any_digit. }
    unfold eisa_enc. rewrite Hnone. reflexivity.
Qed.


Lemma forallb_false_ex {A} (f : A -> bool) l : forallb f l = false -> exists x, In x l /\ f x = false.
Proof.
  induction l as [|a l IH]; cbn [forallb]; intros H; [discriminate H|].
  apply andb_false_iff in H. destruct H as [H|H].
  - exists a. split; [now left|exact H].
  - destruct (IH H) as (x & Hin & Hx). exists x. split; [now right|exact Hx].
Qed.

(* the sixteen pairs read every position of the 36 that is not a separator *)
Lemma uuid_order_covers i :
  In i (seq 0 36) -> existsb (Nat.eqb i) [8; 13; 18; 23]%nat = false ->
  exists a b, In (a, b) uuid_order /\ (i = a \/ i = b).
Proof.
  intros Hin Hsep.
  assert (Hall : forallb (fun i => existsb (Nat.eqb i) [8; 13; 18; 23]%nat ||
                                   existsb (fun '(a, b) => Nat.eqb a i || Nat.eqb b i) uuid_order) (seq 0 36) = true) by reflexivity.
  rewrite forallb_forall in Hall. specialize (Hall i Hin). rewrite Hsep in Hall.
  apply existsb_exists in Hall. destruct Hall as ([a b] & Hab & H). exists a, b. split; [exact Hab|].
  apply orb_true_iff in H. destruct H as [H|H]; apply Nat.eqb_eq in H; auto.
Qed.

Lemma uuid_not_canonical_refused s : canonical_uuid s = false -> uuid_bytes s = None.
Proof.
  unfold canonical_uuid. intros H. apply andb_false_iff in H. destruct H as [H|H].
  - apply uuid_refuse_length. now apply Nat.eqb_neq.
  - apply forallb_false_ex in H. destruct H as (i & Hin & Hi).
    destruct (existsb (Nat.eqb i) [8; 13; 18; 23]%nat) eqn:Hsep.
    + apply (uuid_refuse_dash s i); [|now apply N.eqb_neq].
      apply existsb_exists in Hsep. destruct Hsep as (j & Hj & Ej). apply Nat.eqb_eq in Ej. now subst.
    + destruct (uuid_order_covers i Hin Hsep) as (a & b & Hab & Hor).
      apply (uuid_refuse_digit s a b Hab). apply not_hex_any_digit in Hi.
      destruct Hor as [<-|<-]; [left|right]; exact Hi.
Qed.

Lemma coh_uuid_kernel md c s : sx_bytes c = Some s -> uuid_oracle c (uuid_case md c) = true.
Proof.
  intros Hs. unfold uuid_oracle, uuid_case. rewrite Hs.
  destruct (canonical_uuid s) eqn:Hc.
  - destruct (uuid_roundtrip s Hc) as (b & E & L & S).
    destruct (buffer16 md b [] L) as [B1 B2]. rewrite app_nil_r in B2.
    unfold uuid_enc. rewrite E. cbn [option_bind]. rewrite B1. cbn [ev_opt]. rewrite B2.
    rewrite L, S, list_N_eqb_refl. reflexivity.
  - unfold uuid_enc. rewrite (uuid_not_canonical_refused s Hc). reflexivity.
Qed.
