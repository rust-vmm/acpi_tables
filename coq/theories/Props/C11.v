(* C11 -- option builders set exactly their own specification bit, independently.
   Generic laws over field lists (the representation of the packed structures; memory affinity, generic initiator,
   processor node and system locality are records with hand-written serialisers instead), then one instance per structure,
   each derived here from the general laws of Proofs/C11CommonP.v and from what one builder call of the structure writes
   (the step lemmas of Proofs/C11<Table>P.v, one file per table).  Which builder ORs which bit into which field is in the
   Impl files and is compared with the crate and with the reference layouts by the correspondence run. *)
From Coq Require Import NArith List Lia Arith.
From ACPI Require Import Proofs.TableP Proofs.MadtP Proofs.SratP Proofs.RimtP Proofs.BaseP Proofs.BitsP.
From ACPI Require Import Lib.Bytes Lib.Sx Lib.Machine Impl.Fields Impl.Table Impl.Fadt Impl.Cedt Impl.Madt Impl.Srat Impl.Pptt Impl.Tpm2
  Impl.Hmat Impl.Hest Impl.Rimt Spec.Layout Spec.FadtS Spec.CedtS Spec.OptionsS Proofs.FixedP Proofs.FadtP Proofs.FadtRefP Proofs.CedtRefP
  Proofs.C11CommonP Proofs.C11MadtP Proofs.C11SratP Proofs.C11PpttP Proofs.C11Tpm2P Proofs.C11HmatP Proofs.C11HestP Proofs.C11RimtP Proofs.RimtStructP Proofs.HmatStructP Proofs.PpttStructP.
From ACPI Require Import Proofs.CedtP Proofs.CedtStructP.
Import ListNotations.
Open Scope N_scope.

(* OR-ing any sequence of option bits into a flag field: the field becomes the union of the bits, every other field of the
   structure keeps its value (frame) *)
Theorem c11_union_and_frame :
  forall f i bits, (i < length f)%nat ->
    fget (fold_left (fun g b => f_or g i b) bits f) i = N.lor (fget f i) (big_or bits) /\
    forall j, j <> i -> fget (fold_left (fun g b => f_or g i b) bits f) j = fget f j.
Proof. exact fold_f_or. Qed.

(* the union depends only on WHICH options were invoked: any order, any number of repetitions *)
Theorem c11_order_and_repetition_irrelevant :
  forall l1 l2, (forall x, In x l1 <-> In x l2) -> big_or l1 = big_or l2.
Proof. exact big_or_same_set. Qed.

(* a bit is set iff an invoked option carries it (options with distinct bits remain distinguishable in the output) *)
Theorem c11_bit_set_iff_invoked :
  forall l k, N.testbit (big_or l) k = true <-> exists x, In x l /\ N.testbit x k = true.
Proof. exact big_or_bit. Qed.

(* a value setter changes its own field only *)
Theorem c11_setter_frame :
  forall f i j v, i <> j -> fget (fset f i v) j = fget f j.
Proof. exact fget_fset_other. Qed.

(* the emitted bytes are a function of the field values alone *)
Theorem c11_image_from_fields :
  forall f g, map fst f = map fst g -> (forall j, fget f j = fget g j) -> ser_flds f = ser_flds g.
Proof. exact ser_flds_ext. Qed.

(* Instance, FADT: for every constructor argument and every sequence of builder calls and direct assignments of the public
   fields inside the reference's domain (any order, any repetition, interleaved freely), in both build profiles, the Flags dword
   at offset 112 of the emitted table is exactly: the value of the LAST direct assignment `b.flags = v` of the history (op
   (10 35 v) of Spec/FadtS.v; 0 when the history contains none) united with the specification bits (flag_ref, Spec/FadtS.v) of
   the flags requested by the flag() calls made AFTER that assignment.  (base, post) = flags_cut ops (Proofs/FadtP.v): base =
   Some v for the last assignment, post = the operations after it (all of them when there is none).  That nothing else of the
   image moves is c04_fixed_structures_refine (the image equals the reference image). *)
Theorem c11_fadt_flags :
  forall md ctor ops r,
    ts_image fadt_spec ctor ops = Some r -> fadt_ctor_bytes ctor ->
    exists f0 f, fadt_new ctor = Some f0 /\ run_steps (fadt_step md) f0 ops = Some f /\
                 field_at (fadt_image f) 112 4 =
                 fold_left N.lor (concat (map spec_flag_call (snd (flags_cut ops))))
                           (match fst (flags_cut ops) with Some v => v | None => 0 end) mod 2 ^ 32.
Proof. exact fadt_refines_flags. Qed.

(* the two readings of (base, post): a history without direct assignment of `flags`: the union of the bits of all the flags
   requested; a history whose last direct assignment is `flags = v`, followed by [post]: v united with the bits requested in post *)
Theorem c11_fadt_flags_no_assign :
  forall md ctor ops r,
    ts_image fadt_spec ctor ops = Some r -> fadt_ctor_bytes ctor -> no_flags_assignment ops ->
    exists f0 f, fadt_new ctor = Some f0 /\ run_steps (fadt_step md) f0 ops = Some f /\
                 field_at (fadt_image f) 112 4 = fold_left N.lor (concat (map spec_flag_call ops)) 0 mod 2 ^ 32.
Proof. exact fadt_refines_flags_no_assign. Qed.

Theorem c11_fadt_flags_after_assign :
  forall md ctor pre v post r,
    ts_image fadt_spec ctor (pre ++ SL [SA 10; SA 35; SA v] :: post) = Some r -> fadt_ctor_bytes ctor ->
    no_flags_assignment post ->
    exists f0 f, fadt_new ctor = Some f0 /\ run_steps (fadt_step md) f0 (pre ++ SL [SA 10; SA 35; SA v] :: post) = Some f /\
                 field_at (fadt_image f) 112 4 = fold_left N.lor (concat (map spec_flag_call post)) v mod 2 ^ 32.
Proof. exact fadt_refines_flags_after_assign. Qed.

(* Instance, CEDT fixed memory window: whenever the reference accepts the structure, the model emits it byte for byte, and its
   window-restrictions word (offset 32) is the sum of the distinct bits 1 2 4 8 16 of exactly the restriction options invoked
   (cedt_invoked k: option k occurs in the builder list), whatever their order and repetition *)
Theorem c11_cedt_window_restrictions :
  forall s base size arith gran ways qtg builders targets r,
    let o := SL [SA 2; SA base; SA size; SA arith; SA gran; SA ways; SA qtg; SL builders; SL targets] in
    cedt_entry_ref o = Some r ->
    exists e, cedt_addition s o = Some e /\ a_bytes e = r /\ field_at (a_bytes e) 32 2 = cedt_restrictions builders.
Proof.
  intros s base size arith gran ways qtg builders targets r o H. subst o. destruct (cedt_ref_struct s _ r H) as (d & Hop & Hd & <-).
  exists (cedt_rec_addition s d). split; [exact Hd|]. split; [reflexivity|]. cbn [cedt_rec_addition a_bytes].
  destruct (cedt_op_cfmws _ _ _ _ _ _ _ _ _ _ Hop) as (nw & restr & tg & _ & Er & _ & ->). cbn [cedt_spec_dec cedt_d_restr] in Er.
  destruct (cedt_builders_ok builders); [|discriminate Er]. apply Some_inj in Er. subst restr.
  apply (cedt_rec_field_below (RCfmws base size ways arith gran (cedt_restrictions builders) qtg nw tg) 32 2 _ 65536 eq_refl eq_refl).
  pose proof (cedt_restrictions_small builders). lia.
Qed.


(* Explicit per-structure instances.  Each is about the BYTES the Impl model emits (`a_bytes` of the
   addition / the table image), read with `field_at` at the SPECIFICATION offset and width (Spec/OptionsS.v, transcribed
   from SPEC_NOTES.md), for EVERY sequence of builder calls the model accepts: any order, any repetition, interleaved with
   the value setters.  `big_or (map bit calls)` is the union of the specification bits of the calls made; by
   c11_calls_order_irrelevant it depends only on WHICH calls were made.  `in_ranges k rs`: byte position k lies in one of the
   byte ranges rs.  Each instance is followed by a non-vacuity Example (a concrete accepted call sequence, evaluated). *)

Theorem c11_calls_order_irrelevant :
  forall (bit : sx -> N) l1 l2, (forall x, In x l1 <-> In x l2) -> big_or (map bit l1) = big_or (map bit l2).
Proof.
  intros bit l1 l2 H. apply big_or_same_set. intros x. rewrite !in_map_iff.
  split; intros (o & Ho & Hi); exists o; (split; [exact Ho|]); now apply H.
Qed.

(* the generic law behind the field-list instances, on bytes *)
Theorem c11_flag_bytes :
  forall (st : flds -> sx -> option flds) (WS : list nat) (i : nat) (Inv : flds -> Prop) (bit : sx -> N) (ranges : sx -> list (nat * nat)),
    (i < length WS)%nat -> (forall o, bit o < 2 ^ (8 * N.of_nat (fwid WS i))) ->
    (forall f o f', widths f = WS -> Inv f -> st f o = Some f' ->
        widths f' = WS /\ Inv f' /\ fget f' i = N.lor (fget f i) (bit o) /\
        forall j, j <> i -> ~ In (fld_range WS j) (ranges o) -> fget f' j = fget f j) ->
    forall ops f f', widths f = WS -> Inv f -> fget f i < 2 ^ (8 * N.of_nat (fwid WS i)) -> fold_opt st f ops = Some f' ->
      length (ser_flds f') = wsum WS /\
      field_at (ser_flds f') (foff WS i) (fwid WS i) = N.lor (fget f i) (big_or (map bit ops)) /\
      forall k, ~ in_ranges k (fld_range WS i :: concat (map ranges ops)) -> nth k (ser_flds f') 0 = nth k (ser_flds f) 0.
Proof.
  intros st WS i Inv bit ranges Hi bit_small step ops f f' Hw HI Hs H.
  destruct (flag_image st WS i Inv bit (fun o j => ~ In (fld_range WS j) (ranges o)) step ops f f' Hw HI Hi H)
    as (Hlen & Hfl & Hfr).
  split; [exact Hlen|]. split.
  - rewrite Hfl. apply N.mod_small, lor_lt; [exact Hs|]. apply big_or_map_lt, bit_small.
  - intros k Hk. apply Hfr. now apply outside_ranges.
Qed.

(* for the non-vacuity Examples: an empty table of kind k, and the field at (off, w) of an addition with its length *)
Definition c11_hdr : hdr := {| h_sig := [65; 80; 73; 67]; h_rev := 1; h_oem := repeatN 0 6; h_tbl := repeatN 0 8; h_orev := 0 |}.
Definition c11_tbl (k : tkind) : tbl := tbl_new k c11_hdr [].
Definition c11_show (a : option addition) (off w : nat) : option (N * nat) :=
  option_map (fun e => (field_at (a_bytes e) off w, length (a_bytes e))) a.

(* ---- MADT GICC: Flags dword (offset 12) = status bits | edge-trigger options invoked; frame against Gicc::new(Disabled) ---- *)
Theorem c11_madt_gicc :
  forall s status st e, madt_addition s (SL [SA 3; SA status; SL st]) = Some e ->
    length (a_bytes e) = 82%nat /\
    field_at (a_bytes e) 12 4 = N.lor (gicc_status_bits status) (big_or (map gicc_call_bit st)) /\
    forall k, ~ in_ranges k (gicc_flags_at :: concat (map gicc_call_ranges st)) -> nth k (a_bytes e) 0 = nth k GICC_BLANK 0.
Proof.
  intros s status st e.
  unfold madt_addition. cbn [andb assert option_bind madt_entry]. rewrite apply_setters_fold.
  destruct (fold_opt gicc_setter (gicc_new status) st) as [f|] eqn:E; [|discriminate].
  cbn [option_bind]. intros H; injection H as <-. cbn [a_bytes].
  assert (Hs : gicc_status_bits status < 2 ^ 32) by (unfold gicc_status_bits; dmatch_goal; reflexivity).
  destruct (writes_image gicc_setter GICC_WS 5 12 4 gicc_call_bit _ eq_refl eq_refl gicc_step gicc_call_bit_small
              st (gicc_new status) f eq_refl E) as (Hlen & Hfl & Hfr).
  rewrite N.mod_small in Hfl by exact Hs.
  split; [exact Hlen|]. split; [exact Hfl|].
  intros k Hk. rewrite (Hfr k) by now apply outside_ranges. apply gicc_blank_frame.
  intros Hr. apply Hk. now apply (in_ranges_intro k gicc_flags_at); [left|].
Qed.
Example c11_madt_gicc_nonvacuous :
  c11_show (madt_addition (c11_tbl KMadt)
      (SL [SA 3; SA 2; SL [SL [SA 13; SA 7; SA 1]; SL [SA 2; SA 9]; SL [SA 14; SA 5; SA 1]; SL [SA 13; SA 8; SA 0]; SL [SA 14; SA 6; SA 1]]])) 12 4
  = Some (14, 82%nat) /\ distinct_single_bits gicc_option_table = true.
Proof. split; vm_compute; reflexivity. Qed.

(* ---- MADT GIC MSI frame: Flags dword (offset 16) = 1 iff spi_count_and_base was called ---- *)
Theorem c11_madt_gicmsi :
  forall s st e, madt_addition s (SL [SA 5; SL st]) = Some e ->
    length (a_bytes e) = 24%nat /\
    field_at (a_bytes e) 16 4 = big_or (map gicmsi_call_bit st) /\
    field_at (a_bytes e) 16 4 = (if existsb gicmsi_supplies_spi st then 1 else 0) /\
    forall k, ~ in_ranges k (gicmsi_flags_at :: concat (map gicmsi_call_ranges st)) -> nth k (a_bytes e) 0 = nth k GICMSI_BLANK 0.
Proof.
  intros s st e.
  unfold madt_addition. cbn [andb assert option_bind madt_entry]. rewrite apply_setters_fold.
  destruct (fold_opt gicmsi_setter gicmsi_new st) as [f|] eqn:E; [|discriminate].
  cbn [option_bind]. intros H; injection H as <-. cbn [a_bytes].
  destruct (c11_flag_bytes gicmsi_setter GICMSI_WS 5 (fun f => fget f 5 <= 1) gicmsi_call_bit gicmsi_call_ranges ltac:(cbn; lia)
              gicmsi_call_bit_small gicmsi_step st gicmsi_new f eq_refl ltac:(cbn; lia) ltac:(reflexivity) E) as (Hlen & Hfl & Hfr).
  change (field_at (ser_flds f) 16 4 = N.lor 0 (big_or (map gicmsi_call_bit st))) in Hfl. rewrite N.lor_0_l in Hfl.
  split; [exact Hlen|]. split; [exact Hfl|]. split; [|exact Hfr].
  rewrite Hfl. apply big_or_if.
Qed.
Example c11_madt_gicmsi_nonvacuous :
  c11_show (madt_addition (c11_tbl KMadt) (SL [SA 5; SL [SL [SA 1; SA 3]; SL [SA 3; SA 32; SA 64]; SL [SA 2; SA 4096]; SL [SA 3; SA 8; SA 96]]])) 16 4 = Some (1, 24%nat) /\
  c11_show (madt_addition (c11_tbl KMadt) (SL [SA 5; SL [SL [SA 1; SA 3]; SL [SA 2; SA 4096]]])) 16 4 = Some (0, 24%nat).
Proof. split; vm_compute; reflexivity. Qed.

(* ---- MADT local APIC / RINTC: the enable state (constructor argument) is the Flags dword (offset 4) and nothing else ---- *)
Theorem c11_madt_lapic_enable :
  forall s uid id en e, madt_addition s (SL [SA 1; SA uid; SA id; SA en]) = Some e ->
    length (a_bytes e) = 8%nat /\ field_at (a_bytes e) 4 4 = en mod 2 ^ 32 /\
    (en < 3 -> field_at (a_bytes e) 4 4 = enable_state_bits en) /\
    forall k, ~ in_range k lapic_flags_at -> nth k (a_bytes e) 0 = nth k (ser_flds (local_apic uid id 0)) 0.
Proof.
  intros s uid id en e.
  unfold madt_addition. cbn [andb assert option_bind madt_entry]. intros H; injection H as <-. cbn [a_bytes].
  assert (Hf : field_at (ser_flds (local_apic uid id en)) 4 4 = en mod 2 ^ 32)
    by exact (field_at_ser_flds (local_apic uid id en) 4 ltac:(cbn; lia)).
  split; [reflexivity|]. split; [exact Hf|]. split.
  - intros Hen. rewrite Hf. now apply enable_state_word.
  - intros k. exact (ser_fset_frame (local_apic uid id 0) 4 en k).
Qed.
Theorem c11_madt_rintc_enable :
  forall s st hart uid ext ib isz e, madt_addition s (SL [SA 8; SA st; SA hart; SA uid; SA ext; SA ib; SA isz]) = Some e ->
    length (a_bytes e) = 36%nat /\ field_at (a_bytes e) 4 4 = st mod 2 ^ 32 /\
    (st < 3 -> field_at (a_bytes e) 4 4 = enable_state_bits st) /\
    forall k, ~ in_range k rintc_flags_at -> nth k (a_bytes e) 0 = nth k (ser_flds (rintc 0 hart uid ext ib isz)) 0.
Proof.
  intros s st hart uid ext ib isz e.
  unfold madt_addition. cbn [andb assert option_bind madt_entry]. intros H; injection H as <-. cbn [a_bytes].
  assert (Hf : field_at (ser_flds (rintc st hart uid ext ib isz)) 4 4 = st mod 2 ^ 32)
    by exact (field_at_ser_flds (rintc st hart uid ext ib isz) 4 ltac:(cbn; lia)).
  split; [apply length_ser_flds_w|]. split; [exact Hf|]. split.
  - intros Hen. rewrite Hf. now apply enable_state_word.
  - intros k. exact (ser_fset_frame (rintc 0 hart uid ext ib isz) 4 st k).
Qed.
Example c11_madt_enable_nonvacuous :
  c11_show (madt_addition (c11_tbl KMadt) (SL [SA 1; SA 3; SA 4; SA 2])) 4 4 = Some (2, 8%nat) /\
  c11_show (madt_addition (c11_tbl KMadt) (SL [SA 8; SA 1; SA 5; SA 6; SA 7; SA 8; SA 9])) 4 4 = Some (1, 36%nat).
Proof. split; vm_compute; reflexivity. Qed.

(* ---- SRAT memory affinity / generic initiator / RINTC affinity ---- *)
Theorem c11_srat_memaff :
  forall s pd base len bs e, srat_addition s (SL [SA 1; SA pd; SA base; SA len; SL bs]) = Some e ->
    length (a_bytes e) = 40%nat /\
    field_at (a_bytes e) 28 4 = big_or (map memaff_call_bit bs) /\
    forall k, ~ in_range k memaff_flags_at -> nth k (a_bytes e) 0 = nth k (memaff_bytes (memaff_new pd base len)) 0.
Proof.
  intros s pd base len bs e.
  cbn [srat_addition]. rewrite apply_builders_fold.
  destruct (fold_opt memaff_builder (memaff_new pd base len) bs) as [m|] eqn:E; [|discriminate].
  cbn [option_bind]. intros H; injection H as <-. cbn [a_bytes].
  destruct (option_bytes memaff_builder ma_flags memaff_reflag (fun _ => true) (fun a o => N.lor a (memaff_call_bit o)) memaff_step
              memaff_bytes memaff_pre (fun _ => q8 0) 4 memaff_shape bs _ m E eq_refl) as (x & Hq & Hfield & _ & Hfr).
  change (filter _ bs) with (filter (fun _ : sx => false) bs) in Hq. rewrite filter_false in Hq. apply Some_inj in Hq.
  split; [apply memaff_bytes_length|]. rewrite Hq. split; [|exact Hfr].
  etransitivity; [exact Hfield|]. cbn [memaff_new ma_flags]. rewrite fold_lor_map, N.lor_0_l.
  apply N.mod_small, (big_or_map_lt memaff_call_bit 32), memaff_call_bit_small.
Qed.
Theorem c11_srat_geninit :
  forall s pd h bs e, srat_addition s (SL [SA 2; SA pd; h; SL bs]) = Some e ->
    exists hd, sx_handle h = Some hd /\ length (a_bytes e) = 32%nat /\
      field_at (a_bytes e) 24 4 = big_or (map geninit_call_bit bs) /\
      forall k, ~ in_range k geninit_flags_at ->
        nth k (a_bytes e) 0 = nth k (geninit_bytes {| gi_pd := pd; gi_handle := hd; gi_flags := 0 |}) 0.
Proof.
  intros s pd h bs e.
  cbn [srat_addition]. destruct (sx_handle h) as [hd|] eqn:Eh; [|discriminate]. cbn [option_bind].
  rewrite apply_builders_fold.
  destruct (fold_opt geninit_builder _ bs) as [g|] eqn:E; [|discriminate].
  cbn [option_bind]. intros H; injection H as <-. cbn [a_bytes].
  exists hd. split; [reflexivity|].
  destruct (option_bytes geninit_builder gi_flags geninit_reflag (fun _ => true) (fun a o => N.lor a (geninit_call_bit o)) geninit_step
              geninit_bytes geninit_pre (fun _ => d4 0) 4 geninit_shape bs _ g E eq_refl) as (x & Hq & Hfield & _ & Hfr).
  change (filter _ bs) with (filter (fun _ : sx => false) bs) in Hq. rewrite filter_false in Hq. apply Some_inj in Hq.
  pose proof (f_equal gi_handle Hq) as H2. cbn [geninit_reflag gi_handle] in H2.
  assert (Hl : length (geninit_pre g) = 24%nat).
  { unfold geninit_pre, b1, d4. rewrite !app_length, !length_le, <- H2, (sx_handle_length _ _ Eh). reflexivity. }
  rewrite Hl in Hfield, Hfr.
  split; [apply geninit_bytes_length; rewrite <- H2; exact (sx_handle_length _ _ Eh)|]. rewrite Hq. split; [|exact Hfr].
  etransitivity; [exact Hfield|]. cbn [gi_flags]. rewrite fold_lor_map, N.lor_0_l.
  apply N.mod_small, (big_or_map_lt geninit_call_bit 32), geninit_call_bit_small.
Qed.
Theorem c11_srat_rintc_affinity :
  forall s uid clock bs e, srat_addition s (SL [SA 3; uid; SA clock; SL bs]) = Some e ->
    exists u, sx_arr 4 uid = Some u /\ length (a_bytes e) = 20%nat /\
      field_at (a_bytes e) 12 4 = big_or (map rintc_aff_call_bit bs) /\
      field_at (a_bytes e) 12 4 = (if existsb rintc_aff_enables bs then 1 else 0) /\
      forall k, ~ in_ranges k (rintc_aff_flags_at :: concat (map rintc_aff_call_ranges bs)) ->
        nth k (a_bytes e) 0 = nth k (ser_flds (rintc_aff_new u clock)) 0.
Proof.
  intros s uid clock bs e.
  cbn [srat_addition]. destruct (sx_arr 4 uid) as [u|] eqn:Eu; [|discriminate]. cbn [option_bind].
  rewrite apply_builders_fold.
  destruct (fold_opt rintc_aff_builder _ bs) as [f|] eqn:E; [|discriminate].
  cbn [option_bind]. intros H; injection H as <-. cbn [a_bytes].
  exists u. split; [reflexivity|].
  destruct (rintc_aff_new_spec u clock (sx_arr_length _ _ _ Eu)) as [Hw H0].
  destruct (writes_image rintc_aff_builder RINTC_AFF_WS 8 12 4 rintc_aff_call_bit _ eq_refl eq_refl rintc_aff_step
              rintc_aff_call_bit_small bs _ f Hw E) as (Hlen & Hfl & Hfr).
  rewrite H0, N.lor_0_l in Hfl.
  split; [exact Hlen|]. split; [exact Hfl|]. split.
  - etransitivity; [exact Hfl|]. apply big_or_if.
  - intros k Hk. apply Hfr. now apply outside_ranges.
Qed.
Example c11_srat_nonvacuous :
  c11_show (srat_addition (c11_tbl KSrat) (SL [SA 1; SA 1; SA 4096; SA 8192; SL [SL [SA 3]; SL [SA 1]; SL [SA 3]]])) 28 4 = Some (5, 40%nat) /\
  c11_show (srat_addition (c11_tbl KSrat) (SL [SA 2; SA 1; SL [SA 1; SA 0; SA 1; SA 2; SA 3]; SL [SL [SA 2]; SL [SA 2]]])) 24 4 = Some (2, 32%nat) /\
  c11_show (srat_addition (c11_tbl KSrat) (SL [SA 3; SL [SA 1; SA 2; SA 3; SA 4]; SA 9; SL [SL [SA 2; SA 5]; SL [SA 1]; SL [SA 2; SA 6]]])) 12 4 = Some (1, 20%nat) /\
  distinct_single_bits memaff_option_table && distinct_single_bits geninit_option_table = true.
Proof. repeat split; vm_compute; reflexivity. Qed.

(* ---- PPTT processor hierarchy node (5 flag options + add_cache + pub-field assignments) ---- *)
Theorem c11_pptt_pnode :
  forall s parent uid bs e, pptt_addition s (SL [SA 1; parent; SA uid; SL bs]) = Some e ->
    field_at (a_bytes e) 4 4 = fold_left pnode_flags_after bs 0 mod 2 ^ 32 /\
    (forallb (fun o => negb (pnode_assigns_flags o)) bs = true -> field_at (a_bytes e) 4 4 = big_or (map pnode_call_bit bs)) /\
    exists e0, pptt_addition s (SL [SA 1; parent; SA uid; SL (filter pnode_nonoption bs)]) = Some e0 /\
      length (a_bytes e) = length (a_bytes e0) /\
      forall k, ~ in_range k pnode_flags_at -> nth k (a_bytes e) 0 = nth k (a_bytes e0) 0.
Proof.
  intros s parent uid bs e H. apply pptt_addition_cases in H as (d & Hop & Hfit & ->).
  inversion Hop as [? ? ? p0 p En E|]; subst. cbn [pptt_node_addition a_bytes].
  apply pnode_new_cases in En as (par & Epar & ->).
  rewrite (fold_opt_unique (pnode_builder s) (pnode_builders s)) in E by reflexivity.
  destruct (option_bytes (pnode_builder s) pn_flags pn_reflag pnode_is_option pnode_flags_after (pnode_step s)
              (fun p => pptt_node_bytes (NProc p)) (fun p => b1 0 ++ b1 (pnode_len p) ++ w2 0) pnode_post 4
              (fun _ _ => conj eq_refl eq_refl) bs _ p E eq_refl) as (x & Hq & Hfield & Hlen & Hfr).
  split; [exact Hfield|]. split.
  - intros Hna. etransitivity; [exact Hfield|]. rewrite pnode_flags_union, N.lor_0_l by exact Hna.
    apply N.mod_small. apply (big_or_map_lt pnode_call_bit 32), pnode_call_bit_small.
  - (* the chain without the option calls builds the same node up to its flags *)
    exists (pptt_node_addition (NProc (pn_reflag p x))). split; [|split; [exact Hlen|exact Hfr]].
    apply pptt_addition_intro; [|exact Hfit]. apply (PpOpProc s parent uid _ _ _ (pnode_new_intro s parent uid par Epar)).
    rewrite (fold_opt_unique (pnode_builder s) (pnode_builders s)) by reflexivity. exact Hq.
Qed.
(* a direct assignment node.flags = v replaces the word; options invoked afterwards are united with v *)
Theorem c11_pptt_pnode_after_assignment :
  forall pre v post a, forallb (fun o => negb (pnode_assigns_flags o)) post = true ->
    fold_left pnode_flags_after (pre ++ SL [SA 7; SA v] :: post) a = N.lor v (big_or (map pnode_call_bit post)).
Proof.
  intros pre v post a H. rewrite fold_left_app. cbn [fold_left]. cbn [pnode_flags_after]. now apply pnode_flags_union.
Qed.
Example c11_pptt_pnode_nonvacuous :
  c11_show (pptt_addition (c11_tbl KPptt) (SL [SA 1; SL []; SA 7; SL [SL [SA 4]; SL [SA 6; SA 36]; SL [SA 2]; SL [SA 9; SA 3]; SL [SA 4]; SL [SA 5]]])) 4 4
    = Some (26, 24%nat) /\
  c11_show (pptt_addition (c11_tbl KPptt) (SL [SA 1; SL []; SA 7; SL [SL [SA 1]; SL [SA 7; SA 64]; SL [SA 3]]])) 4 4 = Some (68, 20%nat) /\
  distinct_single_bits pnode_option_table = true.
Proof. repeat split; vm_compute; reflexivity. Qed.

(* ---- PPTT cache type structure: 8 valid bits gate the value setters; attribute sub-fields ---- *)
Theorem c11_pptt_cache :
  forall s st e, pptt_addition s (SL [SA 2; SL st]) = Some e ->
    length (a_bytes e) = 28%nat /\
    field_at (a_bytes e) 4 4 = big_or (map cache_valid_bit st) /\
    (forall k, In k [1; 2; 3; 4; 5; 6; 7; 8] -> N.testbit (field_at (a_bytes e) 4 4) (k - 1) = existsb (cache_supplies k) st) /\
    field_at (a_bytes e) 21 1 = big_or (map cache_attr_bits st) /\
    forall k, ~ in_ranges k (cache_flags_at :: concat (map cache_call_ranges st)) -> nth k (a_bytes e) 0 = nth k CACHE_BLANK 0.
Proof.
  intros s st e H. apply pptt_addition_cases in H as (d & Hop & _ & ->).
  inversion Hop as [|? fl nl sz sets asso attr ls id E]; subst. cbn [pptt_node_addition a_bytes pptt_node_bytes].
  rewrite (fold_opt_unique (cache_setter s) (cache_setters s)) in E by reflexivity.
  set (f := pptt_cache_flds fl nl sz sets asso attr ls id) in *.
  destruct (writes_image (cache_setter s) CACHE_WS 3 4 4 cache_valid_bit _ eq_refl eq_refl
              (fun f o f' H => proj1 (cache_step s f o f' H)) cache_valid_bit_small st cache_default f eq_refl E) as (Hlen & Hfl & Hfr).
  destruct (writes_image (cache_setter s) CACHE_WS 8 21 1 cache_attr_bits _ eq_refl eq_refl
              (fun f o f' H => proj2 (cache_step s f o f' H)) cache_attr_bits_small st cache_default f eq_refl E) as (_ & Hat & _).
  (* both fields are 0 in CacheNodeBuilder::default(), by computation *)
  rewrite N.lor_0_l in Hfl, Hat.
  split; [exact Hlen|]. split; [exact Hfl|]. split; [|split; [exact Hat|]].
  - intros k Hk. rewrite Hfl. apply big_or_gate. intros o. now apply cache_valid_bit_gate.
  - intros k Hk. apply Hfr. now apply outside_ranges.
Qed.
Example c11_pptt_cache_nonvacuous :
  c11_show (pptt_addition (c11_tbl KPptt)
      (SL [SA 2; SL [SL [SA 7; SA 64]; SL [SA 5; SA 2]; SL [SA 1; SA 32768]; SL [SA 6; SA 1]; SL [SA 9; SA 36]; SL [SA 7; SA 128]; SL [SA 4; SA 1]]])) 4 4
    = Some (1 + 8 + 16 + 32 + 64, 28%nat) /\
  c11_show (pptt_addition (c11_tbl KPptt)
      (SL [SA 2; SL [SL [SA 7; SA 64]; SL [SA 5; SA 2]; SL [SA 1; SA 32768]; SL [SA 6; SA 1]; SL [SA 9; SA 36]; SL [SA 7; SA 128]; SL [SA 4; SA 1]]])) 21 1
    = Some (1 + 8 + 16, 28%nat) /\
  distinct_single_bits cache_valid_table = true.
Proof. repeat split; vm_compute; reflexivity. Qed.

(* ---- TCPA server table: device flags (offset 58) / interrupt flags (offset 59), valid bits gate their value setters ---- *)
Theorem c11_tcpa_server :
  forall md c ops s0 s, tpmserver_new c = Some s0 -> run_steps (tpmserver_step md) s0 ops = Some s ->
    length (tpmserver_bytes s) = 100%nat /\
    field_at (tpmserver_bytes s) 58 1 = big_or (map tcpa_dev_bit ops) /\
    field_at (tpmserver_bytes s) 59 1 = big_or (map tcpa_int_bit ops) /\
    (forall k b, In (k, b) [(7, 0); (6, 1); (9, 2)] -> N.testbit (field_at (tpmserver_bytes s) 58 1) b = existsb (tcpa_calls k) ops) /\
    (forall k b, In (k, b) [(3, 0); (2, 1); (4, 2); (5, 3)] -> N.testbit (field_at (tpmserver_bytes s) 59 1) b = existsb (tcpa_calls k) ops) /\
    forall k, ~ in_ranges k (tcpa_checksum_at :: tcpa_devflags_at :: tcpa_intflags_at :: concat (map tcpa_call_ranges ops)) ->
      nth k (tpmserver_bytes s) 0 = nth k (tpmserver_bytes s0) 0.
Proof.
  intros md c ops s0 s Hn Hr.
  destruct (tpmserver_new_shape c s0 Hn) as (Hh0 & Hb0 & _).
  destruct (tpmserver_run md ops s0 s Hr) as [Hh E]. rewrite Hb0 in E.
  destruct (writes_image tcpa_st TCPA_WS 6 22 1 tcpa_dev_bit _ eq_refl eq_refl (fun f o f' H => proj1 (tcpa_step f o f' H))
              tcpa_dev_bit_small ops tpmserver_body0 _ eq_refl E) as (Hlen & Hdev & Hfr).
  destruct (writes_image tcpa_st TCPA_WS 7 23 1 tcpa_int_bit _ eq_refl eq_refl (fun f o f' H => proj2 (tcpa_step f o f' H))
              tcpa_int_bit_small ops tpmserver_body0 _ eq_refl E) as (_ & Hint & _).
  (* both flag bytes are 0 in the constructor's body, by computation *)
  rewrite N.lor_0_l in Hdev, Hint.
  assert (Hhl : forall ck, length (hdr_bytes (sv_hdr s0) 100 ck) = 36%nat) by (intros ck; now apply length_hdr_bytes).
  unfold tpmserver_bytes, tpmserver_bytes_ck. rewrite Hh, Hb0.
  assert (Hd : field_at (hdr_bytes (sv_hdr s0) 100 (sv_cks s) ++ ser_flds (sv_body s)) 58 1 = big_or (map tcpa_dev_bit ops)).
  { rewrite <- Hdev. exact (field_at_after_hdr _ _ _ _ 22 1 Hh0). }
  assert (Hi : field_at (hdr_bytes (sv_hdr s0) 100 (sv_cks s) ++ ser_flds (sv_body s)) 59 1 = big_or (map tcpa_int_bit ops)).
  { rewrite <- Hint. exact (field_at_after_hdr _ _ _ _ 23 1 Hh0). }
  split; [rewrite app_length, Hhl, Hlen; reflexivity|].
  split; [exact Hd|]. split; [exact Hi|]. split; [|split].
  - intros k b Hk. rewrite Hd. apply big_or_gate. intros o. now apply (tcpa_dev_gate k b o).
  - intros k b Hk. rewrite Hi. apply big_or_gate. intros o. now apply (tcpa_int_gate k b o).
  - intros k Hk. destruct (Nat.ltb_spec k 36) as [Hlt|Hge].
    + rewrite !app_nth1 by (rewrite Hhl; exact Hlt). apply hdr_bytes_frame; [exact Hh0|].
      intros ->. apply Hk. apply (in_ranges_intro 9 tcpa_checksum_at); [now left|]. unfold in_range. cbn. lia.
    + rewrite !app_nth2, !Hhl by (rewrite Hhl; exact Hge). apply Hfr. intros j Hj.
      assert (Hj' : in_range k (tcpa_at j)) by (revert Hj; unfold in_range, tcpa_at, fld_range; cbn [fst snd]; lia).
      (* byte k lies in body field j: that is not the device flags, nor the interrupt flags, nor a field a call made governs *)
      split.
      * intros ->. apply Hk. apply (in_ranges_intro k tcpa_devflags_at); [right; now left|exact Hj'].
      * intros o Ho [Ej|Hin]; apply Hk.
        -- apply (in_ranges_intro k tcpa_intflags_at); [do 2 right; now left|now rewrite Ej].
        -- apply (in_ranges_intro k (tcpa_at j)); [do 3 right|exact Hj'].
           apply in_concat. exists (tcpa_call_ranges o). split; [now apply in_map|exact Hin].
Qed.
Example c11_tcpa_server_nonvacuous :
  match tpmserver_new (SL [SL (map SA (repeatN 65 6)); SL (map SA (repeatN 66 8)); SA 1]) with
  | Some s0 => option_map (fun s => (field_at (tpmserver_bytes s) 58 1, field_at (tpmserver_bytes s) 59 1))
                 (run_steps (tpmserver_step Checked) s0
                    [SL [SA 5; SA 33]; SL [SA 6]; SL [SA 3]; SL [SA 9; SA 0; SA 32; SA 0; SA 3; SA 4096]; SL [SA 5; SA 34]; SL [SA 6]])
  | None => None
  end = Some (6, 9).
Proof. vm_compute. reflexivity. Qed.

(* ---- HMAT system locality (Flags byte, offset 8) and memory proximity domain (Flags word, offset 8) ---- *)
Theorem c11_hmat_sysloc :
  forall md s lt dt mts unit ni nt bs e,
    hmat_addition md s (SL [SA 2; SA lt; SA dt; SA mts; SA unit; SA ni; SA nt; SL bs]) = Some e ->
    field_at (a_bytes e) 8 1 = N.lor (lt mod 256) (big_or (map sysloc_call_bit bs)) /\
    (lt < 16 -> field_at (a_bytes e) 8 1 mod 16 = lt /\
                forall k b, In (k, b) [(1, 5); (2, 4)] -> N.testbit (field_at (a_bytes e) 8 1) b = existsb (sysloc_calls k) bs) /\
    exists e0, hmat_addition md s (SL [SA 2; SA lt; SA dt; SA mts; SA unit; SA ni; SA nt; SL (filter sysloc_nonoption bs)]) = Some e0 /\
      length (a_bytes e) = length (a_bytes e0) /\
      forall k, ~ in_range k sysloc_flags_at -> nth k (a_bytes e) 0 = nth k (a_bytes e0) 0.
Proof.
  intros md s lt dt mts unit ni nt bs e H.
  apply hmat_addition_cases in H as (d & Hop & Hfit & ->).
  inversion Hop as [|? ? ? ? ? ? ? p0 p En E|]; subst. clear Hop. cbn [hmat_struct_addition hmat_add a_bytes hmat_struct_bytes].
  rewrite (fold_opt_unique sysloc_builder sysloc_builders) in E by reflexivity.
  destruct (sysloc_new_inv _ _ _ _ _ _ _ _ En) as (cnt & _ & E0).
  assert (F0 : sl_flags p0 = lt mod 256) by now rewrite E0.
  destruct (option_bytes sysloc_builder sl_flags sl_with_flags sysloc_is_option (fun a o => N.lor a (sysloc_call_bit o)) sysloc_step
              sysloc_bytes (fun p => w2 1 ++ w2 0 ++ d4 (sysloc_len p)) sysloc_post 1 sysloc_shape
              bs p0 p E ltac:(now rewrite E0)) as (x & Hq & Hfield & Hlen & Hfr).
  change (length (w2 1 ++ w2 0 ++ d4 (sysloc_len p))) with 8%nat in Hfield. rewrite F0, fold_lor_map in Hfield.
  assert (Hsmall : N.lor (lt mod 256) (big_or (map sysloc_call_bit bs)) < 2 ^ 8).
  { apply lor_lt; [change (2 ^ 8) with 256; apply N.mod_lt; discriminate|]. apply big_or_map_lt, sysloc_call_bit_small. }
  rewrite N.mod_small in Hfield by exact Hsmall.
  split; [exact Hfield|]. split.
  - intros Hlt. rewrite Hfield, (N.mod_small lt 256) by lia. split.
    + change 16 with (2 ^ 4). rewrite lor_mod, (N.mod_small lt) by exact Hlt.
      rewrite sysloc_bits_high. apply N.lor_0_r.
    + intros k b Hk. rewrite N.lor_spec.
      replace (N.testbit lt b) with false.
      * cbn [orb]. apply big_or_gate. intros o. now apply (sysloc_gate k b o).
      * symmetry. rewrite <- (N.mod_small lt (2 ^ 4)) by exact Hlt. apply N.mod_pow2_bits_high.
        cbn [In] in Hk. destruct Hk as [Hk|[Hk|[]]]; injection Hk as <- <-; discriminate.
  - (* the same call with the options struck out: the builders arrive at the same structure but for the flags, and the
       structure has the same size *)
    rewrite <- (fold_opt_unique sysloc_builder sysloc_builders) in Hq by reflexivity.
    exists (hmat_struct_addition (HSysloc (sl_with_flags p x))).
    split; [exact (hmat_addition_intro md s _ _ (HOpSysloc md _ _ _ _ _ _ _ _ _ En Hq) Hfit)|]. split; [exact Hlen|exact Hfr].
Qed.
Theorem c11_hmat_memprox :
  forall md s ipd mpd e, hmat_addition md s (SL [SA 1; SA ipd; SA mpd]) = Some e ->
    length (a_bytes e) = 40%nat /\ field_at (a_bytes e) 8 2 = 1 /\ field_at (a_bytes e) 12 4 = ipd mod 2 ^ 32.
Proof.
  intros md s ipd mpd e H. apply Some_inj in H. subst e. cbn [hmat_add a_bytes].
  split; [exact (hmat_struct_length (HProx ipd mpd))|]. split.
  - exact (hmat_struct_field (HProx ipd mpd) 8 2 1 eq_refl).
  - exact (hmat_struct_field (HProx ipd mpd) 12 4 ipd eq_refl).
Qed.
Example c11_hmat_nonvacuous :
  c11_show (hmat_addition Checked (c11_tbl KHmat)
     (SL [SA 2; SA 2; SA 1; SA 0; SA 100; SA 2; SA 2; SL [SL [SA 1]; SL [SA 5; SA 1; SA 0; SA 7]; SL [SA 3; SA 0; SA 4]; SL [SA 1]]])) 8 1 = Some (34, 56%nat) /\
  c11_show (hmat_addition Checked (c11_tbl KHmat)
     (SL [SA 2; SA 3; SA 1; SA 0; SA 100; SA 1; SA 1; SL [SL [SA 2]; SL [SA 1]; SL [SA 2]]])) 8 1 = Some (51, 42%nat) /\
  c11_show (hmat_addition Checked (c11_tbl KHmat) (SL [SA 1; SA 3; SA 4])) 8 2 = Some (1, 40%nat).
Proof. repeat split; vm_compute; reflexivity. Qed.

(* ---- HEST PCIe AER sources: Flags byte (offset 6) = the constructor's option, whatever setters follow ---- *)
Theorem c11_hest_aer :
  forall s k c st e, In k [1; 2; 3] -> hest_addition s (SL [SA k; c; SL st]) = Some e ->
    exists f0, aer_new (aer_type k) c = Some f0 /\
      length (a_bytes e) = aer_size (aer_type k) /\
      field_at (a_bytes e) 6 1 = aer_ctor_flags c mod 2 ^ 8 /\
      forall b, ~ in_ranges b (aer_flags_at :: concat (map aer_call_ranges st)) -> nth b (a_bytes e) 0 = nth b (ser_flds f0) 0.
Proof.
  intros s k c st e Hk. unfold hest_addition.
  assert (Hty : wsum (aer_ws (aer_type k)) = aer_size (aer_type k) /\
                hest_entry (SL [SA k; c; SL st]) = do f <- aer_new (aer_type k) c; apply_setters (aer_setter (aer_type k)) f st).
  { cbn [In] in Hk. destruct Hk as [<-|[<-|[<-|[]]]]; cbn; auto. }
  destruct Hty as (Hsz & ->).
  destruct (aer_new (aer_type k) c) as [f0|] eqn:En; [|discriminate]. cbn [option_bind]. rewrite apply_setters_fold.
  destruct (fold_opt _ f0 st) as [f|] eqn:E; [|discriminate]. cbn [option_bind].
  intros H; injection H as <-. cbn [a_bytes].
  destruct (aer_new_spec _ _ _ En) as [Hw H3].
  exists f0. split; [reflexivity|].
  (* the constructor's value need not fit the byte, so the flag field is read back truncated *)
  destruct (writes_image (aer_setter (aer_type k)) (aer_ws (aer_type k)) 3 6 1 (fun _ => 0) _ eq_refl eq_refl (aer_step _)
              (fun _ => eq_refl) st f0 f Hw E) as (Hlen & Hfl & Hfr).
  rewrite big_or_zeros, N.lor_0_r, H3 in Hfl.
  split; [now rewrite Hlen|]. split; [exact Hfl|].
  intros b Hb. apply Hfr. now apply outside_ranges.
Qed.
Theorem c11_hest_aer_ctor_frame :
  forall ty ff bus dev fn f, aer_new ty (SL [SA 1; SA ff; SA bus; SA dev; SA fn]) = Some f ->
    exists f0, aer_new ty (SL [SA 1; SA 0; SA bus; SA dev; SA fn]) = Some f0 /\
      forall b, ~ in_range b aer_flags_at -> nth b (ser_flds f) 0 = nth b (ser_flds f0) 0.
Proof.
  intros ty ff bus dev fn f.
  cbn [aer_new]. destruct (pci_ok _ _); [|discriminate]. cbn [option_bind]. intros H; injection H as <-.
  eexists. split; [reflexivity|]. intros b.
  exact (ser_fset_frame (aer_common ty 0 (cast U8 bus) (cast U8 dev) (cast U8 fn) ++ aer_tail ty) 3 ff b).
Qed.
Example c11_hest_aer_nonvacuous :
  c11_show (hest_addition (c11_tbl KHest) (SL [SA 1; SL [SA 0]; SL [SL [SA 1; SA 5]; SL [SA 8; SA 9]]])) 6 1 = Some (2, 48%nat) /\
  c11_show (hest_addition (c11_tbl KHest) (SL [SA 3; SL [SA 1; SA 1; SA 2; SA 3; SA 4]; SL [SL [SA 10; SA 5]; SL [SA 4; SA 9]]])) 6 1 = Some (1, 56%nat) /\
  c11_show (hest_addition (c11_tbl KHest) (SL [SA 2; SL [SA 1; SA 0; SA 2; SA 3; SA 4]; SL []])) 6 1 = Some (0, 44%nat).
Proof. repeat split; vm_compute; reflexivity. Qed.

(* ---- RIMT: the options are constructor arguments ---- *)
Theorem c11_rimt_iommu :
  forall s id base pci prox wires e, rimt_addition s (SL [SA 1; SA id; base; pci; prox; wires]) = Some e ->
    field_at (a_bytes e) 16 4 = iommu_flags_ref pci prox /\
    (N.testbit (field_at (a_bytes e) 16 4) 0 = opt_given pci) /\
    (N.testbit (field_at (a_bytes e) 16 4) 1 = opt_given prox) /\
    (opt_given pci = false -> field_at (a_bytes e) 20 2 = 0 /\ field_at (a_bytes e) 22 2 = 0) /\
    (opt_given prox = false -> field_at (a_bytes e) 24 4 = 0) /\
    exists e0, rimt_addition s (SL [SA 1; SA id; base; SL []; SL []; wires]) = Some e0 /\
      length (a_bytes e) = length (a_bytes e0) /\
      forall k, ~ in_ranges k (iommu_flags_at :: iommu_prox_at :: iommu_pci_at) -> nth k (a_bytes e) 0 = nth k (a_bytes e0) 0.
Proof.
  intros s id base pci prox wires e.
  cbn [rimt_addition].
  destruct (opt_num base) as [b|]; [|discriminate]. cbn [option_bind].
  destruct (rimt_pci pci) as [p|] eqn:Ep; [|discriminate]. cbn [option_bind].
  destruct (opt_num prox) as [px|] eqn:Ex; [|discriminate]. cbn [option_bind].
  destruct (rimt_wires wires) as [ws|]; [|discriminate]. cbn [option_bind].
  destruct (assert _); [|discriminate]. cbn [option_bind].
  intros H; injection H as <-. cbn [a_bytes].
  pose proof (rimt_pci_given _ _ Ep) as Gp. pose proof (opt_num_given _ _ Ex) as Gx.
  set (dev := iommu_flds id b (N.of_nat (length ws))).
  set (fl := N.lor (match p with Some _ => 1 | None => 0 end) (match px with Some _ => 2 | None => 0 end)).
  set (sg := match p with Some q => fst q | None => 0 end). set (bd := match p with Some q => snd q | None => 0 end).
  set (pd := match px with Some q => q | None => 0 end).
  change (iommu_bytes id b p px ws) with (ser_flds (dev fl sg bd pd) ++ concat ws).
  assert (Hfl : fl = iommu_flags_ref pci prox) by (unfold iommu_flags_ref; rewrite <- Gp, <- Gx; now destruct p, px).
  assert (H6 : field_at (ser_flds (dev fl sg bd pd) ++ concat ws) 16 4 = iommu_flags_ref pci prox).
  { apply (flds_field (dev fl sg bd pd) _ 6); [cbn; lia|reflexivity|exact Hfl|].
    unfold iommu_flags_ref. now destruct (opt_given pci), (opt_given prox). }
  split; [exact H6|]. rewrite H6. unfold iommu_flags_ref at 1 2.
  split; [now destruct (opt_given pci), (opt_given prox)|]. split; [now destruct (opt_given pci), (opt_given prox)|].
  split; [|split].
  - intros Hn. rewrite Hn in Gp. destruct p; [discriminate|].
    split; [apply (flds_field (dev fl sg bd pd) _ 7)|apply (flds_field (dev fl sg bd pd) _ 8)]; (cbn; lia) || reflexivity.
  - intros Hn. rewrite Hn in Gx. destruct px; [discriminate|].
    apply (flds_field (dev fl sg bd pd) _ 9); (cbn; lia) || reflexivity.
  - eexists. split; [reflexivity|]. cbn [a_bytes].
    change (iommu_bytes id b None None ws) with (ser_flds (dev 0 0 0 0) ++ concat ws).
    split; [now rewrite !app_length, !length_ser_flds_w|]. intros k Hk.
    change (dev fl sg bd pd) with (fset (fset (fset (fset (dev 0 0 0 0) 6 fl) 7 sg) 8 bd) 9 pd).
    rewrite !ser_fset_tail_frame by (intros Hr; apply Hk; eapply in_ranges_intro; [|exact Hr]; cbn; auto). reflexivity.
Qed.
Theorem c11_rimt_wire :
  forall num lvl pol aplic b, wire_bytes (SL [SA num; SA lvl; SA pol; SA aplic]) = Some b ->
    length b = 8%nat /\ field_at b 4 2 = wire_flags_ref lvl pol /\
    forall k, ~ in_range k wire_flags_at -> nth k b 0 = nth k (d4 num ++ w2 0 ++ w2 aplic) 0.
Proof.
  intros num lvl pol aplic b.
  cbn [wire_bytes]. intros H. rewrite !truthy_bit in H. fold (wire_flags_ref lvl pol) in H. injection H as <-.
  split; [reflexivity|]. split.
  - apply (flds_field [F 4 num; F 2 (wire_flags_ref lvl pol); F 2 aplic] [] 1); [cbn; lia|reflexivity|reflexivity|].
    apply lor_lt; now apply sp_bit_lt.
  - intros k. exact (ser_fset_frame [F 4 num; F 2 0; F 2 aplic] 1 (wire_flags_ref lvl pol) k).
Qed.
Theorem c11_rimt_iommu_wire :
  forall s id base pci prox ws e i num lvl pol aplic,
    rimt_addition s (SL [SA 1; SA id; base; pci; prox; SL [SL ws]]) = Some e ->
    nth_error ws i = Some (SL [SA num; SA lvl; SA pol; SA aplic]) ->
    field_at (a_bytes e) (32 + 8 * i + 4) 2 = wire_flags_ref lvl pol.
Proof.
  intros s id base pci prox ws e i num lvl pol aplic H Hi.
  apply rimt_addition_cases in H as (d & Hop & _ & _ & ->). cbn [rimt_dev_addition a_bytes].
  inversion Hop as [? ? ? ? ? b p px wbs _ _ _ Ew| |]; subst. cbn [rimt_impl_dec rimt_d_wires rimt_wires] in Ew.
  destruct (embedded_elt wire_bytes 8 wire_bytes_length ws wbs i _ Ew Hi) as (bw & Hb & Hat).
  destruct (rimt_dev_split (DIommu id b p px wbs)) as (fixed & Hfx & ->). cbn [rimt_dev_tail rimt_dev_head_size] in *.
  rewrite (Hat fixed 32%nat 4%nat 2%nat Hfx) by lia.
  now destruct (c11_rimt_wire _ _ _ _ _ Hb) as (_ & Hf & _).
Qed.
Theorem c11_rimt_idmap :
  forall s src dst num href ats pri rciep b,
    idmap_bytes s (SL [SA src; SA dst; SA num; href; SA ats; SA pri; SA rciep]) = Some b ->
    length b = 20%nat /\ field_at b 16 4 = idmap_flags_ref ats pri rciep /\
    exists b0, idmap_bytes s (SL [SA src; SA dst; SA num; href; SA 0; SA 0; SA 0]) = Some b0 /\
      forall k, ~ in_range k idmap_flags_at -> nth k b 0 = nth k b0 0.
Proof.
  intros s src dst num href ats pri rciep b.
  cbn [idmap_bytes]. destruct (handle_ref s href) as [h|]; [|discriminate]. cbn [option_bind].
  intros H. rewrite !truthy_bit in H. fold (idmap_flags_ref ats pri rciep) in H. injection H as <-.
  split; [reflexivity|]. split.
  - apply (flds_field [F 4 src; F 4 dst; F 4 num; F 4 (cast U32 h); F 4 (idmap_flags_ref ats pri rciep)] [] 4);
      [cbn; lia|reflexivity|reflexivity|]. repeat apply lor_lt; now apply sp_bit_lt.
  - eexists. split; [reflexivity|]. intros k.
    exact (ser_fset_frame [F 4 src; F 4 dst; F 4 num; F 4 (cast U32 h); F 4 0] 4 (idmap_flags_ref ats pri rciep) k).
Qed.
Theorem c11_rimt_pcierc :
  forall s id seg ats pri maps e, rimt_addition s (SL [SA 2; SA id; SA seg; SA ats; SA pri; maps]) = Some e ->
    field_at (a_bytes e) 8 4 = pcierc_flags_ref ats pri /\
    exists e0, rimt_addition s (SL [SA 2; SA id; SA seg; SA 0; SA 0; maps]) = Some e0 /\
      length (a_bytes e) = length (a_bytes e0) /\
      forall k, ~ in_range k pcierc_flags_at -> nth k (a_bytes e) 0 = nth k (a_bytes e0) 0.
Proof.
  intros s id seg ats pri maps e.
  cbn [rimt_addition]. destruct (rimt_maps s maps) as [ms|]; [|discriminate]. cbn [option_bind].
  destruct (assert _); [|discriminate]. cbn [option_bind].
  intros H; injection H as <-. cbn [a_bytes].
  set (rc := [F 1 1; F 1 1; F 2 (pcierc_len (N.of_nat (length ms))); F 2 id; F 2 seg; F 4 0; F 2 16; F 2 (N.of_nat (length ms))]).
  assert (Hshape : forall a p, pcierc_bytes id seg (truthy a) (truthy p) ms = ser_flds (fset rc 5 (pcierc_flags_ref a p)) ++ concat ms).
  { intros a p. unfold pcierc_bytes, pcierc_flags_ref. now rewrite !truthy_bit. }
  rewrite !Hshape. split.
  - apply (flds_field _ _ 5); [cbn; lia|reflexivity|reflexivity|]. apply lor_lt; now apply sp_bit_lt.
  - eexists. split; [reflexivity|]. cbn [a_bytes]. split; [now rewrite !app_length, !length_ser_flds_w|].
    intros k Hk. now rewrite !ser_fset_tail_frame.
Qed.
Theorem c11_rimt_pcierc_idmap :
  forall s id seg ats pri ms e i src dst num href a p r,
    rimt_addition s (SL [SA 2; SA id; SA seg; SA ats; SA pri; SL [SL ms]]) = Some e ->
    nth_error ms i = Some (SL [SA src; SA dst; SA num; href; SA a; SA p; SA r]) ->
    field_at (a_bytes e) (16 + 20 * i + 16) 4 = idmap_flags_ref a p r.
Proof.
  intros s id seg ats pri ms e i src dst num href a p r H Hi.
  apply rimt_addition_cases in H as (d & Hop & _ & _ & ->). cbn [rimt_dev_addition a_bytes].
  inversion Hop as [|? ? ? ? ? mbs Em|]; subst. cbn [rimt_impl_dec rimt_d_maps rimt_maps] in Em.
  destruct (embedded_elt (idmap_bytes s) 20 (idmap_bytes_length s) ms mbs i _ Em Hi) as (bm & Hb & Hat).
  destruct (rimt_dev_split (DPcieRc id seg ats pri mbs)) as (fixed & Hfx & ->). cbn [rimt_dev_tail rimt_dev_head_size] in *.
  rewrite (Hat fixed 16%nat 16%nat 4%nat Hfx) by lia.
  now destruct (c11_rimt_idmap _ _ _ _ _ _ _ _ _ Hb) as (_ & Hf & _).
Qed.
Theorem c11_rimt_platform_idmap :
  forall s id name nm ms e i src dst num href a p r,
    rimt_addition s (SL [SA 3; SA id; name; SL [SL ms]]) = Some e -> sx_bytes name = Some nm ->
    nth_error ms i = Some (SL [SA src; SA dst; SA num; href; SA a; SA p; SA r]) ->
    field_at (a_bytes e) (12 + length nm + 1 + 20 * i + 16) 4 = idmap_flags_ref a p r.
Proof.
  intros s id name nm ms e i src dst num href a p r H Hname Hi.
  apply rimt_addition_cases in H as (d & Hop & _ & _ & ->). cbn [rimt_dev_addition a_bytes].
  inversion Hop as [| |? ? ? nm' mbs En Em]; subst. rewrite Hname in En. apply Some_inj in En. subst nm'.
  cbn [rimt_impl_dec rimt_d_maps rimt_maps] in Em.
  destruct (embedded_elt (idmap_bytes s) 20 (idmap_bytes_length s) ms mbs i _ Em Hi) as (bm & Hb & Hat).
  destruct (rimt_dev_split (DPlatform id nm mbs)) as (fixed & Hfx & ->). cbn [rimt_dev_tail rimt_dev_head_size] in *.
  rewrite !app_assoc, (Hat _ (12 + length nm + 1)%nat 16%nat 4%nat) by (rewrite ?app_length, ?map_length, ?Hfx; cbn [length]; lia).
  now destruct (c11_rimt_idmap _ _ _ _ _ _ _ _ _ Hb) as (_ & Hf & _).
Qed.
Example c11_rimt_nonvacuous :
  c11_show (rimt_addition (c11_tbl KRimt)
      (SL [SA 1; SA 7; SL [SA 4096]; SL [SL [SA 1; SA 2; SA 3; SA 4]]; SL []; SL [SL [SL [SA 9; SA 1; SA 0; SA 5]; SL [SA 10; SA 0; SA 1; SA 5]]]])) 16 4
    = Some (1, 48%nat) /\
  c11_show (rimt_addition (c11_tbl KRimt)
      (SL [SA 1; SA 7; SL [SA 4096]; SL [SL [SA 1; SA 2; SA 3; SA 4]]; SL []; SL [SL [SL [SA 9; SA 1; SA 0; SA 5]; SL [SA 10; SA 0; SA 1; SA 5]]]])) 44 2
    = Some (2, 48%nat) /\
  c11_show (rimt_addition (c11_tbl KRimt) (SL [SA 1; SA 7; SL []; SL []; SL [SA 3]; SL []])) 16 4 = Some (2, 32%nat) /\
  c11_show (rimt_addition (c11_tbl KRimt) (SL [SA 2; SA 1; SA 0; SA 0; SA 1; SL [SL [SL [SA 0; SA 0; SA 16; SA 48; SA 1; SA 0; SA 1]]]])) 8 4 = Some (2, 36%nat) /\
  c11_show (rimt_addition (c11_tbl KRimt) (SL [SA 2; SA 1; SA 0; SA 0; SA 1; SL [SL [SL [SA 0; SA 0; SA 16; SA 48; SA 1; SA 0; SA 1]]]])) 32 4 = Some (5, 36%nat).
Proof. repeat split; vm_compute; reflexivity. Qed.

(* ---- distinctness: in every option table the options own different single bits of their field (finite check) ---- *)
Theorem c11_option_tables_distinct :
  forallb distinct_single_bits
    ([gicc_option_table; enable_state_table; memaff_option_table; geninit_option_table; pnode_option_table; cache_valid_table;
      tcpa_dev_table; tcpa_int_table; sysloc_option_table; aer_option_table] ++ rimt_option_tables) = true /\
  map cache_alloc_field [0; 1; 2] = [0; 1; 2] /\ map cache_type_field [0; 1; 2] = [0; 4; 8] /\ map cache_policy_field [0; 1] = [0; 16] /\
  map gicc_status_bits [0; 1; 2] = [0; 1; 8] /\ map enable_state_bits [0; 1; 2] = [0; 1; 2].
Proof. repeat split; vm_compute; reflexivity. Qed.

Print Assumptions c11_union_and_frame.
Print Assumptions c11_order_and_repetition_irrelevant.
Print Assumptions c11_bit_set_iff_invoked.
Print Assumptions c11_setter_frame.
Print Assumptions c11_image_from_fields.
Print Assumptions c11_fadt_flags.
Print Assumptions c11_fadt_flags_no_assign.
Print Assumptions c11_fadt_flags_after_assign.
Print Assumptions c11_cedt_window_restrictions.
Print Assumptions c11_calls_order_irrelevant.
Print Assumptions c11_flag_bytes.
Print Assumptions c11_madt_gicc.
Print Assumptions c11_madt_gicmsi.
Print Assumptions c11_madt_lapic_enable.
Print Assumptions c11_madt_rintc_enable.
Print Assumptions c11_srat_memaff.
Print Assumptions c11_srat_geninit.
Print Assumptions c11_srat_rintc_affinity.
Print Assumptions c11_pptt_pnode.
Print Assumptions c11_pptt_pnode_after_assignment.
Print Assumptions c11_pptt_cache.
Print Assumptions c11_tcpa_server.
Print Assumptions c11_hmat_sysloc.
Print Assumptions c11_hmat_memprox.
Print Assumptions c11_hest_aer.
Print Assumptions c11_hest_aer_ctor_frame.
Print Assumptions c11_rimt_iommu.
Print Assumptions c11_rimt_wire.
Print Assumptions c11_rimt_iommu_wire.
Print Assumptions c11_rimt_idmap.
Print Assumptions c11_rimt_pcierc.
Print Assumptions c11_rimt_pcierc_idmap.
Print Assumptions c11_rimt_platform_idmap.
Print Assumptions c11_option_tables_distinct.
