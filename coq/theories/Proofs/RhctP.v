(* RHCT: the table-specific obligations of the generic history invariant. *)
From Coq Require Import NArith List Lia Bool.
From ACPI Require Import Lib.Bytes Lib.Machine Impl.Table Impl.Madt Impl.Rhct Spec.Layout Spec.HmatS Spec.RhctS
  Proofs.TableP Proofs.Tables Proofs.BaseP Proofs.RhctStructP.
Import ListNotations.

Open Scope N_scope.

Lemma rhct_new_inv c s0 : rhct_new c = Some s0 -> Inv2 KRhct s0.
Proof.
  destruct c as [|[|o [|t [|r [|[tb|] [|]]]]]]; try discriminate. cbn [rhct_new].
  destruct (sx_hdr _ _ o t r) as [h|] eqn:Eh; [|discriminate]. intros H. apply Some_inj in H. subst s0.
  apply tbl_new_inv2; [exact (sx_hdr_ok _ _ _ _ _ _ Eh eq_refl)|reflexivity].
Qed.

Lemma rhct_addition_sound s o e : t_kind s = KRhct -> rhct_addition s o = Some e ->
  a_claimed e = N.of_nat (length (a_bytes e)) /\
  (needs_pos (t_kind s) = true -> (1 <= length (a_bytes e))%nat /\ a_claimed e < 2 ^ 16).
Proof.
  intros _ H. apply rhct_addition_cases in H as (d & _ & Hfit & ->). cbn [rhct_node_addition rhct_add a_claimed a_bytes].
  rewrite rhct_node_claimed_size, rhct_node_length. split; [reflexivity|]. intros _.
  pose proof (rhct_node_size_ge d). change (2 ^ 16) with 65536. lia.
Qed.

Definition rhct_table : addtable :=
  {| at_name := [82; 72; 67; 84]; at_kind := KRhct; at_new := rhct_new; at_entry := rhct_addition;
     at_new_inv := rhct_new_inv; at_sound := rhct_addition_sound |}.
