(* Facts about options, lists, byte lists and the layout helpers of the Spec layer (`assemble`, `field_at`, `opt_seq`, ...) that
   are about no table and no AML object in particular, and the case-splitting tactics for S-expression decoders.  Names: `Some`/`None` as in the constructors, `length_f` for the length of `f ..`, `f_g` for `f (g ..)`. *)
From Coq Require Import NArith List Lia Bool Arith.
From ACPI Require Import Lib.Bytes Lib.Sx Lib.Machine Impl.Fields Spec.Layout Spec.GasS Spec.MadtS Spec.HmatS.
Import ListNotations.
Open Scope N_scope.

Lemma Some_inj {A} (x y : A) : Some x = Some y -> x = y.
Proof. congruence. Qed.

Lemma Some_pair_inj {A B} (a a' : A) (b b' : B) : Some (a, b) = Some (a', b') -> a = a' /\ b = b'.
Proof. now intros [= -> ->]. Qed.

Lemma bind_Some {A B} (x : option A) (f : A -> option B) r :
  option_bind x f = Some r -> exists a, x = Some a /\ f a = Some r.
Proof. destruct x as [a|]; [|discriminate]. intros H. now exists a. Qed.

Lemma no_Some_None {A} (r : option A) : (forall e, r <> Some e) -> r = None.
Proof. intros H. destruct r as [e|]; [destruct (H e eq_refl)|reflexivity]. Qed.

Lemma assert_true c u : assert c = Some u -> c = true.
Proof. destruct c; [reflexivity|discriminate]. Qed.

Lemma if_Some {A} (c : bool) (x : option A) y : (if c then x else None) = Some y -> c = true /\ x = Some y.
Proof. destruct c; [auto|discriminate]. Qed.

Lemma opt_all_none {A} (l : list (option A)) : In None l -> opt_all l = None.
Proof.
  induction l as [|x l IH]; intros H; [destruct H|]. destruct H as [->|H]; [reflexivity|].
  cbn [opt_all]. destruct x; [rewrite IH by exact H; reflexivity|reflexivity].
Qed.

Lemma opt_all_length {A} (l : list (option A)) : forall r, opt_all l = Some r -> length r = length l.
Proof.
  induction l as [|[x|] l IH]; intros r H; try discriminate; [injection H as <-; reflexivity|].
  cbn [opt_all] in H. destruct (opt_all l) as [r'|]; [|discriminate]. injection H as <-. cbn [length]. now rewrite (IH r').
Qed.

Lemma opt_all_map_some {A B} (f : A -> option B) (g : A -> B) l :
  (forall x, In x l -> f x = Some (g x)) -> opt_all (map f l) = Some (map g l).
Proof.
  induction l as [|x l IH]; intros H; [reflexivity|]. cbn [map opt_all]. rewrite (H x (or_introl eq_refl)), IH; [reflexivity|].
  intros y Hy. apply H. now right.
Qed.

Lemma Forall_Forall2_map {A B} (R : A -> B -> Prop) (f : A -> B) l :
  Forall (fun x => R x (f x)) l -> Forall2 R l (map f l).
Proof. induction 1; cbn [map]; constructor; assumption. Qed.

Lemma Forall2_forall_r {A B} (R : A -> B -> Prop) (P : B -> Prop) :
  (forall a b, R a b -> P b) -> forall l r, Forall2 R l r -> Forall P r.
Proof. intros H l r HF. induction HF as [|a b l r Hab _ IH]; constructor; [exact (H a b Hab)|exact IH]. Qed.

Lemma Forall2_length {A B} (R : A -> B -> Prop) l r : Forall2 R l r -> length r = length l.
Proof. induction 1; cbn [length]; congruence. Qed.

Lemma Forall2_nth {A B} (R : A -> B -> Prop) l r : Forall2 R l r ->
  length r = length l /\ forall j x, nth_error l j = Some x -> exists y, nth_error r j = Some y /\ R x y.
Proof.
  induction 1 as [|x0 y0 l r H0 _ [IHl IHn]].
  - split; [reflexivity|]. intros [|j] x Hx; discriminate Hx.
  - split; [cbn [length]; now rewrite IHl|]. intros [|j] x Hx; cbn [nth_error] in Hx |- *.
    + apply Some_inj in Hx. subst x0. exists y0. split; [reflexivity|exact H0].
    + exact (IHn j x Hx).
Qed.

Lemma opt_concat_seq l : opt_concat l = opt_seq l.
Proof. induction l as [|[x|] l IH]; cbn [opt_concat opt_seq]; [reflexivity|now rewrite IH|reflexivity]. Qed.

Lemma opt_seq_Forall2 {A B} (f : A -> option B) : forall l es,
  opt_seq (map f l) = Some es -> Forall2 (fun o r => f o = Some r) l es.
Proof.
  induction l as [|x l IH]; intros es H; cbn [map opt_seq] in H.
  - injection H as <-. constructor.
  - destruct (f x) as [a|] eqn:E; [|discriminate]. destruct (opt_seq (map f l)) as [r|]; [|discriminate].
    injection H as <-. constructor; [exact E|now apply IH].
Qed.

Lemma opt_concat_Forall2 (eref : sx -> option (list N)) ops es :
  opt_concat (map eref ops) = Some es -> Forall2 (fun o e => eref o = Some e) ops es.
Proof. rewrite opt_concat_seq. apply opt_seq_Forall2. Qed.

Lemma opt_seq_forall {A B} (f : A -> option B) (P : B -> Prop) : (forall o b, f o = Some b -> P b) ->
  forall ops es, opt_seq (map f ops) = Some es -> Forall P es.
Proof. intros HP ops es H. exact (Forall2_forall_r _ P HP ops es (opt_seq_Forall2 f ops es H)). Qed.

Lemma opt_concat_forall (eref : sx -> option (list N)) (P : list N -> Prop) : (forall o b, eref o = Some b -> P b) ->
  forall ops es, opt_concat (map eref ops) = Some es -> Forall P es.
Proof. intros HP ops es H. exact (Forall2_forall_r _ P HP ops es (opt_concat_Forall2 eref ops es H)). Qed.

Lemma filter_false {A} (l : list A) : filter (fun _ => false) l = [].
Proof. induction l; auto. Qed.

(* the list loop a nested boolean Fixpoint carries inside, by its name *)
Lemma forallb_fix {A} (f : A -> bool) l :
  (fix all (l : list A) : bool := match l with [] => true | x :: r => f x && all r end) l = forallb f l.
Proof. induction l as [|x l IH]; [reflexivity|]. cbn [forallb]. now rewrite IH. Qed.

Lemma nth_repeatN {A} (x d : A) n k : (k < n)%nat -> nth k (repeatN x n) d = x.
Proof. revert k; induction n as [|n IH]; intros [|k] H; cbn [repeatN nth]; try lia; auto. apply IH. lia. Qed.

Lemma nth_error_rev_lt {A} (l : list A) k : (k < length l)%nat -> nth_error (rev l) k = nth_error l (length l - 1 - k).
Proof.
  induction l as [|x l IH]; intros H; cbn [length] in H; [lia|].
  cbn [rev length]. destruct (Nat.eq_dec k (length l)) as [->|Hne].
  - rewrite nth_error_app2 by (rewrite rev_length; lia). rewrite rev_length, Nat.sub_diag.
    replace (S (length l) - 1 - length l)%nat with 0%nat by lia. reflexivity.
  - rewrite nth_error_app1 by (rewrite rev_length; lia). rewrite IH by lia.
    replace (S (length l) - 1 - k)%nat with (S (length l - 1 - k)) by lia. reflexivity.
Qed.

Lemma nth_error_Some_lt {A} (l : list A) j x : nth_error l j = Some x -> (j < length l)%nat.
Proof. intros H. apply nth_error_Some. congruence. Qed.

Lemma length_seqN n : length (seqN n) = N.to_nat n.
Proof. unfold seqN. rewrite map_length, seq_length. reflexivity. Qed.

Lemma nth_seqN_map {B} (f : N -> B) n k d : (k < N.to_nat n)%nat -> nth k (map f (seqN n)) d = f (N.of_nat k).
Proof.
  intros H. unfold seqN. rewrite map_map.
  rewrite (nth_indep _ d (f (N.of_nat 0))) by (rewrite map_length, seq_length; exact H).
  rewrite (map_nth (fun x => f (N.of_nat x)) (seq 0 (N.to_nat n)) 0%nat k).
  rewrite seq_nth by exact H. reflexivity.
Qed.

Lemma skipn_skipn_add {A} (m n : nat) : forall l : list A, skipn n (skipn m l) = skipn (m + n) l.
Proof.
  induction m as [|m IH]; intros l; [reflexivity|].
  destruct l as [|x l]; [cbn [plus skipn]; now rewrite !skipn_nil|]. cbn [plus skipn]. apply IH.
Qed.

Lemma length_concat_const {A} (k : nat) (l : list (list A)) :
  Forall (fun e => length e = k) l -> length (concat l) = (k * length l)%nat.
Proof.
  induction l as [|x l IH]; intros H; cbn [concat length]; [lia|].
  inversion H; subst. rewrite app_length, IH by assumption. lia.
Qed.

Lemma concat_len_ge {A} (l : list (list A)) :
  Forall (fun e => (1 <= length e)%nat) l -> (length l <= length (concat l))%nat.
Proof.
  induction 1 as [|x l Hx _ IH]; cbn [concat length]; [lia|]. rewrite app_length. lia.
Qed.

Lemma length_arr (w : nat) (l : list N) : length (arr w l) = (w * length l)%nat.
Proof.
  unfold arr. rewrite (length_concat_const w); [now rewrite map_length|].
  apply Forall_forall. intros e He. apply in_map_iff in He. destruct He as [x [<- _]]. apply length_le.
Qed.

Lemma list_N_eqb_refl l : list_N_eqb l l = true.
Proof. now apply list_N_eqb_eq. Qed.

Lemma bytes_ok_app a b : bytes_ok (a ++ b) = bytes_ok a && bytes_ok b.
Proof. unfold bytes_ok. apply forallb_app. Qed.

Lemma assemble_cons o w v l : assemble ((o, w, v) :: l) = le w v ++ assemble l.
Proof. reflexivity. Qed.

Lemma length_assemble l : length (assemble l) = layout_size l.
Proof.
  induction l as [|[[o w] v] l IH]; [reflexivity|]. rewrite assemble_cons, app_length, length_le, IH. reflexivity.
Qed.

Lemma sx_nums_length l ms : sx_nums l = Some ms -> length ms = length l.
Proof.
  revert ms; induction l as [|x l IH]; intros ms H; cbn [sx_nums] in H.
  - apply Some_inj in H. subst. reflexivity.
  - destruct x as [n|]; [|discriminate]. destruct (sx_nums l) as [r|]; [|discriminate].
    apply Some_inj in H. subst. cbn [length]. now rewrite (IH r).
Qed.

Lemma sx_arr_length k s b : sx_arr k s = Some b -> length b = k.
Proof.
  unfold sx_arr. destruct (sx_bytes s) as [l|]; [|discriminate].
  destruct (Nat.eqb_spec (length l) k); [|discriminate]. intros H. inversion H; subst. reflexivity.
Qed.

Lemma sx_arr_of_bytes k s b : sx_bytes s = Some b -> length b = k -> sx_arr k s = Some b.
Proof. intros H1 H2. unfold sx_arr. rewrite H1, H2, Nat.eqb_refl. reflexivity. Qed.

Lemma sx_list_all_Forall {A} (f : sx -> option A) (P : A -> Prop) :
  (forall x a, f x = Some a -> P a) -> forall l r, sx_list_all f l = Some r -> Forall P r /\ length r = length l.
Proof.
  intros Hf. induction l as [|x l IH]; intros r H; cbn [sx_list_all] in H.
  - inversion H; subst. split; [constructor|reflexivity].
  - destruct (f x) as [a|] eqn:Ea; [|discriminate].
    destruct (sx_list_all f l) as [r'|]; [|discriminate]. inversion H; subst.
    destruct (IH r' eq_refl) as [IH1 IH2]. split; [constructor; [eapply Hf; eauto|exact IH1]|cbn [length]; now rewrite IH2].
Qed.

Lemma sx_arrs_length k l r : sx_list_all (sx_arr k) l = Some r -> Forall (fun a => length a = k) r.
Proof. intros H. exact (proj1 (sx_list_all_Forall (sx_arr k) _ (sx_arr_length k) l r H)). Qed.

Lemma sx_list_all_length {A} (f : sx -> option A) l r : sx_list_all f l = Some r -> length r = length l.
Proof. intros H. exact (proj2 (sx_list_all_Forall f (fun _ => True) (fun _ _ _ => I) l r H)). Qed.

Lemma nth_skipn' {A} (l : list A) k i d : nth i (skipn k l) d = nth (k + i) l d.
Proof. revert l; induction k as [|k IH]; intros l; [reflexivity|]. destruct l; cbn [skipn Nat.add nth]; [now destruct i|apply IH]. Qed.

(* on a spine of `le` images of concrete widths `field_at` computes down to `unle (le w v)`: such a field is read by
   conversion to `unle_le`, or to this for a value in range *)
Lemma unle_le_below w v b : b = 2 ^ (8 * N.of_nat w) -> v < b -> unle (le w v) = v.
Proof. intros ->. apply unle_le_small. Qed.

Lemma field_at_app_l a b o w : (o + w <= length a)%nat -> field_at (a ++ b) o w = field_at a o w.
Proof.
  intros H. unfold field_at. rewrite skipn_app. replace (o - length a)%nat with 0%nat by lia. cbn [skipn].
  rewrite firstn_app. rewrite skipn_length. replace (w - (length a - o))%nat with 0%nat by lia. cbn [firstn].
  now rewrite app_nil_r.
Qed.

Lemma field_at_app_r a b o w : field_at (a ++ b) (length a + o) w = field_at b o w.
Proof.
  unfold field_at. rewrite skipn_app. rewrite skipn_all2 by lia. replace (length a + o - length a)%nat with o by lia.
  reflexivity.
Qed.

Lemma field_at_skip a b n w : length a = n -> field_at (a ++ b) n w = field_at b 0 w.
Proof. intros <-. rewrite <- (Nat.add_0_r (length a)) at 1. apply field_at_app_r. Qed.

Lemma field_at_le_app w v rest : field_at (le w v ++ rest) 0 w = v mod 2 ^ (8 * N.of_nat w).
Proof. unfold field_at. cbn [skipn]. rewrite firstn_le_app. apply unle_le. Qed.

Lemma field_at_mid pre w v post n : length pre = n -> field_at (pre ++ le w v ++ post) n w = v mod 2 ^ (8 * N.of_nat w).
Proof. intros H. rewrite (field_at_skip pre _ n w H). apply field_at_le_app. Qed.

Lemma field_at_arr w vals rest : forall j v, nth_error vals j = Some v ->
  field_at (arr w vals ++ rest) (w * j) w = v mod 2 ^ (8 * N.of_nat w).
Proof.
  unfold arr. induction vals as [|x vals IH]; intros j v H; [destruct j; discriminate H|].
  destruct j as [|j]; cbn [nth_error] in H; cbn [map concat]; rewrite <- app_assoc.
  - apply Some_inj in H. subst x. rewrite Nat.mul_0_r. apply field_at_le_app.
  - replace (w * S j)%nat with (length (le w x) + w * j)%nat by (rewrite length_le; lia).
    rewrite field_at_app_r. apply IH. exact H.
Qed.

Lemma field_at_add r a b w : field_at r (a + b) w = field_at (skipn a r) b w.
Proof. unfold field_at. rewrite skipn_skipn_add. reflexivity. Qed.

Lemma field_in_concat_const n (l : list (list N)) rest o w : Forall (fun x => length x = n) l ->
  forall j e, nth_error l j = Some e -> (o + w <= n)%nat ->
  field_at (concat l ++ rest) (n * j + o) w = field_at e o w.
Proof.
  induction 1 as [|x l Hx HF IH]; intros j e H Hfit; [destruct j; discriminate H|].
  destruct j as [|j]; cbn [nth_error] in H; cbn [concat]; rewrite <- app_assoc.
  - apply Some_inj in H. subst x. rewrite Nat.mul_0_r. cbn [Nat.add]. apply field_at_app_l. lia.
  - replace (n * S j + o)%nat with (length x + (n * j + o))%nat by lia. rewrite field_at_app_r. apply IH; assumption.
Qed.

Lemma assemble_app a b : assemble (a ++ b) = assemble a ++ assemble b.
Proof. unfold assemble. now rewrite map_app, concat_app. Qed.

Lemma bytes_ok_assemble l : bytes_ok (assemble l) = true.
Proof.
  induction l as [|[[o w] v] l IH]; [reflexivity|].
  change (assemble ((o, w, v) :: l)) with (le w v ++ assemble l). rewrite bytes_ok_app, le_bytes_ok, IH. reflexivity.
Qed.

(* [H : a && b && c = true] becomes [H : a = true], [H0 : b = true], [H1 : c = true] (names made from [H], the last conjunct split off
   first) *)
Ltac andbs H := repeat (let H' := fresh H in apply andb_true_iff in H; destruct H as [H H']).

(* case analysis on the variables an S-expression decoder matches on (and nothing else) *)
Ltac dvar H :=
  match type of H with context [match ?x with _ => _ end] => is_var x; destruct x; try discriminate H end.

(* ... until none is left: the case analysis of a whole operation decoder, the refused shapes dropped *)
Ltac break_sx H := repeat dvar H.

(* Case analysis on an operation of a case.  [H : entry .. o = Some e], where [entry] is one match on the operation
   [o] = (k arg ...): [op_cases H o l of entry] leaves one goal per code k the Spec knows, with [entry] unfolded to the
   match on the argument list [l] of that code only (the split on k is done while [entry] is still folded, so that the
   other codes' bodies are not carried through it).  Then one step per argument: the next argument is a number [x] / a
   list [x] / anything [x]; there is none left.  One argument at a time, each impossible shape refuted at once: a single
   nested pattern over the whole argument list is dearer to check.  The goals come in the order in which the binary digits
   of k are split, from the lowest, odd before even: 3, 2, 1 for the codes 1 .. 3, and 3, 4, 2, 1 for 1 .. 4. *)
Tactic Notation "op_cases" hyp(H) ident(o) ident(l) "of" reference(entry) :=
  let op := fresh "op" in
  destruct o as [|l]; [discriminate H|]; destruct l as [|[op|] l]; try discriminate H;
  destruct op as [|op]; try discriminate H; repeat (destruct op as [op|op|]; try discriminate H);
  unfold entry in H; cbn beta iota in H.
Tactic Notation "arg_num" hyp(H) ident(l) ident(x) := destruct l as [|[x|] l]; try discriminate H.
Tactic Notation "arg_list" hyp(H) ident(l) ident(x) := destruct l as [|[|x] l]; try discriminate H.
Tactic Notation "arg_any" hyp(H) ident(l) ident(x) := destruct l as [|x l]; [discriminate H|].
Tactic Notation "arg_end" hyp(H) ident(l) := destruct l; [|discriminate H].

(* destructs every match / option_bind standing between an addition function and its `Some e` *)
Ltac split_matches H :=
  repeat match type of H with
         | option_bind ?x _ = Some _ => let E := fresh "E" in destruct x eqn:E; cbn [option_bind] in H; [|discriminate H]
         | context [match ?x with _ => _ end] => destruct x; try discriminate H
         end.

Lemma concat_map_b1 (l : list N) : concat (map b1 l) = map (fun b => b mod 256) l.
Proof. induction l as [|x l IH]; [reflexivity|]. cbn [map concat]. rewrite IH. reflexivity. Qed.

Lemma length_flat_map_const {A B} (f : A -> list B) k l : (forall x, length (f x) = k) -> length (flat_map f l) = (length l * k)%nat.
Proof. intros Hk. induction l as [|x l IH]; cbn [flat_map length]; [reflexivity|]. rewrite app_length, Hk, IH. lia. Qed.

Lemma odd_mod2 m : (if Nat.odd m then 1 else 0)%nat = (m mod 2)%nat.
Proof. rewrite <- Nat.bit0_mod, Nat.bit0_odd. reflexivity. Qed.
