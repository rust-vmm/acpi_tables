(* VIOT: the Impl model refines the Spec (C04 as a theorem).  For every constructor argument and every history of
   operations in the domain of Spec/ViotS.v (which includes: every offset of the table is below 2^16), in both build
   modes, the model of viot.rs accepts the history and the table it serialises is byte for byte the reference image. *)
From Coq Require Import NArith List Lia.
From ACPI Require Import Lib.Bytes Lib.Sx Impl.Table Impl.Viot
  Spec.Layout Spec.RimtS Spec.ViotS
  Proofs.TableP Proofs.ViotP Proofs.RefCommonP Proofs.BaseP Proofs.ViotStructP.
Import ListNotations.

Open Scope N_scope.

Lemma viot_pci_is_reference x d : viot_pci_ref x = Some d -> viot_pci x = Some d.
Proof.
  unfold viot_pci_ref, viot_pci. intros H.
  destruct x as [|l]; [discriminate H|].
  destruct l as [|[seg|] [|[bus|] [|[dev|] [|[fn|] [|]]]]]; try discriminate H.
  destruct (sp_bdf bus dev fn) as [b|] eqn:Eb; [|discriminate H]. inversion H; subst.
  destruct (sp_bdf_pci _ _ _ _ Eb) as [-> ->]. reflexivity.
Qed.

Lemma viot_out_handle s n rs href out :
  sp_tracks (n, rs) (t_handles s) -> viot_out_ref n rs href = Some out -> handle_ref s href = Some out.
Proof.
  intros HT H. destruct (viot_out_ref_inv n rs href out H) as (ty & El & _).
  exact (sp_lookup_handle s n rs href out ty HT El).
Qed.

(* every node type is the reference encoding of the caller's values: both entry functions are "decode, serialise"
   ([viot_entry_ref_cases], [viot_addition_intro]), and what the Spec's decoders accept the model's accept *)
Theorem viot_entries_are_reference s n rs o e :
  sp_tracks (n, rs) (t_handles s) -> viot_entry_ref n rs o = Some e -> exists a, viot_addition s o = Some a /\ a_bytes a = e.
Proof.
  intros HT H. apply viot_entry_ref_cases in H as (d & Hop & ->).
  exists (viot_node_addition s d). split; [|reflexivity]. apply viot_addition_intro.
  exact (viot_op_mono (viot_spec_dec n rs) (viot_impl_dec s) o d viot_pci_is_reference
           (fun x out => viot_out_handle s n rs x out HT) Hop).
Qed.

Lemma viot_refines_calls md ctor ops r :
  ts_image viot_spec ctor ops = Some r ->
  exists s0 s, viot_new ctor = Some s0 /\ run_adds viot_addition md s0 ops = Some s /\ tbl_image s = r /\ all_calls ops.
Proof.
  intros H. apply (table3_accepts KViot [86; 73; 79; 84] viot_addition viot_entries_ref eq_refl md ctor ops r H).
  intros s0 es I0 He0 Hh0 Hes ->. unfold viot_entries_ref in Hes.
  destruct (sp_entries viot_entry_ref ops 48 0 [] []) as [es'|] eqn:Ees; [|discriminate Hes].
  destruct (N.ltb_spec (48 + N.of_nat (length (concat es'))) (2 ^ 16)) as [Hsmall|]; [|discriminate Hes].
  injection Hes as ->.
  (* the whole table is below 2^16 *)
  assert (Hlen : N.of_nat (length (ref_table (h_sig (t_hdr s0)) (h_rev (t_hdr s0)) (ha_of (t_hdr s0))
                                     (mid KViot (t_pre s0) (N.of_nat (length es)) ++ concat es))) < 2 ^ 16).
  { rewrite (length_ref_table _ _ (inv_hdr s0 (proj1 I0))), app_length. cbn [mid length w2 q8 le app]. lia. }
  apply (sp_refines KViot viot_addition viot_addition_sound viot_entry_ref viot_entries_are_reference (fun _ _ _ => eq_refl)
           md s0 ops es I0 He0 Hh0 Ees); [eapply N.lt_trans; [exact Hlen|reflexivity]|intros _; exact Hlen].
Qed.

Theorem viot_refines :
  forall md ctor ops r,
    ts_image viot_spec ctor ops = Some r ->
    exists s0 s, viot_new ctor = Some s0 /\
                 run_adds viot_addition md s0 ops = Some s /\
                 tbl_image s = r.
Proof. intros md ctor ops r H. exact (accepted_refines (viot_refines_calls md ctor ops r H)). Qed.

Corollary viot_case_refines md ctor ops r :
  ts_image viot_spec ctor ops = Some r ->
  exists evs, Forall (fun e => match e with EvNum _ => True | _ => False end) evs /\ length evs = length ops /\
    viot_case md (SL (ctor :: ops ++ [SA 1])) = evs ++ [EvBytes r].
Proof. intros H. exact (case_shape (viot_refines_calls md ctor ops r H)). Qed.

Print Assumptions viot_refines.
Print Assumptions viot_case_refines.
