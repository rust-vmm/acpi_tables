(* MCFG: the table-specific obligations of the generic history invariant. *)
From Coq Require Import ZArith List.
From ACPI Require Import Lib.Bytes Impl.Table Impl.Mcfg Proofs.TableP Proofs.Tables Proofs.FixedP Proofs.BaseP.
Import ListNotations.
Open Scope N_scope.

Lemma mcfg_new_inv c s0 : mcfg_new c = Some s0 -> Inv2 KMcfg s0.
Proof. intros H. exact (plain_new_inv KMcfg _ _ c s0 H eq_refl). Qed.

(* the claimed 16 bytes (size_of::<EcamEntry>()) are what the packed entry serialises to, for every argument value *)
Lemma mcfg_addition_sound s o e : t_kind s = KMcfg -> mcfg_addition s o = Some e ->
  a_claimed e = N.of_nat (length (a_bytes e)) /\
  (needs_pos (t_kind s) = true -> (1 <= length (a_bytes e))%nat /\ a_claimed e < 2 ^ 16).
Proof.
  intros Hk H. unfold mcfg_addition in H. break_sx H. apply Some_inj in H. subst e. cbn [a_claimed a_bytes].
  split; [rewrite ser_flds_length; reflexivity|]. rewrite Hk. discriminate.
Qed.

Definition mcfg_table : addtable :=
  {| at_name := [77; 67; 70; 71]; at_kind := KMcfg; at_new := mcfg_new; at_entry := mcfg_addition;
     at_new_inv := mcfg_new_inv; at_sound := mcfg_addition_sound |}.

(* C01, C02 for the MCFG *)
Theorem mcfg_sum_len md c ops s0 s :
  mcfg_new c = Some s0 -> run_adds mcfg_addition md s0 ops = Some s -> N.of_nat (length (tbl_image s)) < 2 ^ 32 ->
  sum8 (tbl_image s) = 0 /\ Spec.Layout.field_at (tbl_image s) 4 4 = N.of_nat (length (tbl_image s)).
Proof. exact (addtable_sum_len mcfg_table md c ops s0 s). Qed.
