(* PPTT: the table-specific obligations of the generic history invariant. *)
From Coq Require Import ZArith List Lia.
From ACPI Require Import Lib.Bytes Lib.Machine Impl.Table Impl.Pptt Proofs.TableP Proofs.Tables Proofs.PpttStructP.
Import ListNotations.
Open Scope N_scope.

Lemma pptt_new_inv c s0 : pptt_new c = Some s0 -> Inv2 KPptt s0.
Proof. intros H. exact (plain_new_inv KPptt _ _ c s0 H eq_refl). Qed.

(* ProcessorNode: len() = 20 + 4 * resources is what to_aml_bytes writes; CacheNode: the packed struct has 28 bytes *)
Lemma pptt_addition_sound s o e : t_kind s = KPptt -> pptt_addition s o = Some e ->
  a_claimed e = N.of_nat (length (a_bytes e)) /\
  (needs_pos (t_kind s) = true -> (1 <= length (a_bytes e))%nat /\ a_claimed e < 2 ^ 16).
Proof.
  intros Hk H. split; [|rewrite Hk; discriminate].
  apply pptt_addition_cases in H as (d & _ & _ & ->). cbn [pptt_node_addition a_claimed a_bytes].
  rewrite pptt_node_claimed_size, pptt_node_length. reflexivity.
Qed.

Definition pptt_table : addtable :=
  {| at_name := [80; 80; 84; 84]; at_kind := KPptt; at_new := pptt_new; at_entry := pptt_addition;
     at_new_inv := pptt_new_inv; at_sound := pptt_addition_sound |}.
