(* The Checksum accumulator of Impl/Checksum.v against a sum over the integers: [op_added], [op_removed] and [net] are the
   reference notions C17 is stated with. *)
From Coq Require Import ZArith List Lia.
From ACPI Require Import Lib.Bytes Impl.Checksum Spec.ChecksumS.
Import ListNotations.

Open Scope Z_scope.

(* the same function as Spec/ChecksumS.zsumS (`zsumS_zsum` below) *)
Fixpoint zsum (l : list N) : Z :=
  match l with [] => 0 | x :: r => Z.of_N x + zsum r end.

Lemma zsumS_zsum l : zsumS l = zsum l.
Proof. induction l as [|x l IH]; cbn [zsumS zsum]; [reflexivity|]. now rewrite IH. Qed.

Lemma zsum_app a b : zsum (a ++ b) = zsum a + zsum b.
Proof. induction a as [|x a IH]; cbn [zsum app]; lia. Qed.

Lemma zsum_sumN l : zsum l = Z.of_N (sumN l).
Proof. induction l as [|x l IH]; cbn [zsum sumN]; lia. Qed.

Lemma zsum_sum8 l : exists k : Z, (zsum l = Z.of_N (sum8 l) + 256 * k)%Z.
Proof.
  unfold sum8. rewrite zsum_sumN. exists (Z.of_N (sumN l / 256)). lia.
Qed.

(* wide-integer reference: what each operation adds / removes *)
Definition op_added (o : ckop) : Z :=
  match o with
  | CkAdd b | CkByte b => Z.of_N b
  | CkAppend l | CkVec l => zsum l
  | CkWord x => zsum (le 2 x)
  | CkDword x => zsum (le 4 x)
  | CkQword x => zsum (le 8 x)
  | CkSub _ | CkDelete _ => 0
  end.

Definition op_removed (o : ckop) : Z :=
  match o with
  | CkSub b => Z.of_N b
  | CkDelete l => zsum l
  | _ => 0
  end.

Fixpoint net (ops : list ckop) : Z :=
  match ops with [] => 0 | o :: r => op_added o - op_removed o + net r end.

Lemma wadd8_Z a x : Z.of_N (wadd8 a x) = (Z.of_N a + Z.of_N x) mod 256.
Proof. unfold wadd8. lia. Qed.

Lemma wsub8_Z a x : Z.of_N (wsub8 a x) = (Z.of_N a - Z.of_N x) mod 256.
Proof. unfold wsub8. lia. Qed.

Lemma fold_wadd8_Z l a : Z.of_N (fold_left wadd8 l a) mod 256 = (Z.of_N a + zsum l) mod 256.
Proof.
  revert a; induction l as [|x l IH]; intros a; cbn [fold_left zsum].
  - f_equal. lia.
  - rewrite IH, wadd8_Z. rewrite Zplus_mod_idemp_l. f_equal. lia.
Qed.

Lemma fold_wsub8_Z l a : Z.of_N (fold_left wsub8 l a) mod 256 = (Z.of_N a - zsum l) mod 256.
Proof.
  revert a; induction l as [|x l IH]; intros a; cbn [fold_left zsum].
  - f_equal. lia.
  - rewrite IH, wsub8_Z. rewrite Zminus_mod_idemp_l. f_equal. lia.
Qed.

Lemma fold_wadd8_lt l a : (a < 256)%N -> (fold_left wadd8 l a < 256)%N.
Proof.
  revert a; induction l as [|x l IH]; intros a H; cbn [fold_left]; [exact H|].
  apply IH. unfold wadd8. apply N.mod_lt. lia.
Qed.

Lemma fold_wsub8_lt l a : (a < 256)%N -> (fold_left wsub8 l a < 256)%N.
Proof.
  revert a; induction l as [|x l IH]; intros a H; cbn [fold_left]; [exact H|].
  apply IH. unfold wsub8. apply N.mod_lt. lia.
Qed.

Lemma ck_step_lt s o : (s < 256)%N -> (ck_step s o < 256)%N.
Proof.
  intros H. destruct o; cbn [ck_step]; unfold ck_add, ck_sub, ck_append, ck_delete, ck_sink_byte,
    ck_sink_word, ck_sink_dword, ck_sink_qword, ck_sink_vec, ck_add;
    try (apply fold_wadd8_lt; exact H); try (apply fold_wsub8_lt; exact H);
    unfold wadd8, wsub8; apply N.mod_lt; lia.
Qed.

Lemma ck_step_Z s o : Z.of_N (ck_step s o) mod 256 = (Z.of_N s + op_added o - op_removed o) mod 256.
Proof.
  destruct o; cbn [ck_step op_added op_removed];
    unfold ck_add, ck_sub, ck_append, ck_delete, ck_sink_byte, ck_sink_word, ck_sink_dword,
      ck_sink_qword, ck_sink_vec;
    try (change (fold_left ck_add) with (fold_left wadd8));
    rewrite ?fold_wadd8_Z, ?fold_wsub8_Z, ?wadd8_Z, ?wsub8_Z, ?Zmod_mod; f_equal; lia.
Qed.

Lemma ck_fold_Z ops s :
  Z.of_N (fold_left ck_step ops s) mod 256 = (Z.of_N s + net ops) mod 256.
Proof.
  revert s; induction ops as [|o ops IH]; intros s; cbn [fold_left net].
  - f_equal. lia.
  - rewrite IH. rewrite <- Zplus_mod_idemp_l. rewrite ck_step_Z. rewrite Zplus_mod_idemp_l. f_equal. lia.
Qed.

(* as the table invariants use it: a running checksum that is congruent to a sum stays so, the sum moving by [net] *)
Lemma ck_fold_tracks ops s x :
  Z.of_N s mod 256 = x mod 256 -> Z.of_N (fold_left ck_step ops s) mod 256 = (x + net ops) mod 256.
Proof. intros H. now rewrite ck_fold_Z, <- Zplus_mod_idemp_l, H, Zplus_mod_idemp_l. Qed.

Lemma ck_fold_lt ops s : (s < 256)%N -> (fold_left ck_step ops s < 256)%N.
Proof.
  revert s; induction ops as [|o ops IH]; intros s H; cbn [fold_left]; [exact H|].
  apply IH. now apply ck_step_lt.
Qed.

(* a history that adds and removes the same amount (mod 256) returns to the state it started from: the inverses of C17 *)
Lemma ck_net_zero ops s : (s < 256)%N -> net ops mod 256 = 0 -> fold_left ck_step ops s = s.
Proof.
  intros H E. pose proof (ck_fold_Z ops s) as HZ. pose proof (ck_fold_lt ops s H) as Hlt.
  rewrite <- Zplus_mod_idemp_r, E, Z.add_0_r in HZ. lia.
Qed.

(* in particular an operation that removes what the previous one added, and adds what it removed *)
Lemma ck_undo o1 o2 s : (s < 256)%N -> op_added o1 = op_removed o2 -> op_removed o1 = op_added o2 ->
  ck_step (ck_step s o1) o2 = s.
Proof. intros H E1 E2. apply (ck_net_zero [o1; o2] s H). cbn [net]. rewrite E1, E2. lia. Qed.

Lemma ck_value_spec s : (s < 256)%N -> ((ck_raw s + ck_value s) mod 256 = 0)%N /\ (ck_value s < 256)%N.
Proof. unfold ck_raw, ck_value. intros H. split; lia. Qed.

(* chunking: the sink entry points add exactly the little-endian bytes, one at a time *)
Lemma ck_sink_vec_append s l : ck_sink_vec s l = ck_append s l.
Proof. reflexivity. Qed.

Lemma ck_append_app s a b : ck_append s (a ++ b) = ck_append (ck_append s a) b.
Proof. unfold ck_append. apply fold_left_app. Qed.

Lemma ck_append_sum8 s l : (s < 256)%N -> ck_append s l = ((s + sumN l) mod 256)%N.
Proof. intros H. unfold ck_append. now apply fold_wadd8_mod. Qed.

Lemma ck_append_Z s l : (Z.of_N (ck_append s l) mod 256 = (Z.of_N s + zsum l) mod 256)%Z.
Proof. unfold ck_append. apply fold_wadd8_Z. Qed.

Lemma ck_append_lt s l : (s < 256)%N -> (ck_append s l < 256)%N.
Proof. unfold ck_append. apply fold_wadd8_lt. Qed.

(* generate_checksum: its value, and what the value is for *)
Lemma gen_cks_value l : generate_checksum l = ((256 - sumN l mod 256) mod 256)%N.
Proof.
  unfold generate_checksum, ck_value. rewrite fold_wadd8_mod, N.add_0_l by lia.
  pose proof (N.mod_lt (sumN l) 256 ltac:(lia)) as H. generalize dependent (sumN l mod 256)%N. intros s H. f_equal. lia.
Qed.

Lemma generate_checksum_spec l :
  ((sumN l + generate_checksum l) mod 256 = 0)%N /\ (generate_checksum l < 256)%N.
Proof.
  unfold generate_checksum. rewrite fold_wadd8_mod by lia. rewrite N.add_0_l.
  pose proof (N.mod_lt (sumN l) 256 ltac:(lia)) as Hlt.
  destruct (ck_value_spec (sumN l mod 256) Hlt) as [H1 H2]. split; [|exact H2].
  unfold ck_raw in H1. rewrite <- N.add_mod_idemp_l by lia. exact H1.
Qed.

Lemma sumN_b1 x : sumN (b1 x) = (x mod 256)%N.
Proof. unfold b1. cbn [le sumN]. lia. Qed.

Lemma zsum_b1 x : zsum (b1 x) = Z.of_N (x mod 256).
Proof. now rewrite zsum_sumN, sumN_b1. Qed.

(* C01 from scratch: the byte that was 0 while generate_checksum summed the whole image, replaced by the result *)
Lemma sum8_patched a b : sum8 (a ++ b1 (generate_checksum (a ++ b1 0 ++ b)) ++ b) = 0%N.
Proof.
  destruct (generate_checksum_spec (a ++ b1 0 ++ b)) as [H Hlt]. set (g := generate_checksum _) in *.
  unfold sum8. etransitivity; [|exact H]. f_equal.
  rewrite !sumN_app, !sumN_b1, (N.mod_small g 256 Hlt). change (0 mod 256)%N with 0%N. lia.
Qed.
