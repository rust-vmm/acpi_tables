(* HMAT: accepted additions are self-describing entries (type u16, reserved u16, length u32) -- the walk instance for C03 --
   and the count / length fields inside the structures hold the true values or the addition is refused (C18).

   Sites (hmat.rs):
     MemoryProximityDomain        dword 4 = 40 (fixed-size packed struct)
     MemorySideCache              word 30 = smbios_handles.len() as u16     guarded by assert!(len <= u16::MAX)
                                  dword 4 = self.len() as u32 = 32 + 2 * handles (at most 131 102 once the count fits)
     SystemLocality               dword 4 = self.len() as u32               guarded by assert!(self.len() <= u32::MAX)
                                  dword 12 = initiators.len() as u32        (cannot exceed the length)
                                  dword 16 = targets.len() as u32           (cannot exceed the length) *)
From Coq Require Import NArith List Lia.
From ACPI Require Import Lib.Bytes Lib.Sx Lib.Machine Impl.Table Impl.Hmat Spec.Layout Proofs.TableP Proofs.WalkP Proofs.Tables Proofs.HmatP Proofs.WalkW3Common Proofs.BaseP Proofs.HmatStructP.
Import ListNotations.
Open Scope N_scope.

Lemma hmat_new_empty c s0 : hmat_new c = Some s0 -> t_ents s0 = [].
Proof. exact (plain_new_empty KHmat _ _ c s0). Qed.

Lemma hmat_new_shape c s0 : hmat_new c = Some s0 -> exists h, s0 = tbl_new KHmat h [].
Proof. exact (plain_new_shape KHmat _ _ c s0). Qed.

(* every accepted structure is shorter than 2^32 bytes and describes itself: its length dword holds its true size *)
Lemma hmat_addition_fits md s o e : hmat_addition md s o = Some e -> N.of_nat (length (a_bytes e)) < 2 ^ 32.
Proof.
  intros H. apply hmat_addition_cases in H as (d & _ & Hfit & ->). cbn [hmat_struct_addition hmat_add a_bytes].
  rewrite hmat_struct_length. exact (hmat_struct_small d Hfit).
Qed.

Lemma hmat_addition_self' md s o e : hmat_addition md s o = Some e -> exists ty, self_describing H_u16_u16_u32 (a_bytes e) ty.
Proof. intros H. apply hmat_addition_cases in H as (d & _ & Hfit & ->). eexists. exact (hmat_struct_self d Hfit). Qed.

Definition hmat_walk (md : mode) : walktable :=
  {| wt_table := hmat_table md; wt_ehdr := H_u16_u16_u32; wt_self := hmat_addition_self' md; wt_new_empty := hmat_new_empty |}.

(* C18 for every HMAT addition: the length dword is the number of bytes the structure occupies *)
Lemma hmat_length_exact md s o e : hmat_addition md s o = Some e -> field_at (a_bytes e) 4 4 = N.of_nat (length (a_bytes e)).
Proof. exact (walktable_entry_len_field (hmat_walk md) 2 2 4 s o e eq_refl). Qed.

Lemma hmat_prox_exact md s ipd mpd e : hmat_addition md s (SL [SA 1; SA ipd; SA mpd]) = Some e ->
  field_at (a_bytes e) 4 4 = 40 /\ length (a_bytes e) = 40%nat.
Proof. intros H. apply Some_inj in H. subst e. split; reflexivity. Qed.

(* C18, memory side cache: the SMBIOS handle count and the structure length are the true values *)
Lemma hmat_msc_exact md s pd size total level assoc policy line hs e :
  hmat_addition md s (SL [SA 3; SA pd; SA size; SA total; SA level; SA assoc; SA policy; SA line; SL hs]) = Some e ->
  field_at (a_bytes e) 30 2 = N.of_nat (length hs) /\
  field_at (a_bytes e) 4 4 = N.of_nat (length (a_bytes e)) /\
  N.of_nat (length (a_bytes e)) = 32 + 2 * N.of_nat (length hs).
Proof.
  intros H. pose proof (hmat_length_exact _ _ _ _ H) as Hlen. apply hmat_addition_cases in H as (d & Hop & Hfit & ->).
  inversion Hop as [| |? ? ? ? ? ? ? ? handles Eh]; subst. clear Hop. cbn [hmat_struct_addition hmat_add a_bytes] in *.
  cbn [hmat_struct_asserts] in Hfit. rewrite <- (sx_nums_length _ _ Eh). split; [|split; [exact Hlen|]].
  - apply (hmat_struct_field_below (HMsc _ _ _ handles) 30 2 _ 65536 eq_refl eq_refl). lia.
  - rewrite hmat_struct_length. cbn [hmat_struct_size]. lia.
Qed.

(* an MSC whose handle count fits the 16-bit field is accepted *)
Lemma hmat_msc_accepts md s pd size total level assoc policy line hs handles :
  sx_nums hs = Some handles -> N.of_nat (length hs) <= 65535 ->
  exists e, hmat_addition md s (SL [SA 3; SA pd; SA size; SA total; SA level; SA assoc; SA policy; SA line; SL hs]) = Some e.
Proof.
  intros Eh Hle. eexists. apply (hmat_addition_intro md s _ _ (HOpMsc md pd size total level assoc policy line hs handles Eh)).
  cbn [hmat_struct_asserts]. now rewrite (sx_nums_length _ _ Eh).
Qed.

(* C18, memory side cache: more handles than the 16-bit count can hold are refused, in both build profiles *)
Lemma hmat_msc_refuses md s pd size total level assoc policy line hs : 2 ^ 16 <= N.of_nat (length hs) ->
  hmat_addition md s (SL [SA 3; SA pd; SA size; SA total; SA level; SA assoc; SA policy; SA line; SL hs]) = None.
Proof.
  intros Hbig. apply no_Some_None. intros e E. apply hmat_addition_cases in E as (d & Hop & Hfit & _).
  inversion Hop as [| |? ? ? ? ? ? ? ? handles Eh]; subst.
  cbn [hmat_struct_asserts] in Hfit. rewrite (sx_nums_length _ _ Eh) in Hfit.
  change (2 ^ 16) with 65536 in Hbig. lia.
Qed.

Corollary hmat_msc_refuses_step md s pd size total level assoc policy line hs : 2 ^ 16 <= N.of_nat (length hs) ->
  hmat_step md s (SL [SA 3; SA pd; SA size; SA total; SA level; SA assoc; SA policy; SA line; SL hs]) = None.
Proof. intros H. apply add_step_refused. now apply hmat_msc_refuses. Qed.

(* C18, system locality: the length dword, the initiator count and the target count are the true values, and the matrix
   has ni * nt cells (the usize product did not wrap); an accepted structure is shorter than 2^32 bytes, so the second
   hypothesis holds of itself *)
Lemma hmat_sysloc_exact md s lt dt mts unit ni nt bs e :
  hmat_addition md s (SL [SA 2; SA lt; SA dt; SA mts; SA unit; SA ni; SA nt; SL bs]) = Some e ->
  N.of_nat (length (a_bytes e)) < 2 ^ 32 ->
  field_at (a_bytes e) 4 4 = N.of_nat (length (a_bytes e)) /\
  field_at (a_bytes e) 12 4 = ni /\
  field_at (a_bytes e) 16 4 = nt /\
  N.of_nat (length (a_bytes e)) = 32 + 4 * ni + 4 * nt + 2 * (ni * nt).
Proof.
  intros H _. split; [exact (hmat_length_exact _ _ _ _ H)|]. apply hmat_addition_cases in H as (d & Hop & Hfit & ->).
  inversion Hop as [|? ? ? ? ? ? ? sl0 sl En Eb|]; subst. clear Hop.
  destruct (sysloc_built _ _ _ _ _ _ _ _ _ _ En Eb Hfit) as (Hi & Ht & He).
  cbn [hmat_struct_addition hmat_add a_bytes]. rewrite hmat_struct_length. split; [|split].
  - rewrite <- Hi. apply (hmat_struct_field32 _ 12 _ Hfit eq_refl). cbn [hmat_struct_size]. lia.
  - rewrite <- Ht. apply (hmat_struct_field32 _ 16 _ Hfit eq_refl). cbn [hmat_struct_size]. lia.
  - cbn [hmat_struct_size]. lia.
Qed.

(* the usize product of SystemLocality::new: refused in the debug profile when it does not fit (the only refusal inside `new`) *)
Lemma hmat_sysloc_product_refuses s lt dt mts unit ni nt bs : 2 ^ 64 <= ni * nt ->
  hmat_addition Checked s (SL [SA 2; SA lt; SA dt; SA mts; SA unit; SA ni; SA nt; SL bs]) = None.
Proof.
  intros Hbig. cbn [hmat_addition]. unfold sysloc_new, mul_m.
  destruct (N.ltb_spec (ni * nt) U64) as [Hlt|_]; [unfold U64 in Hlt; lia|]. reflexivity.
Qed.

(* The System Locality length and count narrowings are guarded (assert!(self.len() <= u32::MAX) in the serialiser): a structure
   of 2^32 bytes or more is refused in both profiles.  The first hypothesis is not used: an accepted structure is below 2^32
   bytes, so ni, nt < 2^30 and the usize product has not wrapped (`sysloc_built`, through `hmat_sysloc_exact`) *)
Lemma hmat_sysloc_refuses md s lt dt mts unit ni nt bs :
  ni * nt < 2 ^ 64 -> 2 ^ 32 <= 32 + 4 * ni + 4 * nt + 2 * (ni * nt) ->
  hmat_addition md s (SL [SA 2; SA lt; SA dt; SA mts; SA unit; SA ni; SA nt; SL bs]) = None.
Proof.
  intros _. apply refused_by_size; intros e He.
  - exact (proj2 (proj2 (proj2 (hmat_sysloc_exact _ _ _ _ _ _ _ _ _ e He (hmat_addition_fits _ _ _ e He))))).
  - exact (hmat_addition_fits _ _ _ e He).
Qed.

Lemma hmat_sysloc_refuses_step md md' s lt dt mts unit ni nt bs :
  ni * nt < 2 ^ 64 -> 2 ^ 32 <= 32 + 4 * ni + 4 * nt + 2 * (ni * nt) ->
  add_step (hmat_addition md) md' s (SL [SA 2; SA lt; SA dt; SA mts; SA unit; SA ni; SA nt; SL bs]) = None.
Proof. intros Hp Hbig. apply add_step_refused. now apply hmat_sysloc_refuses. Qed.

(* C03 for the HMAT, both build profiles: `walktable_tiles` (Proofs/Tables.v) at `hmat_walk`, the first-entry offset evaluated *)
Theorem hmat_tiles md md' c ops s0 s :
  hmat_new c = Some s0 -> run_adds (hmat_addition md) md' s0 ops = Some s -> N.of_nat (length (tbl_image s)) < 2 ^ 32 ->
  exists tys,
    Forall2 (self_describing H_u16_u16_u32) (t_ents s) tys /\
    walk (length (t_ents s)) H_u16_u16_u32 40 (skipn 40 (tbl_image s)) = Some (walk_result 40 (t_ents s) tys) /\
    concat (t_ents s) = skipn 40 (tbl_image s) /\
    t_cnt s = N.of_nat (length (t_ents s)).
Proof.
  intros Hn Hr Hfit. pose proof (walktable_tiles (hmat_walk md) md' c ops s0 s Hn Hr Hfit) as H. cbv zeta in H.
  destruct (addtable_reach (hmat_table md) md' c ops s0 s Hn Hr Hfit) as (_ & Hk & _). cbn [at_kind hmat_table] in Hk.
  rewrite Hk in H. exact H.
Qed.

Definition hw_ctor : sx := SL [SL (map SA [65;66;67;68;69;70]); SL (map SA [1;2;3;4;5;6;7;8]); SA 1].
Definition hw_s0 : tbl := match hmat_new hw_ctor with Some s => s | None => tbl_new KHmat {| h_sig := []; h_rev := 0; h_oem := []; h_tbl := []; h_orev := 0 |} [] end.
Definition hw_msc (n : N) : sx := SL [SA 3; SA 5; SA 4096; SA 1; SA 1; SA 1; SA 1; SA 64; SL (repeatN (SA 7) (N.to_nat n))].
Definition hw_loc (ni nt : N) : sx := SL [SA 2; SA 1; SA 2; SA 3; SA 100; SA ni; SA nt; SL [SL [SA 3; SA 0; SA 9]]].
Definition hw_fields (o : option addition) :=
  option_map (fun e => (field_at (a_bytes e) 0 2, field_at (a_bytes e) 4 4, length (a_bytes e))) o.

Lemma sx_nums_repeatN x n : sx_nums (repeatN (SA x) n) = Some (repeatN x n).
Proof. induction n as [|n IH]; [reflexivity|]. cbn [repeatN sx_nums]. now rewrite IH. Qed.

(* the largest accepted and the smallest refused handle counts, from the lemmas above: evaluating the serialiser on
   65 535 handles is slow to check *)
Example hw_test_msc_65535 :
  forall md, option_map (fun e => (field_at (a_bytes e) 30 2, field_at (a_bytes e) 4 4, N.of_nat (length (a_bytes e))))
                        (hmat_addition md hw_s0 (hw_msc 65535)) = Some (65535, 131102, 131102).
Proof.
  intros md. unfold hw_msc.
  destruct (hmat_msc_accepts md hw_s0 5 4096 1 1 1 1 64 _ _ (sx_nums_repeatN 7 (N.to_nat 65535))) as [e He].
  { rewrite length_repeatN, N2Nat.id. discriminate. }
  destruct (hmat_msc_exact _ _ _ _ _ _ _ _ _ _ _ He) as (Hc & Hl & Hn). rewrite length_repeatN, N2Nat.id in Hc, Hn.
  rewrite He. cbn [option_map]. rewrite Hc, Hl, Hn. reflexivity.
Qed.
Example hw_test_msc_65536 :
  forall md, hmat_addition md hw_s0 (hw_msc 65536) = None /\ hmat_step md hw_s0 (hw_msc 65536) = None /\
             hmat_addition md hw_s0 (hw_msc 70000) = None.
Proof.
  intros md. unfold hw_msc.
  split; [|split]; [apply hmat_msc_refuses|apply hmat_msc_refuses_step|apply hmat_msc_refuses];
    rewrite length_repeatN, N2Nat.id; discriminate.
Qed.
Example hw_test_loc_3_2 :
  forall md, option_map (fun e => (field_at (a_bytes e) 4 4, field_at (a_bytes e) 12 4, field_at (a_bytes e) 16 4, length (a_bytes e)))
                        (hmat_addition md hw_s0 (hw_loc 3 2)) = Some (64, 3, 2, 64%nat).
Proof. intros []; vm_compute; reflexivity. Qed.
Example hw_test_prox : forall md, hw_fields (hmat_addition md hw_s0 (SL [SA 1; SA 7; SA 9])) = Some (0, 40, 40%nat).
Proof. intros []; vm_compute; reflexivity. Qed.

Print Assumptions hmat_new_empty.
Print Assumptions hmat_prox_exact.
Print Assumptions hmat_msc_exact.
Print Assumptions hmat_msc_refuses.
Print Assumptions hmat_msc_refuses_step.
Print Assumptions hmat_sysloc_exact.
Print Assumptions hmat_sysloc_product_refuses.
Print Assumptions hmat_sysloc_refuses.
Print Assumptions hmat_length_exact.
Print Assumptions hmat_tiles.
Print Assumptions hmat_addition_fits.
