(* RIMT: the table-specific obligations of the generic history invariant
   (every device's hand-written len() is the number of bytes its serialiser writes whenever the serialiser does not panic). *)
From Coq Require Import ZArith List Lia.
From ACPI Require Import Lib.Bytes Impl.Table Impl.Rimt Spec.Layout Proofs.Tables Proofs.BaseP Proofs.TableP Proofs.RimtStructP.
Import ListNotations.
Open Scope N_scope.

Lemma rimt_new_inv c s0 : rimt_new c = Some s0 -> Inv2 KRimt s0.
Proof. intros H. exact (plain_new_inv KRimt _ _ c s0 H eq_refl). Qed.

Lemma rimt_addition_sound s o e : t_kind s = KRimt -> rimt_addition s o = Some e ->
  a_claimed e = N.of_nat (length (a_bytes e)) /\
  (needs_pos (t_kind s) = true -> (1 <= length (a_bytes e))%nat /\ a_claimed e < 2 ^ 16).
Proof.
  intros Hk H. split; [|rewrite Hk; discriminate].
  apply rimt_addition_cases in H as (d & _ & Hel & _ & ->). cbn [rimt_dev_addition a_claimed a_bytes].
  rewrite rimt_dev_claimed_size, (rimt_dev_length d Hel). reflexivity.
Qed.

Definition rimt_table : addtable :=
  {| at_name := [82; 73; 77; 84]; at_kind := KRimt; at_new := rimt_new; at_entry := rimt_addition;
     at_new_inv := rimt_new_inv; at_sound := rimt_addition_sound |}.

(* C01, C02 for the RIMT *)
Corollary rimt_history md c ops s0 s :
  rimt_new c = Some s0 -> run_adds rimt_addition md s0 ops = Some s -> N.of_nat (length (tbl_image s)) < 2 ^ 32 ->
  sum8 (tbl_image s) = 0 /\ field_at (tbl_image s) 4 4 = N.of_nat (length (tbl_image s)).
Proof. exact (addtable_sum_len rimt_table md c ops s0 s). Qed.
