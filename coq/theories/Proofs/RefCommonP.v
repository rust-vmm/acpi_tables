(* Refinement of the incrementally maintained tables (Impl/Table.v instances) to their reference images, generic part.
   - Progress (`tbl_add_ok`, `add_step_ok`): an addition that fits the Length field (and the narrower VIOT / RHCT fields) is accepted.
   - `ref_run`: the specification's side of a history.  A specification lays the entries out one after the other while keeping
     some state of its own (offsets of the entries placed so far, MADT's "an IMSIC was added"); `bk_entries_run` turns the
     fold [bk_entries] (Proofs/WalkRefCommon2P.v), the common form of the Specs that keep such offsets, into this relation.
   - `sim_run` / `sim_image`, the one simulation: if, related states given, the model accepts every operation the specification
     accepts, with the same bytes, then it accepts the whole history and its image is the reference table (`lays_out`).  Instances:
     `plain_image` (the Spec keeps no state) and `bk_image` (a [bk_entries] whose state tracks the handles returned so far),
     the latter used as `placed_image` (Spec/PpttS.v [placed]) and `sp_refines` (Spec/RimtS.v [sp_entries]); MadtRefP.v
     instantiates `sim_image` itself.
   - `table3_accepts`: a table constructed from three arguments (constructor [plain_new], Spec image [image3]) accepts a
     history as soon as one of those instances applies from the fresh table; this is what the per-table files of these
     tables apply.
   - Section CaseOfRun: the statement at the level of the case runner of Impl/Run.v.
   - Before the simulation: what a handle reference (104 k) resolves to on the model's side (`resolve_handle`,
     `sp_lookup_handle`) when the Spec's bookkeeping tracks the handles returned so far (`placed_tracks`, `sp_tracks`).
   - Helper facts for the per-entry lemmas: last arguments of setters, byte lists reduced mod 256, the helpers of Spec/RimtS.v,
     and `gas_agrees`, the refinement of the Generic Address Structure that RQSC and HEST embed. *)
From Coq Require Import NArith List Lia Bool Arith.
From ACPI Require Import Lib.Bytes Lib.Sx Lib.Machine Impl.Table Impl.Fields Impl.Run Impl.Madt Impl.Gas
  Spec.Layout Spec.MadtS Spec.PpttS Spec.GasS Spec.RimtS Proofs.WalkP Proofs.WalkRefCommon2P Proofs.TableP Proofs.FixedP Proofs.BitsP Proofs.BaseP.
From ACPI Require Export Proofs.RefTableCommonP Proofs.RefCommonR2P.
Import ListNotations.
Open Scope N_scope.

Lemma tbl_add_ok md s st claimed bytes :
  Inv s -> claimed = N.of_nat (length bytes) ->
  N.of_nat (length (tbl_image s) + length bytes) < 2 ^ 32 ->
  (needs_pos (t_kind s) = true -> (1 <= length bytes)%nat /\ claimed < 2 ^ 16) ->
  (needs_pos (t_kind s) = true -> (length (t_ents s) <= length (tbl_image s))%nat) ->
  (t_kind s = KViot -> N.of_nat (length (tbl_image s) + length bytes) < 2 ^ 16) ->
  exists r, tbl_add md s st claimed bytes = Some r.
Proof.
  (* RHCT's node count cannot overflow before the Length field does: there are no more nodes than bytes *)
  intros I Hcl Hfit Hps Hcnt Hvi. unfold tbl_add.
  unfold cast, U32, U16. rewrite !(N.mod_small claimed (2 ^ 32)) by lia.
  rewrite (inv_len s I), (inv_hoff s I), (inv_cnt s I), (add_c_fits _ claimed) by lia. cbn [option_bind].
  destruct (t_kind s) eqn:Ek; rewrite ?add_m_fits by (try specialize (Hps eq_refl); try specialize (Hcnt eq_refl); lia);
    cbn [option_bind]; try (eexists; reflexivity).
  specialize (Hvi eq_refl). rewrite (N.mod_small claimed), add_c_fits by lia. eexists; reflexivity.
Qed.

(* The specification's side of a history: it keeps a state [g] of its own, and [ref_step g o] gives the bytes of the entry
   that operation [o] adds and the next state. *)
Inductive ref_run {G} (ref_step : G -> sx -> option (list N * G)) : G -> list sx -> list (list N) -> Prop :=
| ref_nil g : ref_run ref_step g [] []
| ref_cons g o e g' ops es :
    ref_step g o = Some (e, g') -> ref_run ref_step g' ops es -> ref_run ref_step g (o :: ops) (e :: es).

(* the specifications that thread a bookkeeping state write this as the fold [bk_entries] (Proofs/WalkRefCommon2P.v), which
   collects the entries in reverse; the bookkeeping state and the offset of the next entry are the specification's state *)
Definition bk_step {St} (entry : St -> sx -> option (list N)) (step : St -> N -> list N -> St) (g : St * N) (o : sx)
  : option (list N * (St * N)) :=
  match entry (fst g) o with
  | Some e => Some (e, (step (fst g) (snd g) e, snd g + N.of_nat (length e)))
  | None => None
  end.

Lemma bk_entries_run {St} (entry : St -> sx -> option (list N)) step ops : forall st off racc es,
  bk_entries St entry step ops st off racc = Some es ->
  exists tail, es = rev racc ++ tail /\ ref_run (bk_step entry step) (st, off) ops tail.
Proof.
  induction ops as [|o ops IH]; intros st off racc es H; cbn [bk_entries] in H.
  - injection H as <-. exists []. rewrite frev_rev, app_nil_r. split; [reflexivity|constructor].
  - destruct (entry st o) as [e|] eqn:E; [|discriminate].
    destruct (IH _ _ _ _ H) as (tail & -> & Hrun). exists (e :: tail). cbn [rev]. rewrite <- app_assoc.
    split; [reflexivity|]. econstructor; [|exact Hrun]. unfold bk_step. cbn [fst snd]. now rewrite E.
Qed.

(* a reference entry that does not depend on what was laid out before *)
Definition plain_step (eref : sx -> option (list N)) (_ : unit) (o : sx) : option (list N * unit) :=
  option_map (fun e => (e, tt)) (eref o).

Lemma plain_run eref ops es : Forall2 (fun o e => eref o = Some e) ops es -> ref_run (plain_step eref) tt ops es.
Proof. induction 1 as [|o e ops es H _ IH]; econstructor; [unfold plain_step; rewrite H; reflexivity|exact IH]. Qed.

(* reference entries restricted to well-formed operations *)
Definition wf_only (wf : sx -> bool) (eref : sx -> option (list N)) (o : sx) : option (list N) := if wf o then eref o else None.

Lemma wf_only_map wf eref ops : Forall (fun o => wf o = true) ops -> map (wf_only wf eref) ops = map eref ops.
Proof. induction 1 as [|o ops Ho _ IH]; [reflexivity|]. cbn [map]. rewrite IH. unfold wf_only. now rewrite Ho. Qed.

(* tables whose operations refer to earlier entries by handle (PPTT, RHCT): the specification keeps (type, start offset)
   of every entry placed so far, most recent first, and their number (Spec/PpttS.v [placed]) *)
Definition placed_tracks (p : placed) (hs : list N) : Prop := hs = rev (map snd (fst p)) /\ snd p = N.of_nat (length (fst p)).

Lemma resolve_handle p s ty x v : placed_tracks p (t_handles s) -> resolve p ty x = Some v -> handle_ref s x = Some v.
Proof.
  intros [Hh Hn] H. apply (resolve_nth p ty x v Hn) in H as (k & -> & H). cbn [handle_ref].
  now rewrite Hh, <- map_rev, nth_error_map, H.
Qed.

Lemma placed_tracks_step ty p hs off e : placed_tracks p hs -> placed_tracks (pl_step ty p off e) (hs ++ [off]).
Proof. intros [Hh Hn]. unfold placed_tracks. cbn [pl_step fst snd map rev length]. rewrite Hh, Hn. split; [reflexivity|lia]. Qed.

(* the same for the Specs built with [sp_entries] (Spec/RimtS.v: RIMT, VIOT), which keep (start, type) and the number *)
Definition sp_tracks (st : sp_st) (hs : list N) : Prop := hs = rev (map fst (snd st)) /\ fst st = length (snd st).

Lemma sp_lookup_handle s n rs x off ty :
  sp_tracks (n, rs) (t_handles s) -> sp_lookup n rs x = Some (off, ty) -> handle_ref s x = Some off.
Proof.
  intros [Hh Hn] H. cbn [fst snd] in Hh, Hn. apply (sp_lookup_nth n rs x _ Hn) in H as (k & -> & H). cbn [handle_ref].
  now rewrite Hh, <- map_rev, nth_error_map, H.
Qed.

Lemma sp_tracks_step st hs off e : sp_tracks st hs -> sp_tracks (sp_step st off e) (hs ++ [off]).
Proof. intros [Hh Hn]. unfold sp_tracks. cbn [sp_step fst snd map rev length]. now rewrite Hh, Hn. Qed.

Section OneTable.
  Variable K : tkind.
  Variable entry : tbl -> sx -> option addition.
  Hypothesis entry_sound : forall s o e, t_kind s = K -> entry s o = Some e ->
    a_claimed e = N.of_nat (length (a_bytes e)) /\
    (needs_pos (t_kind s) = true -> (1 <= length (a_bytes e))%nat /\ a_claimed e < 2 ^ 16).

  (* what the simulation theorems below conclude of a fresh table [s0]: the model accepts [ops] and shows the reference table
     of the entries [es] behind the header and fixed part of [s0], provided that table fits the Length field (and, for
     the VIOT, its 16-bit offsets) *)
  Definition lays_out (md : mode) (s0 : tbl) (ops : list sx) (es : list (list N)) : Prop :=
    let r := ref_table (h_sig (t_hdr s0)) (h_rev (t_hdr s0)) (ha_of (t_hdr s0))
                       (mid K (t_pre s0) (N.of_nat (length es)) ++ concat es) in
    N.of_nat (length r) < 2 ^ 32 -> (K = KViot -> N.of_nat (length r) < 2 ^ 16) ->
    exists s, run_adds entry md s0 ops = Some s /\ tbl_image s = r /\ all_calls ops.

  Lemma add_step_ok md s o e :
    Inv2 K s -> entry s o = Some e ->
    N.of_nat (length (tbl_image s) + length (a_bytes e)) < 2 ^ 32 ->
    (K = KViot -> N.of_nat (length (tbl_image s) + length (a_bytes e)) < 2 ^ 16) ->
    exists s', add_step entry md s o = Some (s', [EvNum (if a_returns e then N.of_nat (length (tbl_image s)) else 0)]) /\
      Inv2 K s' /\ t_ents s' = t_ents s ++ [a_bytes e] /\
      t_handles s' = t_handles s ++ [N.of_nat (length (tbl_image s))] /\
      t_hdr s' = t_hdr s /\ t_pre s' = t_pre s /\ t_flag s' = a_flag e /\
      length (tbl_image s') = (length (tbl_image s) + length (a_bytes e))%nat.
  Proof.
    intros I2 He Hfit Hvi. pose proof I2 as (I & HK & _).
    destruct (entry_sound s o e HK He) as (Hcl & Hps).
    destruct (tbl_add_ok md s (a_style e) (a_claimed e) (a_bytes e) I Hcl Hfit Hps (Inv2_ents_fit K s I2)) as [[s1 h] E];
      [intros Hk; apply Hvi; congruence|].
    (* the step is accepted; what it does to the state is [add_step_inv] *)
    assert (Hstep : add_step entry md s o = Some (set_flag s1 (a_flag e), [EvNum (if a_returns e then h else 0)]))
      by (unfold add_step; rewrite He; cbn [option_bind]; rewrite E; reflexivity).
    pose proof (proj2 (tbl_add_image_length _ _ _ _ _ _ _ (inv_hdr s I) E)) as Hlen.
    destruct (add_step_inv K entry entry_sound md s o _ _ I2 Hstep) as (I1 & (e' & He' & He1 & Hh1 & Hev) & _ & Hd1 & Hp1);
      [change (tbl_image (set_flag s1 (a_flag e))) with (tbl_image s1); rewrite Hlen; exact Hfit|].
    rewrite He in He'. apply Some_inj in He'. subst e'. rewrite Hev in Hstep.
    exists (set_flag s1 (a_flag e)). repeat split; try assumption; apply I1.
  Qed.

Section Sim.
  Context {G : Type}.
  Variable ref_step : G -> sx -> option (list N * G).
  Hypothesis ref_step_call : forall g n, ref_step g (SA n) = None.
  (* what relates the two states: the handles returned so far, the offset of the next entry, the flag *)
  Variable rel : G -> list N -> N -> bool -> Prop.
  Hypothesis step_agrees : forall g s o e g',
    rel g (t_handles s) (N.of_nat (length (tbl_image s))) (t_flag s) -> ref_step g o = Some (e, g') ->
    exists a, entry s o = Some a /\ a_bytes a = e /\
      rel g' (t_handles s ++ [N.of_nat (length (tbl_image s))]) (N.of_nat (length (tbl_image s)) + N.of_nat (length e)) (a_flag a).

  Lemma sim_run md ops : forall g s es,
    Inv2 K s -> rel g (t_handles s) (N.of_nat (length (tbl_image s))) (t_flag s) -> ref_run ref_step g ops es ->
    N.of_nat (length (tbl_image s) + length (concat es)) < 2 ^ 32 ->
    (K = KViot -> N.of_nat (length (tbl_image s) + length (concat es)) < 2 ^ 16) ->
    exists s', run_adds entry md s ops = Some s' /\ Inv2 K s' /\ t_ents s' = t_ents s ++ es /\
               t_hdr s' = t_hdr s /\ t_pre s' = t_pre s /\ all_calls ops.
  Proof.
    induction ops as [|o ops IH]; intros g s es I2 HR Hrun Hfit Hvi; inversion Hrun as [|? ? e g' ? es' Hst Hrun']; subst.
    - exists s. cbn [run_adds]. rewrite app_nil_r. split; [reflexivity|]. split; [exact I2|]. repeat split. constructor.
    - destruct o as [n|l]; [rewrite ref_step_call in Hst; discriminate|].
      destruct (step_agrees g s (SL l) e g' HR Hst) as (a & Ha & <- & HR').
      cbn [concat] in Hfit, Hvi. rewrite app_length in Hfit, Hvi.
      destruct (add_step_ok md s (SL l) a I2 Ha) as (s1 & Hstep & I1 & He1 & Hh1 & Hd1 & Hp1 & Hf1 & Hl1);
        [lia|intros HK; specialize (Hvi HK); lia|].
      destruct (IH g' s1 es' I1) as (s' & Hr & I' & He' & Hd' & Hp' & Hall); try assumption.
      + rewrite Hh1, Hl1, Hf1, Nat2N.inj_add. exact HR'.
      + rewrite Hl1. lia.
      + intros HK. specialize (Hvi HK). rewrite Hl1. lia.
      + exists s'. cbn [run_adds]. rewrite Hstep. split; [exact Hr|]. split; [exact I'|].
        rewrite He', He1, <- app_assoc. repeat split; try congruence. constructor; [exact Logic.I|exact Hall].
  Qed.

  (* from a fresh table: the model accepts the history and serialises the reference table of the reference entries *)
  Theorem sim_image md s0 g0 ops es :
    Inv2 K s0 -> t_ents s0 = [] -> rel g0 (t_handles s0) (N.of_nat (length (tbl_image s0))) (t_flag s0) ->
    ref_run ref_step g0 ops es ->
    lays_out md s0 ops es.
  Proof.
    intros I0 He0 HR Hrun. cbv delta [lays_out] beta. intros r Hfit Hvi. pose proof I0 as (I & HK & _).
    assert (Hr : length r = (length (tbl_image s0) + length (concat es))%nat).
    { unfold r. rewrite (length_ref_table _ _ (inv_hdr s0 I)), (length_image s0 (inv_hdr s0 I)), app_length, length_mid.
      unfold t_body. rewrite He0, HK. cbn [concat length]. lia. }
    rewrite Hr in Hfit, Hvi.
    destruct (sim_run md ops g0 s0 es I0 HR Hrun Hfit Hvi) as (s & Hs & (Is & HKs & _) & He & Hd & Hp & Hall).
    exists s. split; [exact Hs|]. split; [|exact Hall].
    rewrite (inv_image_ref s Is), (inv_cnt s Is). unfold t_body, r. rewrite HKs, Hd, Hp, He, He0. reflexivity.
  Qed.
End Sim.

(* tables whose reference entries do not depend on what was laid out before *)
Section Plain.
  Variable eref : sx -> option (list N).
  Hypothesis eref_call : forall n, eref (SA n) = None.
  Hypothesis entry_agrees : forall s o e, eref o = Some e -> exists a, entry s o = Some a /\ a_bytes a = e.

  Theorem plain_image md s0 ops es :
    Inv2 K s0 -> t_ents s0 = [] -> Forall2 (fun o e => eref o = Some e) ops es ->
    lays_out md s0 ops es.
  Proof.
    intros I0 He0 HF.
    apply (sim_image (plain_step eref)) with (rel := fun _ _ _ _ => True) (g0 := tt);
      [|..|exact I0|exact He0|exact Logic.I|exact (plain_run eref ops es HF)].
    - intros g n. unfold plain_step. now rewrite eref_call.
    - intros g s o e g' _ H. unfold plain_step in H. destruct (eref o) as [e'|] eqn:E; [|discriminate]. injection H as <- <-.
      destruct (entry_agrees s o e' E) as (a & Ha & Hb). now exists a.
  Qed.
End Plain.

(* the specification threads a bookkeeping state [St] ([bk_entries]) that [tracks] the handles returned so far *)
Section Bk.
  Variable St : Type.
  Variable entry_ref : St -> sx -> option (list N).
  Variable step : St -> N -> list N -> St.
  Variable tracks : St -> list N -> Prop.
  Hypothesis tracks_step : forall st hs off e, tracks st hs -> tracks (step st off e) (hs ++ [off]).
  Hypothesis entry_ref_call : forall st n, entry_ref st (SA n) = None.
  (* the per-entry obligation: the model accepts what the Spec accepts, with the same bytes *)
  Hypothesis entry_refines : forall st s o e, tracks st (t_handles s) -> entry_ref st o = Some e ->
    exists a, entry s o = Some a /\ a_bytes a = e.

  Theorem bk_image md s0 st0 ops es :
    Inv2 K s0 -> t_ents s0 = [] -> tracks st0 (t_handles s0) ->
    bk_entries St entry_ref step ops st0 (N.of_nat (36 + length (mid K (t_pre s0) 0))) [] = Some es ->
    lays_out md s0 ops es.
  Proof.
    intros I0 He0 Ht0 Hes. destruct (bk_entries_run _ _ _ _ _ _ _ Hes) as (tail & -> & Hrun).
    apply (sim_image (bk_step entry_ref step)) with (rel := fun g hs next _ => tracks (fst g) hs /\ snd g = next)
                                                    (g0 := (st0, N.of_nat (36 + length (mid K (t_pre s0) 0))));
      [|..|exact I0|exact He0| |exact Hrun].
    - intros g n. unfold bk_step. now rewrite entry_ref_call.
    - intros [st off] s o e g' [Ht Hoff] Hst. unfold bk_step in Hst. cbn [fst snd] in *.
      destruct (entry_ref st o) as [e'|] eqn:E; [|discriminate]. injection Hst as <- <-.
      destruct (entry_refines st s o e' Ht E) as (a & Ha & Hb). exists a. subst off.
      split; [exact Ha|]. split; [exact Hb|]. split; [exact (tracks_step _ _ _ _ Ht)|reflexivity].
    - destruct I0 as (I & HK & _). cbn [fst snd]. split; [exact Ht0|]. rewrite (length_image s0 (inv_hdr s0 I)), HK.
      unfold t_body. rewrite He0. cbn [concat length]. now rewrite Nat.add_0_r.
  Qed.
End Bk.

(* Spec/PpttS.v [placed]: PPTT, RHCT *)
Theorem placed_image (entry_ref : placed -> sx -> option (list N)) ty :
  (forall p n, entry_ref p (SA n) = None) ->
  (forall p s o e, placed_tracks p (t_handles s) -> entry_ref p o = Some e -> exists a, entry s o = Some a /\ a_bytes a = e) ->
  forall md s0 ops es, Inv2 K s0 -> t_ents s0 = [] -> t_handles s0 = [] ->
    pl_entries_from entry_ref ty ops ([], 0) (N.of_nat (36 + length (mid K (t_pre s0) 0))) [] = Some es ->
    lays_out md s0 ops es.
Proof.
  intros Hcall Href md s0 ops es I0 He0 Hh0.
  apply (bk_image placed entry_ref (pl_step ty) placed_tracks (placed_tracks_step ty) Hcall Href md s0 ([], 0) ops es I0 He0).
  rewrite Hh0. split; reflexivity.
Qed.

(* Spec/RimtS.v [sp_entries]: RIMT, VIOT *)
Section SpSim.
  Variable entry_ref : nat -> sp_starts -> sx -> option (list N).
  Hypothesis entry_refines : forall s n rs o e,
    sp_tracks (n, rs) (t_handles s) -> entry_ref n rs o = Some e -> exists a, entry s o = Some a /\ a_bytes a = e.
  Hypothesis entry_ref_call : forall n rs v, entry_ref n rs (SA v) = None.

  Theorem sp_refines md s0 ops es :
    Inv2 K s0 -> t_ents s0 = [] -> t_handles s0 = [] ->
    sp_entries entry_ref ops (N.of_nat (36 + length (mid K (t_pre s0) 0))) 0 [] [] = Some es ->
    lays_out md s0 ops es.
  Proof.
    intros I0 He0 Hh0 Hes. rewrite sp_entries_bk in Hes.
    refine (bk_image sp_st _ sp_step sp_tracks sp_tracks_step (fun st => entry_ref_call _ _) _
              md s0 (0%nat, []) ops es I0 He0 _ Hes).
    - intros [n rs] s. exact (entry_refines s n rs).
    - rewrite Hh0. split; reflexivity.
  Qed.
End SpSim.
End OneTable.

(* A table constructed from three arguments (oem id, table id, oem revision) whose Spec image is [image3]
   (Proofs/WalkRefCommon2P.v); its constructor is [plain_new] (`xsdt_new`, `xsdt_image` and the like are these two by
   conversion).  What is left to show of such a table: that the model follows the history from any fresh table whose
   header and fixed part make [r] the reference table of the entries, which is what the simulation theorems above conclude. *)
Section Table3.
  Variables (K : tkind) (sig : list N) (entry : tbl -> sx -> option addition).
  Variable entries : list sx -> option (list (list N)).
  Hypothesis sig_len : length sig = 4%nat.

  Theorem table3_accepts md ctor ops r : image3 sig K entries ctor ops = Some r ->
    (forall s0 es, Inv2 K s0 -> t_ents s0 = [] -> t_handles s0 = [] -> entries ops = Some es ->
       r = ref_table (h_sig (t_hdr s0)) (h_rev (t_hdr s0)) (ha_of (t_hdr s0))
                     (mid K (t_pre s0) (N.of_nat (length es)) ++ concat es) ->
       exists s, run_adds entry md s0 ops = Some s /\ tbl_image s = r /\ all_calls ops) ->
    exists s0 s, plain_new K sig 1 ctor = Some s0 /\ run_adds entry md s0 ops = Some s /\ tbl_image s = r /\ all_calls ops.
  Proof.
    intros Himg Hsim.
    destruct (image3_inv _ _ _ _ _ _ Himg) as (o & t & rv & [oem tb orev] & es & -> & Eha & Ees & ->).
    assert (Hnew : plain_new K sig 1 (SL [o; t; rv]) = Some (tbl_new K (mk_hdr sig 1 (Build_hdr_args oem tb orev)) []))
      by (cbn [plain_new]; rewrite (sx_hdr_of_args Eha); reflexivity).
    destruct (Hsim _ es (plain_new_inv _ _ _ _ _ Hnew sig_len) eq_refl eq_refl Ees eq_refl) as (s & Hr & Hi & Hc).
    eexists _, s. repeat split; eassumption.
  Qed.
End Table3.

(* the same when the reference entries do not depend on what was laid out before (MCFG, XSDT, HMAT) *)
Section Plain3.
  Variables (K : tkind) (sig : list N) (entry : tbl -> sx -> option addition) (eref : sx -> option (list N)).
  Hypothesis K_not_viot : K <> KViot.
  Hypothesis entry_sound : forall s o e, t_kind s = K -> entry s o = Some e ->
    a_claimed e = N.of_nat (length (a_bytes e)) /\
    (needs_pos (t_kind s) = true -> (1 <= length (a_bytes e))%nat /\ a_claimed e < 2 ^ 16).
  Hypothesis sig_len : length sig = 4%nat.
  Hypothesis eref_call : forall n, eref (SA n) = None.
  Hypothesis entry_agrees : forall s o e, eref o = Some e -> exists a, entry s o = Some a /\ a_bytes a = e.

  Theorem plain3_accepts md ctor ops r :
    image3 sig K (fun ops => opt_concat (map eref ops)) ctor ops = Some r -> N.of_nat (length r) < 2 ^ 32 ->
    exists s0 s, plain_new K sig 1 ctor = Some s0 /\ run_adds entry md s0 ops = Some s /\ tbl_image s = r /\ all_calls ops.
  Proof.
    intros Himg Hfit. apply (table3_accepts K sig entry _ sig_len md ctor ops r Himg). intros s0 es I0 He0 _ Hes ->.
    exact (plain_image K entry entry_sound eref eref_call entry_agrees md s0 ops es I0 He0 (opt_concat_Forall2 _ _ _ Hes) Hfit
             (fun E => False_ind _ (K_not_viot E))).
  Qed.
End Plain3.

(* The refinement at the level of the entry points `<t>_case` (Impl/Run.v [run_history]), which is what the driver compares
   with the crate: for the case "constructor, the calls, one observation" of a history the model accepts, the events are one
   number per call (0 for the calls that return no handle), then the image.  The conjunct [all_calls ops] that the simulation
   theorems carry exists for this section: a marker inside the history would be an observation of its own.  The
   `<t>_case_refines` of the per-table files are its instances. *)
Section CaseOfRun.
  Context {entry : tbl -> sx -> option addition} {md : mode} {new : sx -> option tbl} {ctor : sx} {ops : list sx} {r : list N}.
  Hypothesis accepted : exists s0 s, new ctor = Some s0 /\ run_adds entry md s0 ops = Some s /\ tbl_image s = r /\ all_calls ops.

  Lemma accepted_refines :
    exists s0 s, new ctor = Some s0 /\ run_adds entry md s0 ops = Some s /\ tbl_image s = r.
  Proof. destruct accepted as (s0 & s & Hn & Hr & Hi & _). now exists s0, s. Qed.

  (* one number per call: what an addition reports, the returned offset or 0 *)
  Lemma case_nums (P : N -> Prop) :
    (forall s o a n, entry s o = Some a -> P (if a_returns a then n else 0)) ->
    exists ns, Forall P ns /\ length ns = length ops /\
      run_history (fun s => Some (tbl_image s)) (add_step entry md) new (SL (ctor :: ops ++ [SA 1])) = map EvNum ns ++ [EvBytes r].
  Proof.
    intros HP. destruct accepted as (s0 & s & Hn & Hr & <- & Hc). rewrite run_adds_run_steps in Hr.
    refine (run_history_end _ _ P _ new ctor ops s0 s _ Hc Hn Hr eq_refl).
    intros x o x1 e H. destruct (add_step_num entry md x o x1 e H) as (a & n & Ea & ->).
    eexists. split; [reflexivity|exact (HP x o a n Ea)].
  Qed.

  Lemma case_shape :
    exists evs, Forall (fun e => match e with EvNum _ => True | _ => False end) evs /\ length evs = length ops /\
      run_history (fun s => Some (tbl_image s)) (add_step entry md) new (SL (ctor :: ops ++ [SA 1])) = evs ++ [EvBytes r].
  Proof.
    destruct (case_nums (fun _ => True)) as (ns & _ & Hl & E); [intros; exact Logic.I|].
    exists (map EvNum ns). rewrite map_length. repeat split; try assumption.
    apply Forall_forall. intros e He. apply in_map_iff in He. destruct He as (n & <- & _). exact Logic.I.
  Qed.

  Lemma case_is_num :
    exists evs, Forall is_num evs /\
      run_history (fun s => Some (tbl_image s)) (add_step entry md) new (SL (ctor :: ops ++ [SA 1])) = evs ++ [EvBytes r].
  Proof.
    destruct case_shape as (evs & Hf & _ & E). exists evs. split; [|exact E].
    eapply Forall_impl; [|exact Hf]. intros [n| |]; try contradiction. now exists n.
  Qed.

  Lemma case_zeros : (forall s o a, entry s o = Some a -> a_returns a = false) ->
    run_history (fun s => Some (tbl_image s)) (add_step entry md) new (SL (ctor :: ops ++ [SA 1]))
    = map (fun _ => EvNum 0) ops ++ [EvBytes r].
  Proof.
    intros Hno. destruct (case_nums (eq 0)) as (ns & Hz & Hl & ->); [intros s o a n Ea; now rewrite (Hno s o a Ea)|].
    f_equal. clear - Hz Hl. revert ops Hl. induction Hz as [|n ns <- _ IH]; intros [|o ops] Hl; try discriminate Hl; [reflexivity|].
    cbn [map]. f_equal. apply IH. now injection Hl.
  Qed.
End CaseOfRun.

(* "last value given to a setter" (Spec.MadtS.last_arg), threaded through its accumulator *)
Definition val (acc : option (list N)) : N := match acc with Some (v :: _) => v | _ => 0 end.
Definition val1 (acc : option (list N)) : N := match acc with Some (_ :: v :: _) => v | _ => 0 end.
Definition isS (acc : option (list N)) : bool := match acc with Some _ => true | None => false end.

Lemma arg0_val k st : arg0 k st = val (last_arg k st None).
Proof. reflexivity. Qed.
Lemma arg1_val1 k st : arg1 k st = val1 (last_arg k st None).
Proof. reflexivity. Qed.
Lemma called_isS k st : called k st = isS (last_arg k st None).
Proof. reflexivity. Qed.

Definition mod256 (l : list N) : list N := map (fun b => b mod 256) l.

Lemma assemble_LB off l : assemble (LB off l) = mod256 l.
Proof.
  revert off; induction l as [|x l IH]; intros off; [reflexivity|].
  cbn [LB]. change (assemble ((off, 1%nat, x) :: LB (S off) l)) with ((x mod 256) :: assemble (LB (S off) l)).
  rewrite IH. reflexivity.
Qed.

Lemma mod256_bytes l : bytes_ok l = true -> mod256 l = l.
Proof.
  induction l as [|x l IH]; intros H; [reflexivity|].
  cbn [bytes_ok forallb] in H. apply andb_true_iff in H. destruct H as [Hx Hl].
  unfold is_byte in Hx. apply N.ltb_lt in Hx. cbn [mod256 map]. rewrite (N.mod_small x 256 Hx).
  f_equal. exact (IH Hl).
Qed.

(* bytes laid out one by one are those bytes *)
Lemma assemble_bytes off l : bytes_ok l = true -> assemble (LB off l) = l.
Proof. intros H. rewrite assemble_LB. exact (mod256_bytes l H). Qed.

Lemma bytes_ok_mod256 l : bytes_ok (mod256 l) = true.
Proof.
  induction l as [|x l IH]; [reflexivity|]. cbn [mod256 map bytes_ok forallb]. apply andb_true_iff. split; [|exact IH].
  unfold is_byte. apply N.ltb_lt. apply N.mod_lt. discriminate.
Qed.

Lemma ser_flds_app a b : ser_flds (a ++ b) = ser_flds a ++ ser_flds b.
Proof. unfold ser_flds. now rewrite map_app, concat_app. Qed.

Lemma ser_flds_fbytes l : ser_flds (fbytes l) = mod256 l.
Proof. induction l as [|x l IH]; [reflexivity|]. cbn [fbytes map]. unfold ser_flds in *. cbn [map concat fst snd le app]. unfold fbytes in IH. rewrite IH. reflexivity. Qed.

Lemma bytes_ok_ser_flds f : bytes_ok (ser_flds f) = true.
Proof.
  unfold ser_flds. induction f as [|[w v] f IH]; [reflexivity|].
  cbn [map concat fst snd]. rewrite bytes_ok_app, le_bytes_ok, IH. reflexivity.
Qed.

(* Facts about the helpers of Spec/RimtS.v ([sp_bdf], [sp_all], [sp_lookup]) that RIMT, VIOT and CEDT share.
   PCI bus/device/function: the shifts and ors of as_bdf are the arithmetic of the specification. *)
Lemma bdf_is_reference bus dev fn : bus < 256 -> dev < 32 -> fn < 8 -> bdf bus dev fn = bus * 256 + dev * 8 + fn.
Proof.
  intros Hb Hd Hf. unfold bdf, cast, U16. rewrite !N.mod_small by lia.
  rewrite !N.shiftl_mul_pow2. change (2 ^ 8) with 256. change (2 ^ 3) with 8.
  rewrite (lor_add_low (bus * 256) (dev * 8) 8) by (change (2 ^ 8) with 256; lia).
  rewrite (lor_add_low (bus * 256 + dev * 8) fn 3) by (change (2 ^ 3) with 8; lia).
  reflexivity.
Qed.

Lemma sp_bdf_pci bus dev fn b : sp_bdf bus dev fn = Some b -> pci_ok dev fn = Some tt /\ bdf bus dev fn = b.
Proof.
  unfold sp_bdf, pci_ok, assert.
  destruct (N.ltb_spec bus 256); [|discriminate]. destruct (N.ltb_spec dev 32); [|discriminate].
  destruct (N.ltb_spec fn 8); [|discriminate]. cbn [andb option_bind]. intros HH. inversion HH; subst.
  split; [reflexivity|]. now apply bdf_is_reference.
Qed.

Lemma d4_cast32 x : d4 (cast U32 x) = d4 x.
Proof. unfold d4, cast, U32. exact (le_mod 4 x). Qed.

(* [sp_all] against the model's list decoder [sx_list_all] *)
Lemma sp_all_list_all {A} (f g : sx -> option A) : (forall x a, f x = Some a -> g x = Some a) ->
  forall l r, sp_all f l [] = Some r -> sx_list_all g l = Some r.
Proof.
  intros Hfg l r H. apply sp_all_Forall2 in H. induction H as [|x a l r Hx _ IH]; cbn [sx_list_all]; [reflexivity|].
  now rewrite (Hfg x a Hx), IH.
Qed.

Lemma pci_addr d f r : d < 256 -> f < 256 -> r < 65536 ->
  N.lor (N.lor (N.shiftl (cast U8 d) 32) (N.shiftl (cast U8 f) 16)) (cast U16 r) = d * 2 ^ 32 + f * 2 ^ 16 + r.
Proof.
  intros Hd Hf Hr. unfold cast, U8, U16. rewrite !N.mod_small by (first [exact Hd | exact Hf | exact Hr]).
  rewrite !shiftl_mul.
  assert (P16 : 2 ^ 16 = 65536) by reflexivity. assert (P32 : 2 ^ 32 = 65536 * 65536) by reflexivity.
  rewrite (lor_disjoint (f * 2 ^ 16) d 32) by (rewrite P16, P32; lia).
  replace (d * 2 ^ 32 + f * 2 ^ 16) with ((d * 65536 + f) * 2 ^ 16) by (rewrite P16, P32; lia).
  rewrite (lor_disjoint r _ 16) by (rewrite P16; lia). reflexivity.
Qed.

(* the Generic Address Structure: for each form of the argument the Spec accepts, the model builds the GAS whose fields
   serialise to the reference layout *)
Lemma gas_agrees g gb : gas_ref g = Some gb ->
  exists a b c d e, gas_of_sx g = Some (gas_mk a b c d e) /\ ser_flds (gas_mk a b c d e) = gb.
Proof.
  (* one case per form of the argument the Spec accepts; in each the model's constructor computes to a [gas_mk] whose fields
     serialise to the layout, the PCI form after [pci_addr] *)
  unfold gas_ref. intros H. break_sx H.
  all: cbn [gas_of_sx];
    try match type of H with (if ?c then _ else _) = _ => destruct c eqn:Ec; [|discriminate H] end;
    unfold gas_layout in H; apply lay_some in H; subst gb; do 5 eexists; (split; [reflexivity|]); try reflexivity.
  repeat (apply andb_true_iff in Ec; destruct Ec as [Ec ?]).
  repeat match goal with E : (_ <? _) = true |- _ => apply N.ltb_lt in E end.
  rewrite pci_addr by assumption. reflexivity.
Qed.
