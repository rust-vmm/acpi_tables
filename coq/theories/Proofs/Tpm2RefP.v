(* tpm2.rs (TpmClient1_2: component 25, Tpm2: 23, TpmServer1_2: 24, in this order): the Impl models refine the Specs.
   For every constructor argument and every finite history in the specification's domain, in both build modes, the model
   accepts the history and its byte image is the reference image. *)
From Coq Require Import NArith List Bool.
From ACPI Require Import Proofs.RefCommonP.
From ACPI Require Import Lib.Bytes Lib.Sx Impl.Fields Impl.Tpm2
  Spec.Layout Spec.FixedS Spec.Tpm2S Spec.OptionsS Proofs.FixedP Proofs.CtorOnlyP Proofs.Tpm2P Proofs.RefFixedCommonP Proofs.BaseP Proofs.C11CommonP
  Proofs.SlotsP Proofs.C11Tpm2P.
Import ListNotations.

Open Scope N_scope.

Theorem tpmclient_refines :
  forall md ctor ops r,
    ts_image tpmclient_spec ctor ops = Some r ->
    exists s0 s, tpmclient_new ctor = Some s0 /\
                 run_steps (tpmclient_step md) s0 ops = Some s /\
                 tpmclient_bytes s = r.
Proof.
  intros md ctor ops r H. cbn [ts_image tpmclient_spec fixed_spec] in H.
  apply (ctor_only_refines _ _ _ _ _ _ _ H). clear H. unfold tpmclient_ref. intros H.
  destruct ctor as [|l]; [discriminate|].
  destruct l as [|o [|t [|r0 [|[laml|] [|[lasa|] [|]]]]]]; try discriminate.
  destruct (sx_hdr_args o t r0) as [ha|] eqn:Eh; [|discriminate].
  (* the offsets of the Spec's layout are numerals, so its check evaluates: [r] is the header before the assembled fields *)
  injection H as <-.
  eassert (Hn : tpmclient_new (SL [o; t; r0; SA laml; SA lasa]) = Some _)
    by (unfold tpmclient_new; rewrite (sx_hdr_of_args Eh); reflexivity).
  eexists. split; [exact Hn|].
  eapply (hdr_table_is_ref tpmclient_bytes _ _ _ ha 50); [reflexivity|reflexivity|apply (tpmclient_new_good _ _ Hn)].
Qed.

Lemma start_method_ok_ref sm : start_method_ok sm = existsb (N.eqb sm) [1; 2; 6; 7; 8; 11; 12].
Proof.
  destruct sm as [|p]; [reflexivity|].
  repeat (destruct p as [p|p|]; try reflexivity).
Qed.

(* the domain (set_log_area at most once, no observation marker) and the refinement, from one analysis of the Spec *)
Lemma tpm2_refines_dom ctor ops r :
  ts_image tpm2_spec ctor ops = Some r ->
  no_markers ops = true /\
  forall md, exists s0 s, tpm2_new ctor = Some s0 /\ run_steps (tpm2_step md) s0 ops = Some s /\ tpm2_bytes s = r.
Proof.
  intros H. cbn [ts_image tpm2_spec fixed_spec] in H. unfold tpm2_ref in H.
  destruct ctor as [|l]; [discriminate|].
  destruct l as [|o [|t [|r0 [|[cls|] [|[base|] [|[sm|] [|]]]]]]]; try discriminate.
  cbv zeta in H.
  destruct ((cls <? 2) && existsb (N.eqb sm) [1; 2; 6; 7; 8; 11; 12]) eqn:Hok; [|discriminate].
  destruct (sx_hdr_args o t r0) as [ha|] eqn:Eh; [|discriminate].
  eassert (Hn : tpm2_new (SL [o; t; r0; SA cls; SA base; SA sm]) = Some _)
    by (unfold tpm2_new, platform_class_ok; rewrite (sx_hdr_of_args Eh), start_method_ok_ref, Hok; reflexivity).
  destruct ops as [|op ops].
  - (* no set_log_area *)
    injection H as <-.
    split; [reflexivity|intros md]. eexists. eexists. split; [exact Hn|]. split; [reflexivity|].
    eapply (hdr_table_is_ref tpm2_bytes _ _ _ ha 52); [reflexivity|reflexivity|apply (tpm2_sum_len md _ [] _ _ Hn eq_refl)].
  - (* exactly one set_log_area *)
    destruct op as [n|l]; [discriminate|]. destruct l as [|a l]; [discriminate|].
    destruct a as [kk|]; [|discriminate]. destruct kk as [|p]; [discriminate|]. destruct p; try discriminate.
    destruct l as [|[laml|] [|[lasa|] [|]]]; try discriminate.
    destruct ops as [|op2 ops]; try discriminate.
    injection H as <-. split; [reflexivity|intros md].
    (* the step computes on the constructed state; 52 + 24 overflows in neither build mode *)
    match type of Hn with _ = Some ?s0 =>
      eassert (Hr : run_steps (tpm2_step md) s0 [SL [SA 1; SA laml; SA lasa]] = Some _) by (destruct md; reflexivity) end.
    eexists. eexists. split; [exact Hn|]. split; [exact Hr|].
    eapply (hdr_table_is_ref tpm2_bytes _ _ _ ha 76); [reflexivity|reflexivity|apply (tpm2_sum_len md _ _ _ _ Hn Hr)].
Qed.

Theorem tpm2_refines :
  forall md ctor ops r,
    ts_image tpm2_spec ctor ops = Some r ->
    exists s0 s, tpm2_new ctor = Some s0 /\
                 run_steps (tpm2_step md) s0 ops = Some s /\
                 tpm2_bytes s = r.
Proof. intros md ctor ops r H. exact (proj2 (tpm2_refines_dom ctor ops r H) md). Qed.

(* the packed struct after the header that holds what the Spec reads from the history [ops] *)
Definition srv_flds (ops : list sx) : flds :=
  [F 2 1; F 2 0; F 8 (argn 1 0 ops); F 8 (argn 1 1 ops); F 1 1; F 1 2;
   F 1 (bit (was_called 7 ops) 1 + bit (was_called 6 ops) 2 + bit (was_called 9 ops) 4);
   F 1 (bit (was_called 3 ops) 1 + bit (was_called 2 ops) 2 + bit (was_called 4 ops) 4 + bit (was_called 5 ops) 8);
   F 1 (argn 4 0 ops); F 1 0; F 1 0; F 1 0; F 4 (argn 5 0 ops);
   F 1 (argn 8 0 ops); F 1 (argn 8 1 ops); F 1 (argn 8 2 ops); F 1 (argn 8 3 ops); F 8 (argn 8 4 ops); F 4 0;
   F 1 (argn 9 0 ops); F 1 (argn 9 1 ops); F 1 (argn 9 2 ops); F 1 (argn 9 3 ops); F 8 (argn 9 4 ops);
   F 1 (argn 7 0 ops); F 1 (argn 7 1 ops); F 1 (argn 7 2 ops); F 1 (argn 7 3 ops)].

(* the same struct as a function of what it holds: the setters' argument values [a k i] and the two flag bytes *)
Definition srv_mk (a : N -> nat -> N) (dfl ifl : N) : flds :=
  [F 2 1; F 2 0; F 8 (a 1 0%nat); F 8 (a 1 1%nat); F 1 1; F 1 2; F 1 dfl; F 1 ifl;
   F 1 (a 4 0%nat); F 1 0; F 1 0; F 1 0; F 4 (a 5 0%nat);
   F 1 (a 8 0%nat); F 1 (a 8 1%nat); F 1 (a 8 2%nat); F 1 (a 8 3%nat); F 8 (a 8 4%nat); F 4 0;
   F 1 (a 9 0%nat); F 1 (a 9 1%nat); F 1 (a 9 2%nat); F 1 (a 9 3%nat); F 8 (a 9 4%nat);
   F 1 (a 7 0%nat); F 1 (a 7 1%nat); F 1 (a 7 2%nat); F 1 (a 7 3%nat)].

(* device_flags and interrupt_flags: one bit per setter [k] with [c k] *)
Definition srv_dfl (c : N -> bool) : N := bit (c 7) 1 + bit (c 6) 2 + bit (c 9) 4.
Definition srv_ifl (c : N -> bool) : N := bit (c 3) 1 + bit (c 2) 2 + bit (c 4) 4 + bit (c 5) 8.

(* the bits have distinct positions, so `|=` on the byte is `||` on the bits: a truth table, checked by evaluation *)
Definition on_both (p : bool -> bool) : bool := p true && p false.

Lemma on_both_spec p : on_both p = true -> forall b, p b = true.
Proof. unfold on_both. intros H b. apply andb_true_iff in H. destruct b; apply H. Qed.

Lemma srv_dfl_lor c c' : N.lor (srv_dfl c) (srv_dfl c') = srv_dfl (fun k => c' k || c k).
Proof.
  unfold srv_dfl. apply N.eqb_eq. generalize (c 7) (c 6) (c 9) (c' 7) (c' 6) (c' 9). intros a b d a' b' d'.
  revert d'. apply on_both_spec. revert b'. apply on_both_spec. revert a'. apply on_both_spec.
  revert d. apply on_both_spec. revert b. apply on_both_spec. revert a. apply on_both_spec. reflexivity.
Qed.

Lemma srv_ifl_lor c c' : N.lor (srv_ifl c) (srv_ifl c') = srv_ifl (fun k => c' k || c k).
Proof.
  unfold srv_ifl. apply N.eqb_eq. generalize (c 3) (c 2) (c 4) (c 5) (c' 3) (c' 2) (c' 4) (c' 5). intros a b d e a' b' d' e'.
  revert e'. apply on_both_spec. revert d'. apply on_both_spec. revert b'. apply on_both_spec. revert a'. apply on_both_spec.
  revert e. apply on_both_spec. revert d. apply on_both_spec. revert b. apply on_both_spec. revert a. apply on_both_spec. reflexivity.
Qed.

(* the packed struct that holds the slots [c]; [x k]: setter k was called *)
Definition srv_of (c : N -> option (list N)) (x : N -> bool) : flds :=
  srv_mk (fun k i => match c k with Some l => nth i l 0 | None => 0 end) (srv_dfl x) (srv_ifl x).

Lemma srv_flds_of ops : srv_flds ops = srv_of (fun k => last_call k ops None) (fun k => was_called k ops).
Proof. reflexivity. Qed.

(* per-entry content: the packed struct serialises to the reference layout (Spec/Tpm2S.v `tpmserver_body`), whatever the
   history *)
Lemma tpmserver_entries_are_reference ops : tpmserver_body ops = Some (ser_flds (srv_flds ops)).
Proof. reflexivity. Qed.

Lemma srv_flds_nil : srv_flds [] = tpmserver_body0.
Proof. reflexivity. Qed.

Lemma pci_ok_in_range dev fn : (dev <? 32) && (fn <? 8) = true -> pci_ok dev fn = Some tt.
Proof. intros H. apply andb_true_iff in H. destruct H as [Hd Hf]. unfold pci_ok. rewrite Hd, Hf. reflexivity. Qed.

(* one builder call stores its arguments in the fields of its slot and or-s its bit (0 for the others) into the flag bytes *)
Lemma srv_step c x o : tpmserver_op_ok o = true ->
  exists k args, o = SL (SA k :: args) /\ tcpa_st (srv_of c x) o = Some (srv_of (enter sx_nums c k args) (mark tcpa_calls x o)).
Proof.
  intros Hr. unfold tpmserver_op_ok in Hr. break_sx Hr.
  all: eexists _, _; (split; [reflexivity|]).
  all: unfold srv_of, mark; rewrite <- srv_dfl_lor, <- srv_ifl_lor; generalize (srv_dfl x) (srv_ifl x); intros dfl ifl.
  all: cbn [tcpa_st tpmserver_builder]; try rewrite (pci_ok_in_range _ _ Hr).
  all: simpl (srv_dfl _); simpl (srv_ifl _); rewrite ?N.lor_0_r; reflexivity.
Qed.

(* from the default body the runner accepts every history of the Spec's domain and ends with the Spec's struct *)
Lemma srv_run md s0 ops : sv_body s0 = tpmserver_body0 -> forallb tpmserver_op_ok ops = true ->
  exists s, run_steps (tpmserver_step md) s0 ops = Some s /\ sv_body s = srv_flds ops.
Proof.
  intros Hb Hok. pose proof (srv_body_run md ops s0) as H. rewrite Hb in H.
  change tpmserver_body0 with (srv_of (fun _ => None) (fun _ => false)) in H.
  rewrite (slots_run sx_nums tcpa_st tpmserver_op_ok srv_of (mark tcpa_calls) srv_step ops Hok) in H.
  destruct (run_steps _ s0 ops) as [s|]; [|discriminate H]. exists s. split; [reflexivity|]. injection H as ->.
  rewrite srv_flds_of. unfold srv_of, srv_dfl, srv_ifl. rewrite !marks_of, !orb_false_r. reflexivity.
Qed.

Lemma tpmserver_refines_dom ctor ops r : ts_image tpmserver_spec ctor ops = Some r ->
  no_markers ops = true /\
  forall md, exists s0 s, tpmserver_new ctor = Some s0 /\ run_steps (tpmserver_step md) s0 ops = Some s /\ tpmserver_bytes s = r.
Proof.
  intros H. cbn [ts_image tpmserver_spec fixed_spec] in H. unfold tpmserver_ref in H.
  destruct ctor as [|l]; [discriminate|].
  destruct l as [|o [|t [|r0 [|x l]]]]; try discriminate.
  destruct (forallb tpmserver_op_ok ops) eqn:Hok; [|discriminate].
  split.
  { unfold no_markers. rewrite forallb_forall in *. intros o0 Hin. specialize (Hok o0 Hin). now destruct o0. }
  intros md. destruct (sx_hdr_args o t r0) as [ha|] eqn:Eh; [|discriminate].
  (* rewriting first keeps [injection] from evaluating the Spec's layout of the body *)
  rewrite tpmserver_entries_are_reference in H. injection H as <-.
  eassert (Hn : tpmserver_new (SL [o; t; r0]) = Some _)
    by (unfold tpmserver_new; rewrite (sx_hdr_of_args Eh); reflexivity).
  match type of Hn with _ = Some ?s0 => destruct (srv_run md s0 ops eq_refl Hok) as (s & Hr & Hb) end.
  destruct (srv_frame md _ ops s Hr) as [Hh _].
  eexists. exists s. split; [exact Hn|]. split; [exact Hr|].
  eapply (hdr_table_is_ref tpmserver_bytes _ _ _ ha 100);
    [unfold tpmserver_bytes, tpmserver_bytes_ck; rewrite Hh, Hb; reflexivity|reflexivity|apply (tpmserver_sum_len md _ _ _ _ Hn Hr)].
Qed.

Theorem tpmserver_refines :
  forall md ctor ops r,
    ts_image tpmserver_spec ctor ops = Some r ->
    exists s0 s, tpmserver_new ctor = Some s0 /\
                 run_steps (tpmserver_step md) s0 ops = Some s /\
                 tpmserver_bytes s = r.
Proof. intros md ctor ops r H. exact (proj2 (tpmserver_refines_dom ctor ops r H) md). Qed.

Print Assumptions tpmclient_refines.
Print Assumptions tpm2_refines.
Print Assumptions tpmserver_refines.
