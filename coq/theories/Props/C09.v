(* C09 -- name paths encode to the specification's NameString form and back. *)
From Coq Require Import NArith List.
From ACPI Require Import Lib.Bytes Impl.AmlCore Spec.AmlCoreS Proofs.PathP.
Import ListNotations.
Open Scope N_scope.

(* A path of 1..255 well-formed segments is emitted as: root char if rooted; no prefix / DualNamePrefix /
   MultiNamePrefix + count; the segments verbatim.  The specification's NameString decoder returns the
   same rootedness and segments and stops exactly at the end of the name, whatever follows. *)
Theorem c09_encode_decode :
  forall p r, wf_parts (p_parts p) -> (1 <= length (p_parts p) <= 255)%nat ->
    exists e, path_enc p = Some e /\
              name_decode (e ++ r) = Some (p_root p, p_parts p, r) /\
              name_prefix_ok (length (p_parts p)) (skipn (if p_root p then 1 else 0) e) = true /\
              e = (if p_root p then [0x5C] else []) ++
                  (match length (p_parts p) with 1%nat => [] | 2%nat => [0x2E] | k => [0x2F; N.of_nat k] end)
                  ++ concat (p_parts p).
Proof. exact path_enc_decode. Qed.

(* Path::new recovers exactly the root flag and segments of every well-formed path text. *)
Theorem c09_new_parses :
  forall p, wf_parts (p_parts p) -> p_parts p <> [] -> path_new (render p) = Some p.
Proof. exact path_new_render. Qed.

(* Whatever Path::new accepts is the given text itself (never an altered path), all segments 4 bytes. *)
Theorem c09_new_never_alters :
  forall s p, path_new s = Some p -> render p = s /\ Forall (fun part => length part = 4%nat) (p_parts p).
Proof. exact path_new_sound. Qed.

(* A string with a segment that is not exactly four characters is refused. *)
Theorem c09_refuses_bad_segment :
  forall s,
    let body := match s with c :: r => if c =? 0x5C then r else s | [] => s end in
    (exists part, In part (split_dot [] body) /\ length part <> 4%nat) -> path_new s = None.
Proof. exact path_new_refuse. Qed.

(* Empty paths and paths of more than 255 segments are refused at serialisation (shared with C18). *)
Theorem c09_refuses_count :
  forall p, (length (p_parts p) = 0 \/ 255 < length (p_parts p))%nat -> path_enc p = None.
Proof. exact path_enc_refuse. Qed.

(* "\_SB_.PCI0._HID", and "ABC.DEFG" *)
Example c09_example :
  (do p <- path_new [0x5C; 95; 83; 66; 95; 46; 80; 67; 73; 48; 46; 95; 72; 73; 68]; path_enc p)
  = Some [0x5C; 0x2F; 3; 95; 83; 66; 95; 80; 67; 73; 48; 95; 72; 73; 68]
  /\ path_new [65; 66; 67; 46; 68; 69; 70; 71] = None.
Proof. vm_compute. split; reflexivity. Qed.

Print Assumptions c09_encode_decode.
Print Assumptions c09_new_parses.
Print Assumptions c09_new_never_alters.
Print Assumptions c09_refuses_bad_segment.
Print Assumptions c09_refuses_count.
