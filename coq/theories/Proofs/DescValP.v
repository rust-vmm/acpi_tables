(* Resource descriptors hold the caller's values at the specification's offsets (C10, second half).
   a. the model's descriptor bytes are the Spec layer's reference encoding of the same arguments;
   b. the Spec decoder of Spec/DescDecodeS.v, run on the item the walker cuts out of the model's bytes, returns exactly
      the caller's values;
   c. the same for every descriptor of a resource template, in order. *)
From Coq Require Import NArith List Lia Arith.
From ACPI Require Import Lib.Bytes Lib.Sx Lib.Machine Impl.AmlTerm Spec.AmlCoreS Spec.AmlTermS
  Spec.DescDecodeS Proofs.BitsP Proofs.DescP.
Import ListNotations.
Open Scope N_scope.

(* arguments a caller of the Rust constructors can pass: bool / u8 / u16 / u32 / u64 / the Rust enums *)
Definition desc_in_range (d : desc) : Prop :=
  match d with
  | DMem32 rw base len => rw < 2 /\ base < 2 ^ 32 /\ len < 2 ^ 32
  | DAddr w ty ca rw min max tr =>
      (w = 16 \/ w = 32 \/ w = 64) /\ ty < 3 /\ ca < 4 /\ rw < 2 /\ min < 2 ^ w /\ max < 2 ^ w /\
      match tr with Some t => t < 2 ^ w | None => True end
  | DIO min max al len => min < 2 ^ 16 /\ max < 2 ^ 16 /\ al < 2 ^ 8 /\ len < 2 ^ 8
  | DIrq c e a s n => c < 2 /\ e < 2 /\ a < 2 /\ s < 2 /\ n < 2 ^ 32
  | DReg sp w o ac ad => sp < 2 ^ 8 /\ w < 2 ^ 8 /\ o < 2 ^ 8 /\ ac < 2 ^ 8 /\ ad < 2 ^ 64
  end.

(* the exchange form of a descriptor: codes 20..24 of the vocabulary documented in Spec/AmlTermS.v *)
Definition desc_to_sx (d : desc) : list sx :=
  match d with
  | DMem32 rw base len => [SA 20; SA rw; SA base; SA len]
  | DAddr w ty ca rw min max tr =>
      [SA 21; SA w; SA ty; SA ca; SA rw; SA min; SA max; SL (match tr with Some t => [SA t] | None => [] end)]
  | DIO min max al len => [SA 22; SA min; SA max; SA al; SA len]
  | DIrq c e a s n => [SA 23; SA c; SA e; SA a; SA s; SA n]
  | DReg sp w o ac ad => [SA 24; SA sp; SA w; SA o; SA ac; SA ad]
  end.

(* what the caller asked for, in the words of the specification's fields *)
Definition values_of (d : desc) : dvalue :=
  match d with
  | DMem32 rw base len => VMem32 rw base len
  | DAddr w ty ca rw min max tr =>
      VAddr w ty 0x0C (match ty with 0 => 2 * ca + rw | 1 => 3 | _ => 0 end) 0 min max
            (match ty with 2 => 0 | _ => match tr with Some t => t | None => 0 end end) (max - min + 1)
  | DIO min max al len => VIO 1 min max al len
  | DIrq c e a s n => VIrq c e a s 0 1 [n]
  | DReg sp w o ac ad => VReg sp w o ac ad
  end.

Theorem desc_is_reference d : desc_in_range d -> enc_desc d = ref_desc (desc_to_sx d).
Proof.
  destruct d as [rw base len|w ty ca rw mn mx tr|mn mx al len|c e a s n|sp wd off ac ad]; intros Hr.
  - reflexivity.
  - destruct Hr as (Hw & Hty & Hca & Hrw & _).
    assert (Ety : ty = 0 \/ ty = 1 \/ ty = 2) by lia.
    cbn [enc_desc].
    destruct Hw as [->|[->| ->]];
      change (16 =? 16) with true; change (32 =? 16) with false; change (32 =? 32) with true;
      change (64 =? 16) with false; change (64 =? 32) with false; change (64 =? 64) with true; cbn [option_bind];
      unfold sub_c, add_c;
      destruct tr as [t|]; cbn [desc_to_sx ref_desc];
      change (2 ^ (8 * N.of_nat 2)) with U16; change (2 ^ (8 * N.of_nat 4)) with U32; change (2 ^ (8 * N.of_nat 8)) with U64;
      rewrite (N.ltb_antisym mn mx); destruct (mn <=? mx); cbn [option_bind orb negb];
      try reflexivity;
      match goal with |- context [?x + 1 <? ?m] => destruct (x + 1 <? m) end;
      cbn [option_bind negb]; try reflexivity;
      destruct Ety as [->|[->| ->]]; try rewrite (tflags_mem ca rw Hca Hrw); reflexivity.
  - reflexivity.
  - destruct Hr as (Hc & He & Ha & Hs & _). cbn [enc_desc desc_to_sx ref_desc].
    rewrite (irq_flags c e a s Hc He Ha Hs). reflexivity.
  - reflexivity.
Qed.

Corollary desc_refused_together d :
  desc_in_range d -> (enc_desc d = None <-> ref_desc (desc_to_sx d) = None).
Proof. intros Hr. rewrite (desc_is_reference d Hr). reflexivity. Qed.

Lemma unle1 x : unle [x] = x.
Proof. cbn [unle]. lia. Qed.

Lemma bit0_small x : x < 2 -> bit 0 x = x.
Proof. intros H. unfold bit. rewrite N.pow_0_r, N.div_1_r. now apply N.mod_small. Qed.

(* [unle (le w x) = x], in the shape [cbn [le]] leaves it *)
Ltac rd_le w x H :=
  let E := fresh "E" in
  pose proof (unle_le_small w x H) as E; cbn [le] in E; rewrite !E; clear E.

(* unfold the Spec decoder down to [unle] of slices of the concrete payload *)
Ltac open_decoder :=
  unfold desc_decode, dec_mem32, dec_qword, dec_dword, dec_word, dec_io, dec_irq, dec_reg, lg, sm, rd_field;
  cbn [app le length Nat.eqb firstn skipn Nat.sub]; rewrite ?unle1.

Lemma dec_mem32_ok rw base len :
  rw < 2 -> base < 2 ^ 32 -> len < 2 ^ 32 ->
  desc_decode 0x86 ([rw] ++ le 4 base ++ le 4 len) = Some (VMem32 rw base len).
Proof.
  intros Hrw Hb Hl. open_decoder. rd_le 4%nat base Hb. rd_le 4%nat len Hl. rewrite (bit0_small rw Hrw). reflexivity.
Qed.

(* Word / DWord / QWord address space descriptors: the same five fields, k bytes each *)
Lemma dec_addr_ok (k : nat) tag w ty gf tf g mn mx t ln :
  (k = 2%nat /\ tag = 0x88 /\ w = 16) \/ (k = 4%nat /\ tag = 0x87 /\ w = 32) \/ (k = 8%nat /\ tag = 0x8A /\ w = 64) ->
  g < 2 ^ w -> mn < 2 ^ w -> mx < 2 ^ w -> t < 2 ^ w -> ln < 2 ^ w ->
  desc_decode tag ([ty; gf; tf] ++ le k g ++ le k mn ++ le k mx ++ le k t ++ le k ln) = Some (VAddr w ty gf tf g mn mx t ln).
Proof.
  intros [(-> & -> & ->)|[(-> & -> & ->)|(-> & -> & ->)]] Hg Hmn Hmx Ht Hln; open_decoder.
  - rd_le 2%nat g Hg. rd_le 2%nat mn Hmn. rd_le 2%nat mx Hmx. rd_le 2%nat t Ht. rd_le 2%nat ln Hln. reflexivity.
  - rd_le 4%nat g Hg. rd_le 4%nat mn Hmn. rd_le 4%nat mx Hmx. rd_le 4%nat t Ht. rd_le 4%nat ln Hln. reflexivity.
  - rd_le 8%nat g Hg. rd_le 8%nat mn Hmn. rd_le 8%nat mx Hmx. rd_le 8%nat t Ht. rd_le 8%nat ln Hln. reflexivity.
Qed.

Lemma dec_io_ok mn mx al len :
  mn < 2 ^ 16 -> mx < 2 ^ 16 ->
  desc_decode 0x47 ([1] ++ le 2 mn ++ le 2 mx ++ [al; len]) = Some (VIO 1 mn mx al len).
Proof.
  intros Hmn Hmx. open_decoder. rd_le 2%nat mn Hmn. rd_le 2%nat mx Hmx. reflexivity.
Qed.

Lemma dec_irq_ok c e a s n :
  c < 2 -> e < 2 -> a < 2 -> s < 2 -> n < 2 ^ 32 ->
  desc_decode 0x89 ([c + 2 * e + 4 * a + 8 * s; 1] ++ le 4 n) = Some (VIrq c e a s 0 1 [n]).
Proof.
  intros Hc He Ha Hs Hn.
  assert (C : c = 0 \/ c = 1) by lia. assert (E : e = 0 \/ e = 1) by lia.
  assert (A : a = 0 \/ a = 1) by lia. assert (S : s = 0 \/ s = 1) by lia.
  open_decoder. change (N.to_nat 1) with 1%nat. cbn [Nat.mul Nat.add Nat.eqb seq map Nat.sub firstn skipn andb].
  rd_le 4%nat n Hn.
  destruct C as [->| ->], E as [->| ->], A as [->| ->], S as [->| ->]; reflexivity.
Qed.

Lemma dec_reg_ok sp wd off ac ad :
  ad < 2 ^ 64 -> desc_decode 0x82 ([sp; wd; off; ac] ++ le 8 ad) = Some (VReg sp wd off ac ad).
Proof. intros Had. open_decoder. rd_le 8%nat ad Had. reflexivity. Qed.

Lemma desc_payload_decodes d b :
  desc_in_range d -> enc_desc d = Some b -> desc_decode (desc_tag d) (desc_payload d) = Some (values_of d).
Proof.
  intros Hr Henc. destruct (enc_desc_some d b Henc) as (_ & Hacc). clear Henc.
  destruct d as [rw base len|w ty ca rw mn mx tr|mn mx al len|c e a s n|sp wd off ac ad];
    cbn [desc_in_range desc_tag desc_payload values_of] in *.
  - destruct Hr as (Hrw & Hb & Hl). now apply dec_mem32_ok.
  - destruct Hr as (_ & Hty & Hca & Hrw & Hmn & Hmx & Htr). destruct Hacc as (Hw & Hle & Hfit).
    assert (Ety : ty = 0 \/ ty = 1 \/ ty = 2) by lia.
    replace (match ty with 0 => 2 * ca + rw | 1 => 3 | _ => 0 end)
      with (match ty with 0 => N.lor (cast U8 (N.shiftl ca 1)) rw | 1 => 3 | _ => 0 end)
      by (destruct Ety as [->|[->| ->]]; [rewrite (tflags_mem ca rw Hca Hrw); lia|reflexivity|reflexivity]).
    set (t := match (match ty with 2 => None | _ => tr end) with Some t => t | None => 0 end).
    assert (Et : match ty with 2 => 0 | _ => match tr with Some t => t | None => 0 end end = t)
      by (destruct Ety as [->|[->| ->]]; reflexivity).
    assert (Htw : t < 2 ^ w).
    { rewrite <- Et. destruct Ety as [->|[->| ->]]; destruct tr as [t0|]; try exact Htr; destruct Hw as [->|[->| ->]]; exact eq_refl. }
    rewrite Et. destruct Hw as [->|[->| ->]]; cbn [N.eqb Pos.eqb]; eapply dec_addr_ok; try assumption; auto 7; exact eq_refl.
  - destruct Hr as (Hmn & Hmx & _). now apply dec_io_ok.
  - destruct Hr as (Hc & He & Ha & Hs & Hn). rewrite (irq_flags c e a s Hc He Ha Hs). now apply dec_irq_ok.
  - destruct Hr as (_ & _ & _ & _ & Had). now apply dec_reg_ok.
Qed.

Theorem desc_decode_encode d b :
  desc_in_range d -> enc_desc d = Some b ->
  exists payload, rd_walk 1 b = Some [(desc_tag d, payload)] /\ desc_decode (desc_tag d) payload = Some (values_of d).
Proof.
  intros Hr Henc. exists (desc_payload d). split; [|exact (desc_payload_decodes d b Hr Henc)].
  pose proof (desc_walk d b Henc O []) as Hstep. rewrite app_nil_r in Hstep. exact Hstep.
Qed.

Lemma desc_items_decode ds bs :
  Forall desc_in_range ds -> map enc_desc ds = map Some bs ->
  map decode_item (map (fun d => (desc_tag d, desc_payload d)) ds) = map (fun d => Some (values_of d)) ds.
Proof.
  intros Hr; revert bs; induction Hr as [|d ds Hd _ IH]; intros [|b bs] H; try discriminate H; [reflexivity|].
  injection H as Hb Hrest. cbn [map]. rewrite (IH bs Hrest). unfold decode_item at 1. cbn [fst snd].
  rewrite (desc_payload_decodes d b Hd Hb). reflexivity.
Qed.

Lemma template_decodes_gen md ds b :
  Forall desc_in_range ds ->
  enc md (TResTemplate (map TDesc ds)) = Some b -> N.of_nat (length b) < 2 ^ 63 ->
  exists payload items,
    buffer_decode b = Some (N.of_nat (length payload), payload, []) /\
    (forall fuel, (S (S (length ds)) <= fuel)%nat -> rd_walk fuel payload = Some (items ++ [(0x79, [0])])) /\
    map decode_item items = map (fun d => Some (values_of d)) ds /\
    (length ds + 2 <= length payload)%nat.
Proof.
  intros Hr Henc Hsz.
  destruct (res_template_correct md (map TDesc ds) b [] (is_desc_map ds) Henc Hsz) as (bs & payload & _ & Hm & -> & Hbuf & _).
  rewrite descs_of_map in Hm. rewrite app_nil_r in Hbuf. destruct (rd_walk_descs ds bs Hm) as [Hw Hlen].
  exists (concat bs ++ [0x79; 0]), (map (fun d => (desc_tag d, desc_payload d)) ds).
  split; [exact Hbuf|]. split; [|split; [exact (desc_items_decode ds bs Hr Hm)|]].
  - intros fuel Hf. exact (rd_walk_mono _ _ _ Hw fuel Hf).
  - rewrite app_length. cbn [length]. lia.
Qed.

(* with the fuel the c10 oracle of Spec/AmlTermS.v gives the walker *)
Corollary template_decodes_oracle_fuel md ds b :
  Forall desc_in_range ds ->
  enc md (TResTemplate (map TDesc ds)) = Some b -> N.of_nat (length b) < 2 ^ 63 ->
  exists payload items,
    buffer_decode b = Some (N.of_nat (length payload), payload, []) /\
    rd_walk (S (length payload)) payload = Some (items ++ [(0x79, [0])]) /\
    map decode_item items = map (fun d => Some (values_of d)) ds.
Proof.
  intros Hr Henc Hsz. destruct (template_decodes_gen md ds b Hr Henc Hsz) as (payload & items & H1 & H2 & H3 & H4).
  exists payload, items. split; [exact H1|]. split; [|exact H3]. apply H2. lia.
Qed.
