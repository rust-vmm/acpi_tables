(* The two numeric encodings of AML.  PkgLength (create_pkg_length): decode correctness, lead-byte format, minimality,
   refusal.  Integer constants: round trip, narrowest form, independence of the carrying type. *)
From Coq Require Import NArith List Lia Arith.
From ACPI Require Import Lib.Bytes Lib.Sx Lib.Machine Impl.AmlCore Spec.AmlCoreS Proofs.BitsP.
Import ListNotations.
Open Scope N_scope.

(* PkgLeadByte as the ACPI specification defines it *)
Definition lead_ok (e : list N) : Prop :=
  match e with
  | [] => False
  | [b0] => b0 < 64
  | b0 :: rest => b0 / 64 = N.of_nat (length rest) /\ (b0 / 16) mod 4 = 0 /\ (length rest <= 3)%nat
  end.

Lemma pkg_ll_cases len :
  (len < 63 /\ pkg_ll len = 1) \/ (63 <= len < 4094 /\ pkg_ll len = 2) \/
  (4094 <= len < 1048573 /\ pkg_ll len = 3) \/ (1048573 <= len /\ pkg_ll len = 4).
Proof.
  unfold pkg_ll. change (2 ^ 6 - 1) with 63. change (2 ^ 12 - 2) with 4094. change (2 ^ 20 - 3) with 1048573.
  destruct (N.ltb_spec len 63); [left; lia|].
  destruct (N.ltb_spec len 4094); [right; left; lia|].
  destruct (N.ltb_spec len 1048573); [right; right; left; lia|].
  right; right; right; lia.
Qed.

(* the bytes [pkg_len] returns, as a function of the width [pkg_ll len] and of the total it has computed ([pkg_len_unfold]) *)
Definition pkg_bytes (ll tot : N) : list N :=
  match ll with
  | 1 => [cast U8 tot]
  | 2 => [N.lor (N.shiftl 1 6) (cast U8 (N.land tot 15)); cast U8 (N.shiftr tot 4)]
  | 3 => [N.lor (N.shiftl 2 6) (cast U8 (N.land tot 15)); cast U8 (N.shiftr tot 4);
          cast U8 (N.shiftr tot 12)]
  | _ => [N.lor (N.shiftl 3 6) (cast U8 (N.land tot 15)); cast U8 (N.shiftr tot 4);
          cast U8 (N.shiftr tot 12); cast U8 (N.shiftr tot 20)]
  end.

Lemma nib_val x : cast U8 (N.land x 15) = x mod 16.
Proof. unfold cast, U8. change 15 with (N.ones 4). rewrite N.land_ones. lia. Qed.

Lemma nib_lt x : cast U8 (N.land x 15) < 16.
Proof. rewrite nib_val. now apply N.mod_lt. Qed.

Lemma pkg_bytes_multi k tot : (1 <= k <= 3)%nat ->
  pkg_bytes (N.of_nat (S k)) tot = (N.of_nat k * 64 + tot mod 16) :: le k (tot / 16).
Proof.
  intros Hk. assert (k = 1 \/ k = 2 \/ k = 3)%nat as [->|[->| ->]] by lia;
    cbn [N.of_nat Pos.of_succ_nat Pos.succ pkg_bytes le];
    rewrite lor_shiftl_6, nib_val, !N.shiftr_div_pow2 by apply nib_lt; rewrite ?N.div_div by discriminate; reflexivity.
Qed.

Lemma lead_facts c y : c < 4 -> y < 16 -> (c * 64 + y) / 64 = c /\ ((c * 64 + y) / 16) mod 4 = 0 /\ (c * 64 + y) mod 16 = y.
Proof. intros. repeat split; lia. Qed.

Lemma pkg_decode_multi k y l r : (1 <= k <= 3)%nat -> y < 16 -> length l = k ->
  pkg_decode ((N.of_nat k * 64 + y) :: l ++ r) = Some (y + 16 * unle l, r).
Proof.
  intros Hk Hy <-. destruct (lead_facts (N.of_nat (length l)) y) as (E1 & E2 & E3); [lia|exact Hy|].
  unfold pkg_decode. rewrite E1, E2, E3, N.eqb_refl. clear E1 E2 E3.
  destruct l as [|b1 [|b2 [|b3 [|b4 l]]]]; cbn [length] in Hk; try lia;
    cbn [N.of_nat Pos.of_succ_nat Pos.succ app unle]; rewrite N.mul_0_r, N.add_0_r; reflexivity.
Qed.

Lemma pkg_bytes_ok k tot :
  (k <= 3)%nat -> tot <= pkg_cap (S k) ->
  (forall r, pkg_decode (pkg_bytes (N.of_nat (S k)) tot ++ r) = Some (tot, r)) /\
  lead_ok (pkg_bytes (N.of_nat (S k)) tot) /\ length (pkg_bytes (N.of_nat (S k)) tot) = S k.
Proof.
  intros Hk Hcap. destruct k as [|k].
  - cbn [pkg_cap] in Hcap. cbn [N.of_nat Pos.of_succ_nat pkg_bytes app lead_ok length]. unfold cast, U8, pkg_decode.
    change (2 ^ 8) with 256. rewrite (N.mod_small tot 256), (N.div_small tot 64), (N.mod_small tot 64) by lia.
    repeat split. lia.
  - rewrite pkg_bytes_multi by lia. split; [|split].
    + intros r. cbn [app]. rewrite pkg_decode_multi; [|lia|now apply N.mod_lt|apply length_le].
      rewrite unle_le_small.
      * rewrite N.add_comm, <- N.div_mod by discriminate. reflexivity.
      * apply N.div_lt_upper_bound; [discriminate|]. eapply N.le_lt_trans; [exact Hcap|].
        assert (k = 0 \/ k = 1 \/ k = 2)%nat as [->|[->| ->]] by lia; reflexivity.
    + destruct (lead_facts (N.of_nat (S k)) (tot mod 16)) as (E1 & E2 & _); [lia|now apply N.mod_lt|].
      cbn [le lead_ok length]. rewrite E1, E2, length_le. repeat split. lia.
    + cbn [length]. now rewrite length_le.
Qed.

Lemma pkg_len_unfold md len incl :
  pkg_len md len incl =
  (do tot <- add_m md U64 len (if incl then pkg_ll len else 0);
   do _ <- assert (tot <? 2 ^ 28);
   Some (pkg_bytes (pkg_ll len) tot)).
Proof. reflexivity. Qed.

Lemma length_pkg_bytes ll x : 1 <= ll <= 4 -> N.of_nat (length (pkg_bytes ll x)) = ll.
Proof.
  intros H. assert (ll = 1 \/ ll = 2 \/ ll = 3 \/ ll = 4) as [ -> |[ -> |[ -> | -> ]]] by lia; reflexivity.
Qed.

Lemma pkg_bytes_bytes ll tot : bytes_ok (pkg_bytes ll tot) = true.
Proof.
  assert (Hc : forall x, is_byte (cast U8 x) = true) by (intros x; apply N.ltb_lt, N.mod_lt; discriminate).
  assert (Hl : forall c, c < 4 -> is_byte (N.lor (N.shiftl c 6) (cast U8 (N.land tot 15))) = true).
  { intros c Hc4. rewrite lor_shiftl_6 by apply nib_lt. pose proof (nib_lt tot). apply N.ltb_lt. lia. }
  destruct ll as [|[[|[]|]|[|[]|]|]]; cbn [pkg_bytes bytes_ok forallb]; rewrite ?Hc, ?Hl by lia; reflexivity.
Qed.

Lemma pkg_len_is_pkg_bytes md len incl e : pkg_len md len incl = Some e -> exists tot, e = pkg_bytes (pkg_ll len) tot.
Proof.
  rewrite pkg_len_unfold. destruct (add_m md U64 len _) as [tot|]; [|discriminate]. cbn [option_bind].
  destruct (assert _); [|discriminate]. cbn [option_bind]. intros H. injection H as <-. now exists tot.
Qed.

Lemma pkg_len_bytes_ok md len incl e : pkg_len md len incl = Some e -> bytes_ok e = true.
Proof. intros H. destruct (pkg_len_is_pkg_bytes _ _ _ _ H) as [tot ->]. apply pkg_bytes_bytes. Qed.

Lemma pkg_len_length md len incl e : pkg_len md len incl = Some e -> (1 <= length e <= 4)%nat.
Proof.
  intros H. destruct (pkg_len_is_pkg_bytes _ _ _ _ H) as [tot ->].
  destruct (pkg_ll_cases len) as [[_ ->]|[[_ ->]|[[_ ->]|[_ ->]]]]; cbn [pkg_bytes length]; lia.
Qed.

(* [pkg_ll len] is the least width whose capacity includes the width itself (when any does: four bytes otherwise) *)
Lemma pkg_ll_least len : exists k, (k <= 3)%nat /\ pkg_ll len = N.of_nat (S k) /\
  (forall w, (1 <= w <= k)%nat -> pkg_cap w < len + N.of_nat w) /\
  (forall tot, tot <= len + N.of_nat (S k) -> tot < 2 ^ 28 -> tot <= pkg_cap (S k)).
Proof.
  (* by the four ranges of [pkg_ll_cases]; within each, the narrower widths are the finitely many w = 1, 2, 3 *)
  destruct (pkg_ll_cases len) as [[Hr E]|[[Hr E]|[[Hr E]|[Hr E]]]];
    [exists 0%nat|exists 1%nat|exists 2%nat|exists 3%nat]; (split; [lia|split; [exact E|split]]);
    try (intros w Hw; assert (w = 1 \/ w = 2 \/ w = 3)%nat as [->|[->| ->]] by lia; try lia);
    cbn [pkg_cap]; lia.
Qed.

(* unless the wrapping profile lets the sum leave usize, [pkg_len] is this function of the total *)
Lemma pkg_len_total md len (incl : bool) :
  (md = Wrapping -> len + (if incl then 4 else 0) < 2 ^ 64) ->
  pkg_len md len incl =
  (let tot := len + (if incl then pkg_ll len else 0) in
   if tot <? 2 ^ 28 then Some (pkg_bytes (pkg_ll len) tot) else None).
Proof.
  intros Hd. rewrite pkg_len_unfold. unfold add_m, U64. cbn zeta.
  assert (Hll : pkg_ll len <= 4) by (destruct (pkg_ll_cases len) as [[_ ->]|[[_ ->]|[[_ ->]|[_ ->]]]]; lia).
  destruct (N.ltb_spec (len + (if incl then pkg_ll len else 0)) (2 ^ 64)) as [Hlt|Hge]; cbn [option_bind].
  - destruct (len + (if incl then pkg_ll len else 0) <? 2 ^ 28); reflexivity.
  - destruct (N.ltb_spec (len + (if incl then pkg_ll len else 0)) (2 ^ 28)); [lia|].
    destruct md; [reflexivity|]. specialize (Hd eq_refl). destruct incl; lia.
Qed.

Lemma pkg_len_accept md len (incl : bool) :
  len + (if incl then 4 else 0) < 2 ^ 28 -> exists e, pkg_len md len incl = Some e /\ (1 <= length e <= 4)%nat.
Proof.
  intros H. assert (E : exists e, pkg_len md len incl = Some e).
  { rewrite pkg_len_total by (intros _; destruct incl; lia). cbn zeta.
    assert (Hll : pkg_ll len <= 4) by (destruct (pkg_ll_cases len) as [[_ ->]|[[_ ->]|[[_ ->]|[_ ->]]]]; lia).
    destruct (N.ltb_spec (len + (if incl then pkg_ll len else 0)) (2 ^ 28)) as [_|Hge]; [eexists; reflexivity|]. destruct incl; lia. }
  destruct E as [e E]. exists e. split; [exact E|exact (pkg_len_length _ _ _ _ E)].
Qed.

Lemma pkg_len_refuse md len (incl : bool) :
  len < 2 ^ 63 -> 2 ^ 28 <= len + (if incl then pkg_ll len else 0) -> pkg_len md len incl = None.
Proof.
  intros Hlen H. rewrite pkg_len_total by (intros _; destruct incl; lia). cbn zeta.
  destruct (N.ltb_spec (len + (if incl then pkg_ll len else 0)) (2 ^ 28)); [lia|reflexivity].
Qed.

Lemma pkg_len_correct md n incl e :
  n < 2 ^ 63 -> pkg_len md n incl = Some e ->
  (forall r, pkg_decode (e ++ r) = Some (n + (if incl then pkg_ll n else 0), r)) /\ lead_ok e /\
  N.of_nat (length e) = pkg_ll n.
Proof.
  intros Hn H. rewrite pkg_len_total in H by (intros _; destruct incl; lia). cbn zeta in H.
  destruct (N.ltb_spec (n + (if incl then pkg_ll n else 0)) (2 ^ 28)) as [Hlt|]; [|discriminate]. injection H as <-.
  destruct (pkg_ll_least n) as (k & Hk & E & _ & Hcap). rewrite E in *.
  destruct (pkg_bytes_ok k (n + (if incl then N.of_nat (S k) else 0))) as (D & L & Len);
    [exact Hk|apply Hcap; [destruct incl; lia|exact Hlt]|].
  rewrite Len. auto.
Qed.

Lemma pkg_len_incl_correct md n e :
  n < 2 ^ 63 -> pkg_len md n true = Some e ->
  (forall r, pkg_decode (e ++ r) = Some (n + N.of_nat (length e), r)) /\ lead_ok e /\
  (forall w, (1 <= w < length e)%nat -> pkg_cap w < n + N.of_nat w).
Proof.
  intros Hn H. destruct (pkg_len_correct md n true e Hn H) as (D & L & Len). rewrite Len.
  split; [exact D|split; [exact L|]].
  destruct (pkg_ll_least n) as (k & _ & E & Hmin & _). intros w Hw. apply Hmin. lia.
Qed.

Lemma pkg_len_excl_correct md n e r :
  n < 2 ^ 63 -> pkg_len md n false = Some e ->
  pkg_decode (e ++ r) = Some (n, r) /\ lead_ok e.
Proof.
  intros Hn H. destruct (pkg_len_correct md n false e Hn H) as (D & L & _).
  split; [|exact L]. rewrite D, N.add_0_r. reflexivity.
Qed.

Lemma enc_u8_spec n : n < 2 ^ 8 -> enc_u8 n = spec_int n.
Proof.
  intros H. unfold spec_int.
  destruct (N.eqb_spec n 0) as [->|H0]; [reflexivity|].
  destruct (N.eqb_spec n 1) as [->|H1]; [reflexivity|].
  change (2 ^ 8) with 256. destruct (N.ltb_spec n 256); [|lia].
  cbn [le]. rewrite (N.mod_small n 256) by lia.
  unfold enc_u8. destruct n as [|p]; [lia|]. destruct p; try reflexivity. lia.
Qed.

Lemma enc_u16_spec n : n < 2 ^ 16 -> enc_u16 n = spec_int n.
Proof.
  intros H. unfold enc_u16.
  destruct (N.leb_spec n 255).
  - unfold cast, U8. rewrite N.mod_small by lia. apply enc_u8_spec. lia.
  - unfold spec_int. destruct (N.eqb_spec n 0); [lia|]. destruct (N.eqb_spec n 1); [lia|].
    change (2 ^ 8) with 256. change (2 ^ 16) with 65536.
    destruct (N.ltb_spec n 256); [lia|]. destruct (N.ltb_spec n 65536); [reflexivity|lia].
Qed.

Lemma enc_u32_spec n : n < 2 ^ 32 -> enc_u32 n = spec_int n.
Proof.
  intros H. unfold enc_u32.
  destruct (N.leb_spec n 65535).
  - unfold cast, U16. rewrite N.mod_small by lia. apply enc_u16_spec. lia.
  - unfold spec_int. destruct (N.eqb_spec n 0); [lia|]. destruct (N.eqb_spec n 1); [lia|].
    change (2 ^ 8) with 256. change (2 ^ 16) with 65536. change (2 ^ 32) with 4294967296.
    destruct (N.ltb_spec n 256); [lia|]. destruct (N.ltb_spec n 65536); [lia|].
    destruct (N.ltb_spec n 4294967296); [reflexivity|lia].
Qed.

Lemma enc_u64_spec n : enc_u64 n = spec_int n.
Proof.
  unfold enc_u64.
  destruct (N.leb_spec n 4294967295).
  - unfold cast, U32. rewrite N.mod_small by lia. apply enc_u32_spec. lia.
  - unfold spec_int. destruct (N.eqb_spec n 0); [lia|]. destruct (N.eqb_spec n 1); [lia|].
    change (2 ^ 8) with 256. change (2 ^ 16) with 65536. change (2 ^ 32) with 4294967296.
    destruct (N.ltb_spec n 256); [lia|]. destruct (N.ltb_spec n 65536); [lia|].
    destruct (N.ltb_spec n 4294967296); [lia|reflexivity].
Qed.

Lemma enc_usize_spec n : n < 2 ^ 64 -> enc_usize n = spec_int n.
Proof. intros H. unfold enc_usize, cast, U64. rewrite N.mod_small by exact H. apply enc_u64_spec. Qed.

Lemma int_decode_prefixed (w : nat) n r pfx :
  n < 2 ^ (8 * N.of_nat w) ->
  (w = 1%nat /\ pfx = 0x0A) \/ (w = 2%nat /\ pfx = 0x0B) \/ (w = 4%nat /\ pfx = 0x0C) \/ (w = 8%nat /\ pfx = 0x0E) ->
  int_decode ((pfx :: le w n) ++ r) = Some (n, r).
Proof.
  intros Hn Hw.
  assert (Hlen : Nat.ltb (length (le w n ++ r)) w = false).
  { apply Nat.ltb_ge. rewrite app_length, length_le. lia. }
  destruct Hw as [[-> ->]|[[-> ->]|[[-> ->]|[-> ->]]]]; cbn [app int_decode];
    rewrite Hlen, firstn_le_app, skipn_le_app, unle_le_small by exact Hn; reflexivity.
Qed.

Lemma int_decode_spec_int n r : n < 2 ^ 64 -> int_decode (spec_int n ++ r) = Some (n, r).
Proof.
  intros H. unfold spec_int.
  destruct (N.eqb_spec n 0) as [->|H0]; [reflexivity|].
  destruct (N.eqb_spec n 1) as [->|H1]; [reflexivity|].
  destruct (N.ltb_spec n (2 ^ 8)); [apply (int_decode_prefixed 1); [exact H2|tauto]|].
  destruct (N.ltb_spec n (2 ^ 16)); [apply (int_decode_prefixed 2); [exact H3|tauto]|].
  destruct (N.ltb_spec n (2 ^ 32)); [apply (int_decode_prefixed 4); [exact H4|tauto]|].
  apply (int_decode_prefixed 8); [exact H|tauto].
Qed.

Lemma spec_int_narrowest n : n < 2 ^ 64 -> length (spec_int n) = narrowest_len n.
Proof.
  intros H. unfold spec_int, narrowest_len.
  destruct (N.eqb_spec n 0) as [->|H0]; [reflexivity|].
  destruct (N.eqb_spec n 1) as [->|H1]; [reflexivity|].
  destruct (N.leb_spec n 1); [lia|].
  destruct (N.ltb_spec n (2 ^ 8)); [reflexivity|].
  destruct (N.ltb_spec n (2 ^ 16)); [reflexivity|].
  destruct (N.ltb_spec n (2 ^ 32)); reflexivity.
Qed.
