(* [entry_good]: an entry of a reference image describes itself under the table's entry-header format AND passes the
   per-entry self-check [entry_self_ok].  It is the one fact every table (all twelve) proves of its entries.
   [reftable]: what the Spec of a table owes for C03 on its reference images, the reference-side counterpart of [walktable]
   (Proofs/Tables.v): signature, first-entry offset, header format, type code, reference entries, every entry good, and the
   image is header ++ a layout from offset 36 that holds the count fields ++ the entries.  [reftable_tiles] and
   [reftable_selfcheck] are the two judgements on every reference image of such a table; [image3_reftable] builds the record
   for a table whose Spec image is [image3] (Proofs/WalkRefCommon2P.v).
   Then the forms of [entry_good] that follow from the shape of a checked layout alone, and two readings of the arguments of
   a self-check ([byte_at_here], [lenN_eq]). *)
From Coq Require Import NArith List Lia Bool Arith.
From ACPI Require Import Lib.Bytes Lib.Sx Impl.Table Spec.Layout Spec.SelfCheck Proofs.WalkP Proofs.WalkRefCommon2P Proofs.BaseP.
Import ListNotations.
Open Scope N_scope.

Definition entry_good (h : ehdr) (comp : N) (tyf : list N -> N) (e : list N) : Prop :=
  self_describing h e (tyf e) /\ entry_self_ok comp (tyf e) e = true.

Lemma entry_good_self h comp tyf es :
  Forall (entry_good h comp tyf) es -> Forall (fun e => self_describing h e (tyf e)) es.
Proof. apply Forall_impl. intros e [H _]. exact H. Qed.

(* cutting the entries out of the body in walk order gives the entries back *)
Lemma self_all_concat h comp tyf : forall es off, Forall (entry_good h comp tyf) es ->
  self_all comp (walked off tyf es) (concat es) = true.
Proof.
  unfold walked. induction es as [|e es IH]; intros off HF; inversion HF as [|? ? [_ He] Hrest]; subst; [reflexivity|].
  cbn [map walk_result self_all concat]. rewrite firstn_app_exact, skipn_app_exact, He. apply IH. exact Hrest.
Qed.

Theorem ref_image_selfcheck comp h tyf sig l es r :
  ref_image sig l es r -> length sig = 4%nat -> Forall (entry_good h comp tyf) es ->
  c03_self_at (Some ((36 + layout_size l)%nat, h)) comp r = true.
Proof.
  intros Hr Hsig HG. pose proof (ref_image_body sig l es r Hr Hsig) as Hsk. unfold c03_self_at.
  rewrite (walk_of_entries r _ h tyf es Hsk (entry_good_self h comp tyf es HG)), Hsk.
  rewrite (self_all_concat h comp tyf es _ HG), andb_true_r. apply Nat.leb_le.
  rewrite (ref_image_length sig l es r Hr Hsig). lia.
Qed.

Record reftable (ts : tspec) (comp : N) (dom : list N -> Prop) := {
  rt_sig : list N;
  rt_first : nat;
  rt_h : ehdr;
  rt_tyf : list N -> N;
  rt_entries : list sx -> option (list (list N));
  rt_sig_len : length rt_sig = 4%nat;
  rt_walk : ts_walk ts = Some (rt_first, rt_h);
  rt_entries_eq : forall ctor ops,
    ts_entries ts ctor ops = option_map (map (fun e => (rt_tyf e, length e))) (rt_entries ops);
  rt_good : forall ops es, rt_entries ops = Some es -> Forall (entry_good rt_h comp rt_tyf) es;
  (* the fixed part [l] may depend on the constructor (MADT, RHCT); on [dom] (RIMT: the image is below 4 GiB; else everything)
     every count field the Spec lists is a field of [l] holding a value that fits it *)
  rt_shape : forall ctor ops r, ts_image ts ctor ops = Some r ->
    exists l es, rt_entries ops = Some es /\ ref_image rt_sig l es r /\
      (36 + layout_size l)%nat = rt_first /\ layout_ok_from 36 l = true /\
      (dom r -> forall o w v, In (o, w, v) (ts_counts ts (length es)) -> In (o, w, v) l /\ v < 2 ^ (8 * N.of_nat w))
}.
Arguments rt_sig {ts comp dom}.
Arguments rt_first {ts comp dom}.
Arguments rt_h {ts comp dom}.
Arguments rt_tyf {ts comp dom}.
Arguments rt_entries {ts comp dom}.

Section RefTable.
  Context {ts : tspec} {comp : N} {dom : list N -> Prop} (R : reftable ts comp dom).

  (* the body of a reference image is the reference entries, which describe themselves *)
  Lemma reftable_body ctor ops r : ts_image ts ctor ops = Some r ->
    exists es, rt_entries R ops = Some es /\ skipn (rt_first R) r = concat es /\
      Forall (fun e => self_describing (rt_h R) e (rt_tyf R e)) es.
  Proof.
    intros H. destruct (rt_shape _ _ _ R ctor ops r H) as (l & es & Ees & Hr & <- & _). exists es. split; [exact Ees|].
    split; [exact (ref_image_body _ l es r Hr (rt_sig_len _ _ _ R))|exact (entry_good_self _ _ _ es (rt_good _ _ _ R ops es Ees))].
  Qed.

  Theorem reftable_tiles ctor ops r : ts_image ts ctor ops = Some r -> dom r -> c03_judge ts ctor r ops = true.
  Proof.
    intros H Hd. destruct (rt_shape _ _ _ R ctor ops r H) as (l & es & Ees & Hr & Hf & Hok & Hc).
    apply (ref_image_tiles _ l es r Hr (rt_sig_len _ _ _ R) ts ctor ops (rt_h R) (rt_tyf R) Hok).
    - rewrite Hf. exact (rt_walk _ _ _ R).
    - rewrite (rt_entries_eq _ _ _ R), Ees. reflexivity.
    - exact (entry_good_self _ _ _ es (rt_good _ _ _ R ops es Ees)).
    - exact (Hc Hd).
  Qed.

  Theorem reftable_selfcheck ctor ops r : ts_image ts ctor ops = Some r -> c03_self_at (ts_walk ts) comp r = true.
  Proof.
    intros H. destruct (rt_shape _ _ _ R ctor ops r H) as (l & es & Ees & Hr & Hf & _).
    rewrite (rt_walk _ _ _ R), <- Hf.
    exact (ref_image_selfcheck comp _ _ _ l es r Hr (rt_sig_len _ _ _ R) (rt_good _ _ _ R ops es Ees)).
  Qed.
End RefTable.

(* a table whose Spec image is [image3]: the fixed part is [mid_layout], and what is left to say of the count fields is that
   they are among its fields and that their values fit.  An instance gives, in this order: signature, kind, header format,
   type code, entries; that the Spec's walk start, image and entry list are these (each by computation); that every entry
   is good; the count fields. *)
Section Image3Table.
  Variables (ts : tspec) (comp : N) (dom : list N -> Prop) (sig : list N) (K : tkind) (h : ehdr) (tyf : list N -> N).
  Variable entries : list sx -> option (list (list N)).
  Hypothesis sig_len : length sig = 4%nat.
  Hypothesis walk_eq : ts_walk ts = Some ((36 + layout_size (mid_layout K 0))%nat, h).
  Hypothesis image_eq : forall ctor ops, ts_image ts ctor ops = image3 sig K entries ctor ops.
  Hypothesis entries_eq : forall ctor ops, ts_entries ts ctor ops = option_map (map (fun e => (tyf e, length e))) (entries ops).
  Hypothesis good : forall ops es, entries ops = Some es -> Forall (entry_good h comp tyf) es.

  Definition image3_reftable
    (counts : forall ops es r, entries ops = Some es -> ref_image sig (mid_layout K (N.of_nat (length es))) es r -> dom r ->
       forall o w v, In (o, w, v) (ts_counts ts (length es)) ->
         In (o, w, v) (mid_layout K (N.of_nat (length es))) /\ v < 2 ^ (8 * N.of_nat w))
    : reftable ts comp dom.
  Proof.
    refine {| rt_sig := sig; rt_h := h; rt_tyf := tyf; rt_entries := entries; rt_sig_len := sig_len; rt_walk := walk_eq;
              rt_entries_eq := entries_eq; rt_good := good |}.
    intros ctor ops r H. rewrite image_eq in H. destruct (image3_shape _ _ _ _ _ _ H) as (es & Ees & Hr).
    exists (mid_layout K (N.of_nat (length es))), es. split; [exact Ees|]. split; [exact Hr|].
    split; [now rewrite mid_layout_size|]. split; [apply mid_layout_ok|exact (counts ops es r Ees Hr)].
  Defined.

  (* ... and that has no count fields *)
  Definition image3_reftable_plain (no_counts : forall n, ts_counts ts n = []) : reftable ts comp dom.
  Proof. apply image3_reftable. intros ops es r _ _ _ o w v Hin. rewrite no_counts in Hin. destruct Hin. Defined.
End Image3Table.

(* fixed-size entries without a header *)
Lemma lay_fixed_good comp size l b : lay size l = Some b -> (1 <=? size)%nat = true ->
  (forall e, entry_self_ok comp 0 e = Nat.eqb (length e) size) ->
  entry_good (H_fixed size) comp (fun _ => 0) b.
Proof.
  intros H Hpos Hok. apply Nat.leb_le in Hpos. pose proof (lay_length _ _ _ H) as Hl. split.
  - exact (fixed_self size b Hl Hpos).
  - rewrite Hok, Hl. apply Nat.eqb_refl.
Qed.

(* a layout that starts with a one-byte type code and a one-byte length equal to its size, of a type whose self-check is
   that size *)
Lemma lay_u8_u8_fixed_good comp size ty len rest b :
  lay size (L 0 1 ty :: L 1 1 len :: rest) = Some b ->
  N.to_nat (len mod 256) = size -> (1 <=? size)%nat = true ->
  (forall e, entry_self_ok comp (ty mod 256) e = Nat.eqb (length e) size) ->
  entry_good H_u8_u8 comp (fun e => nth 0 e 0) b.
Proof.
  intros H Hlen Hpos Hok. apply Nat.leb_le in Hpos. pose proof (lay_length _ _ _ H) as Hl.
  assert (Hb : b = ty mod 256 :: len mod 256 :: assemble rest) by exact (lay_some _ _ _ H).
  rewrite Hb in Hl |- *. split.
  - split; [lia|]. intros tail. cbn [app read_ehdr nth]. rewrite Hlen, Hl. reflexivity.
  - cbn [nth]. rewrite Hok, Hl. apply Nat.eqb_refl.
Qed.

Lemma lay_u8_x_u16_fixed_good comp size ty x len rest b :
  lay size (L 0 1 ty :: L 1 1 x :: L 2 2 len :: rest) = Some b ->
  N.to_nat (len mod 65536) = size -> (1 <=? size)%nat = true ->
  (forall e, entry_self_ok comp (ty mod 256) e = Nat.eqb (length e) size) ->
  entry_good H_u8_x_u16 comp (fun e => nth 0 e 0) b.
Proof.
  intros H Hlen Hpos Hok. apply Nat.leb_le in Hpos. pose proof (lay_length _ _ _ H) as Hl.
  assert (Hb : b = ty mod 256 :: x mod 256 :: le 2 len ++ assemble rest) by exact (lay_some _ _ _ H).
  rewrite Hb in Hl |- *. split.
  - split; [lia|]. intros tail. rewrite Hl. cbn [app read_ehdr nth le].
    change [len mod 256; len / 256 mod 256] with (le 2 len). rewrite unle_le. change (2 ^ (8 * N.of_nat 2)) with 65536.
    rewrite Hlen. reflexivity.
  - cbn [nth]. rewrite Hok, Hl. apply Nat.eqb_refl.
Qed.

(* the byte right after a prefix *)
Lemma byte_at_here pre x post off : N.to_nat off = length pre -> x < 256 -> byte_at (pre ++ x :: post) off = x.
Proof.
  intros Hoff Hx. unfold byte_at. rewrite Hoff. rewrite (field_at_skip pre (x :: post) (length pre) 1 eq_refl).
  unfold field_at. cbn [skipn firstn unle]. lia.
Qed.

Lemma lenN_eq e n : length e = n -> lenN e = N.of_nat n.
Proof. intros <-. reflexivity. Qed.
