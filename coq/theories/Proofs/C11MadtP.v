(* C11, MADT: what one builder call of GICC and of the GIC MSI frame writes, the bounds of their option bits, and the
   frame of a GICC against a blank one.  The theorems about the emitted bytes are c11_madt_* in Props/C11.v. *)
From Coq Require Import NArith List Lia Bool.
From ACPI Require Import Impl.Fields Impl.Madt Spec.OptionsS Proofs.FadtP Proofs.C11CommonP.
Import ListNotations.
Open Scope N_scope.

Definition GICC_WS : list nat := Eval vm_compute in widths (gicc_new 0).
(* Gicc::new(EnabledStatus::Disabled) with no builder call *)
Definition GICC_BLANK : list N := Eval vm_compute in ser_flds (gicc_new 0).

Lemma gicc_step f o f' : gicc_setter f o = Some f' ->
  exists b, writes 5 (fun k => In (fld_range GICC_WS k) (gicc_call_ranges o)) f b f' /\ b = gicc_call_bit o.
Proof.
  revert f'. apply opt_case. unfold gicc_setter.
  dmatch_goal; cbv beta iota; cbn [gicc_call_bit gicc_call_ranges]; try destruct (_ =? 1);
    eexists; (split; [writes_tac|reflexivity]).
Qed.

Lemma gicc_call_bit_small o : gicc_call_bit o < 2 ^ (8 * N.of_nat (fwid GICC_WS 5)).
Proof. unfold gicc_call_bit. dmatch_goal; try (destruct (_ =? 1)); reflexivity. Qed.

(* the status argument is the initial value of the Flags dword and of nothing else *)
Lemma gicc_blank_frame status k : ~ in_range k gicc_flags_at -> nth k (ser_flds (gicc_new status)) 0 = nth k GICC_BLANK 0.
Proof. exact (ser_fset_frame (gicc_new 0) 5 (gicc_status_bits status) k). Qed.

Lemma gicc_options_distinct : distinct_single_bits gicc_option_table && below (2 ^ 32) gicc_option_table = true.
Proof. reflexivity. Qed.

Definition GICMSI_WS : list nat := Eval vm_compute in widths gicmsi_new.
Definition GICMSI_BLANK : list N := Eval vm_compute in ser_flds gicmsi_new.

(* the model assigns flags = 1 (it does not OR): equivalent because bit 0 is the only bit any builder sets *)
Lemma gicmsi_step f o f' : widths f = GICMSI_WS -> fget f 5 <= 1 -> gicmsi_setter f o = Some f' ->
  widths f' = GICMSI_WS /\ fget f' 5 <= 1 /\ fget f' 5 = N.lor (fget f 5) (gicmsi_call_bit o) /\
  forall j, j <> 5%nat -> ~ In (fld_range GICMSI_WS j) (gicmsi_call_ranges o) -> fget f' j = fget f j.
Proof.
  intros Hw HI. revert f'. apply opt_case. unfold gicmsi_setter.
  dmatch_goal; cbv beta iota; unfold gicmsi_call_bit; cbn [gicmsi_supplies_spi gicmsi_call_ranges].
  (* the two plain value setters *)
  all: try (eapply (writes_step GICMSI_WS 5 _ (fun f => fget f 5 <= 1) _ _ _ _ Hw);
            [cbn; lia|writes_tac|reflexivity|intros ->; now rewrite N.lor_0_r]; fail).
  (* spi_count_and_base: two value fields, then flags = 1 *)
  match goal with |- context [fset ?g 5 1] =>
    destruct (writes_step GICMSI_WS 5 (fun k => In (fld_range GICMSI_WS k) [rng 20 2; rng 22 2]) (fun _ => True) f _ 0 g Hw
                ltac:(cbn; lia) ltac:(writes_tac) eq_refl (fun _ => I)) as (H1 & _ & _ & H4) end.
  rewrite widths_fset, fget_fset_same by (rewrite <- widths_length, H1; cbn; lia).
  split; [exact H1|]. split; [discriminate|]. split.
  - assert (fget f 5 = 0 \/ fget f 5 = 1) as [-> | ->] by lia; reflexivity.
  - intros j Hj Hn. rewrite fget_fset_other by congruence. now apply H4.
Qed.

Lemma gicmsi_call_bit_small o : gicmsi_call_bit o < 2 ^ (8 * N.of_nat (fwid GICMSI_WS 5)).
Proof. unfold gicmsi_call_bit. destruct (gicmsi_supplies_spi o); reflexivity. Qed.

Lemma enable_states_distinct : distinct_single_bits enable_state_table = true /\
  map enable_state_bits [0; 1; 2] = [0; 1; 2].
Proof. split; reflexivity. Qed.

Lemma enable_state_word en : en < 3 -> en mod 2 ^ 32 = enable_state_bits en.
Proof. intros H. assert (en = 0 \/ en = 1 \/ en = 2) as [->|[->| ->]] by lia; reflexivity. Qed.

