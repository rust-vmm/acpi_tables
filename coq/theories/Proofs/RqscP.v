(* RQSC: for every constructor argument and every finite history of add_controller calls the model accepts,
   the emitted image sums to 0 and its Length field is its size.
   Each of the model's two loops is characterised once, as an equivalence with a closed form: the add_resource loop
   (`qos_add_all_iff`, `qos_of_sx_op`: the controller an operation builds is `qos_push (qos_new ..) rs`, bytes `ser_qos_push`)
   and the add_controller loop (`rqsc_run_made`: the table after a history is `rqsc_made h qs`, image `rqsc_made_image`).
   The checked_add guards make the 16-bit fields and the 32-bit Length exact; header.checksum is generate_checksum of the
   image with byte 9 zeroed, so the image sums to 0.  The walk (Proofs/RqscWalkP.v) reads the equivalences from left to right,
   the refinement (Proofs/RqscRefP.v) from right to left. *)
From Coq Require Import ZArith List Lia.
From ACPI Require Import Lib.Bytes Lib.Sx Lib.Machine Impl.Checksum Impl.Table Impl.Fields Impl.Madt Impl.Gas Impl.Rqsc
  Spec.Layout Proofs.ChecksumP Proofs.TableP Proofs.FixedP Proofs.BaseP.
Import ListNotations.

Open Scope N_scope.

Lemma length_concat_map_rev {A} (f : A -> list N) (l : list A) :
  length (concat (map f (rev l))) = length (concat (map f l)).
Proof.
  induction l as [|a l IH]; [reflexivity|].
  cbn [rev map concat]. rewrite map_app, concat_app, !app_length, IH. cbn [map concat]. rewrite app_nil_r. lia.
Qed.

Lemma add_m_mod md a b r : add_m md U32 a b = Some r -> r = (a + b) mod 2 ^ 32.
Proof.
  unfold add_m, add_c, U32. destruct (N.ltb_spec (a + b) (2 ^ 32)).
  - intros E; inversion E; subst. symmetry. now apply N.mod_small.
  - destruct md; [discriminate|]. intros E; inversion E; reflexivity.
Qed.

Definition RsOk (r : resource) : Prop :=
  rs_length r = N.of_nat (length (ser_resource r)) /\ rs_length r < 2 ^ 16.

Lemma resource_new_ok rtype flags id r : resource_new rtype flags id = Some r -> RsOk r.
Proof.
  unfold resource_new, resid_len, assert.
  destruct (N.leb_spec (1 * 3 + 2 * 2 + (1 + N.of_nat (length (ri_payload id)))) 65535) as [Hle|]; [|discriminate].
  cbn [option_bind]. intros H; inversion H; subst; clear H.
  unfold RsOk, ser_resource. cbn [rs_length rs_type rs_flags rs_id].
  unfold b1, w2. rewrite !app_length, !length_le. unfold cast, U16.
  rewrite N.mod_small by lia. split; lia.
Qed.

Lemma resource_of_sx_ok x r : resource_of_sx x = Some r -> RsOk r.
Proof.
  unfold resource_of_sx. intros H.
  break_sx H.
  apply bind_Some in H as (id & _ & H). exact (resource_new_ok _ _ _ _ H).
Qed.

(* what a chain of add_resource calls makes of a controller: the resources pushed, counted, their bytes added to Length *)
Definition qos_push (q : qosc) (rs : list resource) : qosc :=
  {| q_type := q_type q; q_length := q_length q + N.of_nat (length (concat (map ser_resource rs))); q_gas := q_gas q;
     q_rcid := q_rcid q; q_mcid := q_mcid q; q_flags := q_flags q; q_nres := q_nres q + N.of_nat (length rs);
     q_rres := rev rs ++ q_rres q |}.

Definition q_fits (q : qosc) : Prop := q_nres q < 2 ^ 16 /\ q_length q < 2 ^ 16.

Lemma qos_push_nil q : qos_push q [] = q.
Proof. destruct q. unfold qos_push. cbn. now rewrite !N.add_0_r. Qed.

Lemma qos_push_cons q r rs : qos_push (qos_push q [r]) rs = qos_push q (r :: rs).
Proof.
  unfold qos_push. cbn [q_type q_length q_gas q_rcid q_mcid q_flags q_nres q_rres map concat rev length app].
  rewrite app_nil_r, <- !app_assoc, !app_length. cbn [app]. f_equal; lia.
Qed.

Lemma qos_add_resource_iff q r q' : RsOk r ->
  qos_add_resource q r = Some q' <-> q' = qos_push q [r] /\ q_fits q'.
Proof.
  intros (Hr & Hrlt). unfold qos_add_resource, add_c, cast, U16, q_fits. rewrite (N.mod_small _ _ Hrlt), Hr.
  unfold qos_push. cbn [map concat length rev app]. rewrite app_nil_r. change (N.of_nat 1) with 1.
  (* the two checked additions are the two bounds of [q_fits] *)
  destruct (N.ltb_spec (q_nres q + 1) (2 ^ 16)) as [Hn|Hn]; cbn [option_bind].
  2:{ split; [discriminate|]. intros (-> & Hn' & _). cbn [q_nres] in Hn'. lia. }
  destruct (N.ltb_spec (q_length q + N.of_nat (length (ser_resource r))) (2 ^ 16)) as [Hl|Hl]; cbn [option_bind].
  2:{ split; [discriminate|]. intros (-> & _ & Hl'). cbn [q_length] in Hl'. lia. }
  split.
  - intros [= <-]. auto.
  - intros (-> & _). reflexivity.
Qed.

Lemma qos_add_all_iff l : forall q q', q_fits q ->
  qos_add_all q l = Some q' <->
  exists rs, Forall2 (fun x r => resource_of_sx x = Some r) l rs /\ q' = qos_push q rs /\ q_fits q'.
Proof.
  induction l as [|x l IH]; intros q q' Hq; cbn [qos_add_all].
  - split.
    + intros [= <-]. exists []. rewrite qos_push_nil. auto using Forall2_nil.
    + intros (rs & HF & -> & _). inversion HF. now rewrite qos_push_nil.
  - split.
    + intros H. apply bind_Some in H as (r & Er & H). apply bind_Some in H as (q1 & Ea & H).
      apply (qos_add_resource_iff _ _ _ (resource_of_sx_ok _ _ Er)) in Ea as (-> & Hq1).
      apply (IH _ _ Hq1) in H as (rs & HF & -> & Hq'). rewrite qos_push_cons in *.
      exists (r :: rs). split; [constructor; assumption|]. split; [reflexivity|exact Hq'].
    + intros (rs & HF & -> & Hq'). inversion HF as [|? r ? rs' Er HF']; subst. rewrite Er. cbn [option_bind].
      (* what fits after all the resources fitted after the first *)
      assert (Hq1 : q_fits (qos_push q [r])).
      { destruct Hq' as [Hn Hl]. unfold q_fits, qos_push in *. cbn [q_nres q_length map concat length] in *.
        rewrite app_length in Hl. rewrite app_nil_r. lia. }
      rewrite (proj2 (qos_add_resource_iff q r _ (resource_of_sx_ok _ _ Er)) (conj eq_refl Hq1)). cbn [option_bind].
      apply (IH _ _ Hq1). exists rs'. rewrite qos_push_cons. split; [exact HF'|]. split; [reflexivity|exact Hq'].
Qed.

Inductive qos_op : sx -> qosc -> Prop :=
| QosOp ctype g rcid mcid flags res gv rs :
    gas_of_sx g = Some gv -> Forall2 (fun x r => resource_of_sx x = Some r) res rs ->
    q_fits (qos_push (qos_new ctype gv rcid mcid flags) rs) ->
    qos_op (SL [SA 1; SA ctype; g; SA rcid; SA mcid; SA flags; SL res]) (qos_push (qos_new ctype gv rcid mcid flags) rs).

Lemma qos_of_sx_op o q : qos_of_sx o = Some q <-> qos_op o q.
Proof.
  split.
  - unfold qos_of_sx. intros H. break_sx H. apply bind_Some in H as (gv & Eg & H).
    apply qos_add_all_iff in H as (rs & HF & -> & Hq); [|split; reflexivity]. now constructor.
  - intros [ctype g rcid mcid flags res gv rs Eg HF Hq]. cbn [qos_of_sx]. rewrite Eg. cbn [option_bind].
    apply qos_add_all_iff; [split; reflexivity|]. exists rs. auto.
Qed.

Lemma length_gas_of_sx g gv : gas_of_sx g = Some gv -> length (ser_flds gv) = 12%nat.
Proof. intros Eg. destruct (gas_of_sx_shape _ _ Eg) as (a & b & c & d & e & ->). apply length_gas_mk. Qed.

(* a controller's bytes: 26 up to ResourceCount ([qos_pre]), ResourceCount, the resources in call order *)
Definition qos_pre (ctype len : N) (gv : flds) (rcid mcid flags : N) : list N :=
  b1 ctype ++ b1 0 ++ w2 len ++ ser_flds gv ++ d4 rcid ++ d4 mcid ++ w2 flags.

Lemma length_qos_pre ctype len g gv rcid mcid flags : gas_of_sx g = Some gv ->
  length (qos_pre ctype len gv rcid mcid flags) = 26%nat.
Proof. intros Eg. unfold qos_pre, b1, w2, d4. rewrite !app_length, !length_le, (length_gas_of_sx _ _ Eg). reflexivity. Qed.

Lemma ser_qos_push ctype gv rcid mcid flags rs :
  ser_qos (qos_push (qos_new ctype gv rcid mcid flags) rs) =
  qos_pre ctype (28 + N.of_nat (length (concat (map ser_resource rs)))) gv rcid mcid flags ++ w2 (N.of_nat (length rs)) ++
  concat (map ser_resource rs).
Proof.
  unfold ser_qos, qos_push, qos_new, qos_pre. cbn [q_type q_length q_gas q_rcid q_mcid q_flags q_nres q_rres].
  rewrite frev_rev, app_nil_r, rev_involutive, N.add_0_l, <- !app_assoc. reflexivity.
Qed.

Definition QInv (q : qosc) : Prop :=
  length (ser_flds (q_gas q)) = 12%nat /\
  q_length q = N.of_nat (28 + length (concat (map ser_resource (q_rres q)))) /\
  q_length q < 2 ^ 16.

Lemma qos_of_sx_inv o q : qos_of_sx o = Some q -> QInv q.
Proof.
  intros H. apply qos_of_sx_op in H. destruct H as [ctype g rcid mcid flags res gv rs Eg _ [_ Hl]].
  split; [exact (length_gas_of_sx _ _ Eg)|]. split; [|exact Hl].
  cbn [qos_push qos_new q_length q_rres]. rewrite app_nil_r, length_concat_map_rev. lia.
Qed.

Lemma ser_qos_length q : QInv q -> N.of_nat (length (ser_qos q)) = q_length q.
Proof.
  intros (Hg & Hl & _). unfold ser_qos, b1, w2, d4. rewrite !app_length, !length_le, Hg, frev_rev, length_concat_map_rev, Hl. lia.
Qed.

Lemma wadd8_0 a : a < 256 -> wadd8 a 0 = a.
Proof. intros H. unfold wadd8. rewrite N.add_0_r. now apply N.mod_small. Qed.

(* the table after a history, in closed form; [qs] are the controllers added, in call order (the model keeps them reversed) *)
Definition rqsc_made (h : hdr) (qs : list qosc) : rqsc :=
  let len := N.of_nat (40 + length (concat (map ser_qos qs))) in
  {| r_hdr := h; r_len := len; r_hck := generate_checksum (rqsc_bytes h len 0 (rev qs)); r_rcs := rev qs |}.

Definition rqsc_rest (qs : list qosc) : list N := d4 (N.of_nat (length qs)) ++ concat (map ser_qos qs).

Lemma rqsc_bytes_rev h len ck qs : rqsc_bytes h len ck (rev qs) = hdr_bytes h len ck ++ rqsc_rest qs.
Proof. unfold rqsc_bytes, rqsc_rest. now rewrite frev_rev, rev_involutive, rev_length. Qed.

Lemma rqsc_made_image h qs : rqsc_image (rqsc_made h qs) =
  hdr_bytes h (r_len (rqsc_made h qs)) (generate_checksum (hdr_bytes h (r_len (rqsc_made h qs)) 0 ++ rqsc_rest qs)) ++ rqsc_rest qs.
Proof. unfold rqsc_image, rqsc_made. cbn [r_hdr r_len r_hck r_rcs]. now rewrite !rqsc_bytes_rev. Qed.

Lemma rqsc_made_len h qs : r_len (rqsc_made h qs) = 36 + N.of_nat (length (rqsc_rest qs)).
Proof. cbn [rqsc_made r_len]. unfold rqsc_rest, d4. rewrite app_length, length_le. lia. Qed.

Lemma rqsc_made_length h qs : hdr_ok h = true -> N.of_nat (length (rqsc_image (rqsc_made h qs))) = r_len (rqsc_made h qs).
Proof. intros Hh. rewrite rqsc_made_image, app_length, (length_hdr_bytes _ _ _ Hh), rqsc_made_len. lia. Qed.

Lemma rqsc_made_sum h qs : sum8 (rqsc_image (rqsc_made h qs)) = 0.
Proof. rewrite rqsc_made_image. apply hdr_gen_sum8_zero. Qed.

Lemma rqsc_made_len_app h a b : r_len (rqsc_made h (a ++ b)) = r_len (rqsc_made h a) + N.of_nat (length (concat (map ser_qos b))).
Proof. cbn [rqsc_made r_len]. rewrite map_app, concat_app, app_length. lia. Qed.

Lemma rqsc_new_made o t r :
  rqsc_new (SL [o; t; r]) = option_map (fun h => rqsc_made h []) (sx_hdr [82; 81; 83; 67] 1 o t r).
Proof.
  cbn [rqsc_new]. destruct (sx_hdr _ _ o t r) as [h|]; [|reflexivity]. cbn [option_bind option_map]. unfold rqsc_made.
  cbn [map concat length rev]. change (N.of_nat (40 + 0)) with (36 + 4). do 2 f_equal.
  (* new feeds only the header to the checksum: the four count bytes are zero *)
  unfold generate_checksum, rqsc_bytes, ck_append. cbn [length frev rev_append map concat N.of_nat].
  rewrite app_nil_r, fold_left_app. f_equal.
  pose proof (fold_wadd8_lt (hdr_bytes h (36 + 4) 0) 0 ltac:(lia)) as Hlt.
  set (v := fold_left wadd8 (hdr_bytes h (36 + 4) 0) 0) in *.
  change (d4 0) with [0; 0; 0; 0]. cbn [fold_left]. now rewrite !(wadd8_0 v Hlt).
Qed.

Lemma rqsc_add_made md h qs q s' : QInv q ->
  rqsc_add md (rqsc_made h qs) q = Some s' <-> s' = rqsc_made h (qs ++ [q]) /\ r_len s' < 2 ^ 32.
Proof.
  intros IQ. pose proof (ser_qos_length q IQ) as Hq. destruct IQ as (_ & _ & Hlt).
  unfold rqsc_add, add_c, cast, U32.
  rewrite (N.mod_small (q_length q)) by (change (2 ^ 16) with 65536 in Hlt; change (2 ^ 32) with 4294967296; lia).
  assert (E : q_length q + r_len (rqsc_made h qs) = r_len (rqsc_made h (qs ++ [q]))).
  { rewrite rqsc_made_len_app. cbn [map concat]. rewrite app_nil_r. lia. }
  rewrite E. change (r_hdr (rqsc_made h qs)) with h. change (r_rcs (rqsc_made h qs)) with (rev qs). rewrite <- (rev_unit qs q).
  (* both sides now hold the checksum of the same bytes under two spellings of their length: name the length and fold the
     checksum first, or comparing the two records unfolds the checksum of a symbolic list and does not return *)
  unfold rqsc_made. cbn [r_len]. set (n := N.of_nat _). set (rcs := rev _).
  change (ck_value (ck_sink_vec 0 (rqsc_bytes h n 0 rcs))) with (generate_checksum (rqsc_bytes h n 0 rcs)).
  destruct (N.ltb_spec n (2 ^ 32)) as [Hf|Hf]; cbn [option_bind].
  - split.
    + intros [= <-]. split; [reflexivity|exact Hf].
    + intros (-> & _). reflexivity.
  - split; [discriminate|]. intros (-> & Hf'). cbn [r_len] in Hf'. lia.
Qed.

Fixpoint rqsc_run (md : mode) (s : rqsc) (ops : list sx) : option rqsc :=
  match ops with
  | [] => Some s
  | SA _ :: r => rqsc_run md s r
  | o :: r => match rqsc_step md s o with Some (s', _) => rqsc_run md s' r | None => None end
  end.

Lemma rqsc_run_steps md : forall ops s, rqsc_run md s ops = run_steps (rqsc_step md) s ops.
Proof. apply run_steps_unique. intros s [|o r]; reflexivity. Qed.

Lemma rqsc_run_made md h ops : forall qs s, r_len (rqsc_made h qs) < 2 ^ 32 ->
  rqsc_run md (rqsc_made h qs) ops = Some s <->
  exists qs', Forall2 (fun o q => qos_of_sx o = Some q) (real_ops ops) qs' /\ s = rqsc_made h (qs ++ qs') /\ r_len s < 2 ^ 32.
Proof.
  induction ops as [|o ops IH]; intros qs s Hf; cbn [rqsc_run].
  - split.
    + intros [= <-]. exists []. rewrite app_nil_r. split; [constructor|]. split; [reflexivity|exact Hf].
    + intros (qs' & HF & -> & _). inversion HF. now rewrite app_nil_r.
  - destruct o as [n|l]; [exact (IH qs s Hf)|].
    change (real_ops (SL l :: ops)) with (SL l :: real_ops ops). unfold rqsc_step. split.
    + intros H. destruct (qos_of_sx (SL l)) as [q|] eqn:Eq; [|discriminate]. cbn [option_bind] in H.
      destruct (rqsc_add md _ q) as [s1|] eqn:Ea; [|discriminate]. cbn [option_bind] in H.
      apply (rqsc_add_made _ _ _ _ _ (qos_of_sx_inv _ _ Eq)) in Ea as (-> & Hf1).
      apply (IH _ _ Hf1) in H as (qs' & HF & -> & Hf'). rewrite <- app_assoc in *.
      exists (q :: qs'). split; [constructor; assumption|]. split; [reflexivity|exact Hf'].
    + intros (qs' & HF & -> & Hf'). inversion HF as [|? q ? qs'' Eq HF']; subst. rewrite Eq. cbn [option_bind].
      replace (qs ++ q :: qs'') with ((qs ++ [q]) ++ qs'') in * by (now rewrite <- app_assoc).
      (* a table that fits in the end fitted after the first controller *)
      assert (Hf1 : r_len (rqsc_made h (qs ++ [q])) < 2 ^ 32) by (rewrite rqsc_made_len_app in Hf'; lia).
      rewrite (proj2 (rqsc_add_made md h qs q _ (qos_of_sx_inv _ _ Eq)) (conj eq_refl Hf1)). cbn [option_bind].
      apply (IH _ _ Hf1). exists qs''. auto.
Qed.

Lemma rqsc_history_made md c ops s0 s : rqsc_new c = Some s0 -> rqsc_run md s0 ops = Some s ->
  exists h qs, hdr_ok h = true /\ Forall2 (fun o q => qos_of_sx o = Some q) (real_ops ops) qs /\
               s = rqsc_made h qs /\ r_len s < 2 ^ 32.
Proof.
  intros Hn Hr. destruct c as [|[|o [|t [|r [|]]]]]; try discriminate Hn. rewrite rqsc_new_made in Hn.
  destruct (sx_hdr _ _ o t r) as [h|] eqn:Eh; [|discriminate Hn]. apply Some_inj in Hn. subst s0.
  apply rqsc_run_made in Hr as (qs & HF & -> & Hf); [|reflexivity].
  exists h, qs. split; [exact (sx_hdr_ok _ _ _ _ _ _ Eh eq_refl)|auto].
Qed.

Record RInv (s : rqsc) : Prop := {
  ri_hdr : hdr_ok (r_hdr s) = true;
  (* header.length tracks the serialised size (exactly, as long as the u32 does not overflow) *)
  ri_len : r_len s = N.of_nat (length (rqsc_image s)) mod 2 ^ 32;
  (* header.checksum = generate_checksum of the image with byte 9 zeroed *)
  ri_ck : r_hck s = generate_checksum (rqsc_bytes (r_hdr s) (r_len s) 0 (r_rcs s));
  ri_q : Forall QInv (r_rcs s)
}.

Lemma rqsc_history_inv md c ops s0 s : rqsc_new c = Some s0 -> rqsc_run md s0 ops = Some s -> RInv s.
Proof.
  intros Hn Hr. destruct (rqsc_history_made md c ops s0 s Hn Hr) as (h & qs & Hh & HF & -> & Hf). constructor.
  - exact Hh.
  - rewrite (rqsc_made_length h qs Hh). symmetry. now apply N.mod_small.
  - reflexivity.
  - apply Forall_rev. clear Hr Hf. induction HF as [|o q os qs Ho _ IH]; [constructor|].
    constructor; [exact (qos_of_sx_inv o q Ho)|exact IH].
Qed.

Lemma rinv_controller_lengths s : RInv s -> Forall (fun q => field_at (ser_qos q) 2 2 = N.of_nat (length (ser_qos q))) (r_rcs s).
Proof.
  intros [_ _ _ Hq]. eapply Forall_impl; [|exact Hq]. intros q I.
  rewrite (ser_qos_length q I). destruct I as (_ & _ & Hlt).
  unfold ser_qos, field_at, b1. change (le 1 (q_type q)) with [q_type q mod 256]. change (le 1 0) with [0 mod 256].
  cbn [skipn app]. unfold w2. rewrite firstn_le_app. apply unle_le_small. exact Hlt.
Qed.

(* C01 + C02 for the RQSC: any constructor arguments, any build profile, any finite history *)
Theorem rqsc_history md c ops s0 s :
  rqsc_new c = Some s0 -> rqsc_run md s0 ops = Some s ->
  sum8 (rqsc_image s) = 0 /\
  (N.of_nat (length (rqsc_image s)) < 2 ^ 32 -> field_at (rqsc_image s) 4 4 = N.of_nat (length (rqsc_image s))).
Proof.
  intros Hn Hr. destruct (rqsc_history_made md c ops s0 s Hn Hr) as (h & qs & Hh & _ & -> & Hf).
  split; [apply rqsc_made_sum|intros _]. rewrite (rqsc_made_length h qs Hh), rqsc_made_image. now apply hdr_len_field.
Qed.
