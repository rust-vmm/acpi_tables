(* C16 -- EISA identifiers and UUIDs are encoded per the ACPI compression rules. *)
From Coq Require Import NArith List.
From ACPI Require Import Impl.AmlCore Spec.AmlCoreS Proofs.PkgLenP Proofs.EisaUuidP.
Import ListNotations.
Open Scope N_scope.

(* every valid 7-character id is emitted as an integer constant whose 32-bit value decompresses to the id *)
Theorem c16_eisa :
  forall s r, valid_eisa s = true ->
    exists v, eisa_enc s = Some (enc_u32 v) /\ v < 2 ^ 32 /\
              int_decode (enc_u32 v ++ r) = Some (v, r) /\ eisa_decompress v = s.
Proof.
  intros s r H. destruct (eisa_roundtrip s H) as (v & E & Hv & D). exists v.
  split; [now apply eisa_emitted|]. split; [exact Hv|]. split; [|exact D].
  rewrite enc_u32_spec by exact Hv. apply int_decode_spec_int.
  eapply N.lt_trans; [exact Hv|]. reflexivity.
Qed.

Theorem c16_eisa_refuses :
  (forall s, length s <> 7%nat -> eisa_enc s = None) /\
  (forall c0 c1 c2 h3 h4 h5 h6,
      hex_digit h3 = None \/ hex_digit h4 = None \/ hex_digit h5 = None \/ hex_digit h6 = None ->
      eisa_enc [c0; c1; c2; h3; h4; h5; h6] = None).
Proof.
  split.
  - intros s H. unfold eisa_enc. now rewrite eisa_refuse_length.
  - intros. unfold eisa_enc. now rewrite eisa_refuse_digit.
Qed.

(* every canonical 36-character UUID (either letter case) is emitted as a Buffer of declared size 16 whose
   16 bytes, read back in the ToUUID mixed-endian order, spell the same UUID in lower case *)
Theorem c16_uuid :
  forall md s r, canonical_uuid s = true ->
    exists b e, uuid_enc md s = Some e /\ buffer_decode (e ++ r) = Some (16, b, r) /\
                length b = 16%nat /\ uuid_to_string b = map to_lower s.
Proof.
  intros md s r H. destruct (uuid_roundtrip s H) as (b & E & L & S).
  destruct (buffer16 md b r L) as [B1 B2].
  exists b, ([0x11; 19; 0x0A; 16] ++ b). split; [|split; [exact B2|split; [exact L|exact S]]].
  unfold uuid_enc. rewrite E. exact B1.
Qed.

Theorem c16_uuid_refuses :
  forall md s,
    (length s <> 36%nat -> uuid_enc md s = None) /\
    (forall i, In i [8; 13; 18; 23]%nat -> nth i s 0 <> 45 -> uuid_enc md s = None) /\
    (forall i j, In (i, j) uuid_order -> hex_digit (nth i s 0) = None \/ hex_digit (nth j s 0) = None ->
                 uuid_enc md s = None).
Proof.
  intros md s. unfold uuid_enc. repeat split; intros.
  - now rewrite uuid_refuse_length.
  - now rewrite (uuid_refuse_dash s i).
  - now rewrite (uuid_refuse_digit s i j).
Qed.

Example c16_examples :
  eisa_enc [80; 78; 80; 48; 53; 48; 49] = Some [0x0C; 0x41; 0xD0; 0x05; 0x01] /\   (* "PNP0501" *)
  valid_eisa [80; 78; 80; 48; 53; 48; 49] = true.
Proof. vm_compute. split; reflexivity. Qed.

Print Assumptions c16_eisa.
Print Assumptions c16_eisa_refuses.
Print Assumptions c16_uuid.
Print Assumptions c16_uuid_refuses.
