(* Option builders: a flag field is the union of the bits of the options invoked, in any order and any number of times
   (`big_or`; over a mapped list of calls: its bound, which calls gate a bit, the one-bit flag), and setting/or-ing one field
   leaves every other field alone (C11, generic part). *)
From Coq Require Import ZArith List Lia Bool.
From ACPI Require Import Impl.Fields Proofs.BitsP.
Import ListNotations.
Open Scope N_scope.

Definition big_or (l : list N) : N := fold_right N.lor 0 l.

Lemma fold_lor_big l : forall a, fold_left N.lor l a = N.lor a (big_or l).
Proof.
  induction l as [|x l IH]; intros a; cbn [fold_left big_or fold_right]; [now rewrite N.lor_0_r|].
  rewrite IH. fold (big_or l). now rewrite N.lor_assoc.
Qed.

Lemma big_or_testbit l k : N.testbit (big_or l) k = existsb (fun x => N.testbit x k) l.
Proof.
  induction l as [|x l IH]; cbn [big_or fold_right existsb]; [apply N.bits_0|].
  fold (big_or l). rewrite N.lor_spec, IH. reflexivity.
Qed.

Lemma fold_lor_testbit l a k : N.testbit (fold_left N.lor l a) k = N.testbit a k || existsb (fun x => N.testbit x k) l.
Proof. now rewrite fold_lor_big, N.lor_spec, big_or_testbit. Qed.

(* only WHICH options were invoked matters: same set of options, same field -- whatever the order and the repetitions *)
Lemma big_or_same_set l1 l2 : (forall x, In x l1 <-> In x l2) -> big_or l1 = big_or l2.
Proof.
  intros H. apply N.bits_inj. intros k. rewrite !big_or_testbit.
  apply eq_true_iff_eq. rewrite !existsb_exists. split; intros (x & Hx & Hb); exists x; (split; [apply H; exact Hx|exact Hb]).
Qed.

(* order and repetitions do not matter: the fold depends only on the set of bits *)
Theorem lor_fold_set l l' a : (forall x, In x l <-> In x l') -> fold_left N.lor l a = fold_left N.lor l' a.
Proof. intros Hs. rewrite !fold_lor_big. f_equal. now apply big_or_same_set. Qed.

(* a bit is set in the union iff some invoked option carries it: distinct single-bit options stay distinguishable *)
Lemma big_or_bit l k : N.testbit (big_or l) k = true <-> exists x, In x l /\ N.testbit x k = true.
Proof. rewrite big_or_testbit. apply existsb_exists. Qed.

Lemma big_or_map_lt {A} (bit : A -> N) n (l : list A) : (forall o, bit o < 2 ^ n) -> big_or (map bit l) < 2 ^ n.
Proof.
  intros H. induction l as [|x l IH]; cbn [map big_or fold_right].
  - apply N.neq_0_lt_0, N.pow_nonzero. discriminate.
  - apply lor_lt; [apply H|exact IH].
Qed.

(* reading a union back through a field of n bits *)
Lemma lor_mod a b n : N.lor a b mod 2 ^ n = N.lor (a mod 2 ^ n) (b mod 2 ^ n).
Proof. now rewrite <- !N.land_ones, N.land_lor_distr_l. Qed.

(* gating: when exactly the calls satisfying [p] carry bit k, the bit of the union tells whether such a call was made *)
Lemma big_or_gate {A} (bit : A -> N) (p : A -> bool) k (l : list A) :
  (forall o, N.testbit (bit o) k = p o) -> N.testbit (big_or (map bit l)) k = existsb p l.
Proof.
  intros H. induction l as [|x l IH]; cbn [map big_or fold_right existsb]; [apply N.bits_0|].
  rewrite N.lor_spec, H. f_equal. exact IH.
Qed.

(* a one-bit flag: set iff some call of the kind [p] was made *)
Lemma big_or_if {A} (p : A -> bool) b (l : list A) :
  big_or (map (fun o => if p o then b else 0) l) = if existsb p l then b else 0.
Proof.
  induction l as [|x l IH]; cbn [map big_or fold_right existsb]; [reflexivity|].
  fold (big_or (map (fun o => if p o then b else 0) l)). rewrite IH.
  destruct (p x), (existsb p l); cbn [orb]; rewrite ?N.lor_diag, ?N.lor_0_r, ?N.lor_0_l; reflexivity.
Qed.

Lemma big_or_zeros {A} (l : list A) : big_or (map (fun _ => 0) l) = 0.
Proof. induction l as [|x l IH]; [reflexivity|]. cbn [map big_or fold_right]. fold (big_or (map (fun _ : A => 0) l)). now rewrite IH. Qed.

Lemma fold_lor_map {A} (bit : A -> N) (l : list A) : forall a,
  fold_left (fun a o => N.lor a (bit o)) l a = N.lor a (big_or (map bit l)).
Proof.
  induction l as [|x l IH]; intros a; cbn [fold_left map big_or fold_right]; [now rewrite N.lor_0_r|].
  rewrite IH. symmetry. apply N.lor_assoc.
Qed.

Lemma fget_fset_same f i v : (i < length f)%nat -> fget (fset f i v) i = v.
Proof.
  revert i; induction f as [|[w x] f IH]; intros [|i] H; cbn [length] in H; try lia; unfold fget in *; cbn [fset nth snd]; [reflexivity|].
  apply IH. lia.
Qed.

Lemma fget_fset_other f i j v : i <> j -> fget (fset f i v) j = fget f j.
Proof.
  revert i j; induction f as [|[w x] f IH]; intros [|i] [|j] H; unfold fget in *; cbn [fset nth snd]; try reflexivity; try congruence.
  apply IH. congruence.
Qed.

Lemma fset_fset f i a b : fset (fset f i a) i b = fset f i b.
Proof.
  revert i; induction f as [|[w x] f IH]; intros [|i]; cbn [fset]; try reflexivity. f_equal. apply IH.
Qed.

(* `|=` on a field is an assignment of the union *)
Lemma f_or_fset f i b : f_or f i b = fset f i (N.lor (fget f i) b).
Proof.
  revert i; induction f as [|[w x] f IH]; intros [|i]; unfold fget in *; cbn [f_or fset nth snd]; try reflexivity.
  f_equal. apply IH.
Qed.

Lemma fget_f_or_same f i b : (i < length f)%nat -> fget (f_or f i b) i = N.lor (fget f i) b.
Proof. intros H. rewrite f_or_fset. now apply fget_fset_same. Qed.

Lemma fget_f_or_other f i j b : i <> j -> fget (f_or f i b) j = fget f j.
Proof. intros H. rewrite f_or_fset. now apply fget_fset_other. Qed.

Lemma length_f_or f i b : length (f_or f i b) = length f.
Proof. revert i; induction f as [|[w x] f IH]; intros [|i]; cbn [f_or length]; auto. Qed.

(* or-ing a sequence of option bits into field i: the field becomes the union, every other field is untouched *)
Lemma fold_f_or f i bits : (i < length f)%nat ->
  fget (fold_left (fun g b => f_or g i b) bits f) i = N.lor (fget f i) (big_or bits) /\
  forall j, j <> i -> fget (fold_left (fun g b => f_or g i b) bits f) j = fget f j.
Proof.
  revert f; induction bits as [|b bits IH]; intros f H; cbn [fold_left big_or fold_right].
  - split; [now rewrite N.lor_0_r|reflexivity].
  - destruct (IH (f_or f i b)) as [H1 H2]; [rewrite length_f_or; exact H|]. fold (big_or bits). split.
    + rewrite H1, fget_f_or_same by exact H. now rewrite N.lor_assoc.
    + intros j Hj. rewrite H2 by exact Hj. apply fget_f_or_other. congruence.
Qed.

(* the serialised image depends on the field values only *)
Lemma ser_flds_ext f g : map fst f = map fst g -> (forall j, fget f j = fget g j) -> ser_flds f = ser_flds g.
Proof.
  revert g; induction f as [|[w x] f IH]; intros [|[w' x'] g] Hw Hv; try discriminate; [reflexivity|].
  cbn [map fst] in Hw. inversion Hw; subst. unfold ser_flds. cbn [map concat fst snd].
  pose proof (Hv 0%nat) as H0. unfold fget in H0. cbn [nth snd] in H0. subst x'.
  f_equal. apply IH; [assumption|]. intros j. specialize (Hv (S j)). unfold fget in *. exact Hv.
Qed.
