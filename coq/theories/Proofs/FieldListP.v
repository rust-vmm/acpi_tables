(* C06 support: the two constructors whose payload is not a list of AML objects.
   - DefField: the FieldFlags byte and the FieldList (entries with PkgLength in the exclusive form): the Spec's
     [parse_fields] inverts the concatenation of [enc_fentry].
   - ResourceTemplate: the payload of the Buffer is the concatenation of the descriptors' bytes and the end tag. *)
From Coq Require Import NArith List Lia.
From ACPI Require Import Lib.Bytes Impl.AmlCore Impl.AmlTerm Spec.AmlCoreS Spec.AmlTermS
  Proofs.BitsP Proofs.PkgLenP Proofs.PathP.
Import ListNotations.
Open Scope N_scope.

Definition fentry_gt (e : fentry) : gt :=
  match e with FNamed name len => GField name len | FReserved len => GField [] len end.

(* a named field is a NameSeg (4 characters, the first a lead name character: in particular not 0, which is how the
   grammar tells a NamedField from a ReservedField); the width must be encodable as a PkgLength (28 bits) *)
Definition wf_fentry (e : fentry) : Prop :=
  match e with
  | FNamed name len => is_nameseg name = true /\ len < 2 ^ 28
  | FReserved len => len < 2 ^ 28
  end.

Lemma lead_name_char_nonzero a : is_lead_name_char a = true -> (a =? 0) = false.
Proof.
  unfold is_lead_name_char. intros H. apply N.eqb_neq. intros ->. discriminate H.
Qed.

Lemma parse_fields_nil n : parse_fields n [] = Some [].
Proof. destruct n; reflexivity. Qed.

Lemma parse_fields_entry md e be :
  wf_fentry e -> enc_fentry md e = Some be ->
  (0 < length be)%nat /\
  forall n rest fs, parse_fields n rest = Some fs -> parse_fields (S n) (be ++ rest) = Some (fentry_gt e :: fs).
Proof.
  assert (H28 : 2 ^ 28 < 2 ^ 63) by reflexivity.
  destruct e as [name len|len]; cbn [enc_fentry wf_fentry fentry_gt]; intros We Ee;
    (destruct (pkg_len md len false) as [pl|] eqn:Ep; [|discriminate]); injection Ee as <-.
  - destruct We as [Hs Hl]. destruct (nameseg_shape name Hs) as (a & b & c & d & -> & Ha & _).
    split; [cbn [app length]; lia|]. intros n rest fs Hr.
    destruct (pkg_len_excl_correct md len pl rest (N.lt_trans _ _ _ Hl H28) Ep) as [Hd _].
    rewrite <- app_assoc. cbn [app parse_fields]. rewrite (lead_name_char_nonzero a Ha), Hs, Hd, Hr. reflexivity.
  - split; [cbn [length]; lia|]. intros n rest fs Hr.
    destruct (pkg_len_excl_correct md len pl rest (N.lt_trans _ _ _ We H28) Ep) as [Hd _].
    cbn [app parse_fields]. change (0 =? 0) with true. cbv iota. rewrite Hd, Hr. reflexivity.
Qed.

(* the fuel only has to cover the byte count: no entry is empty *)
Lemma parse_fields_concat md : forall es bytes n,
  Forall wf_fentry es -> opt_concat_map (enc_fentry md) es = Some bytes -> (length bytes <= n)%nat ->
  parse_fields n bytes = Some (map fentry_gt es).
Proof.
  induction es as [|e es IH]; intros bytes n HF He Hn.
  - injection He as <-. apply parse_fields_nil.
  - inversion HF as [|? ? We Wes]; subst. cbn [opt_concat_map] in He.
    destruct (enc_fentry md e) as [be|] eqn:Ee; [|discriminate].
    destruct (opt_concat_map (enc_fentry md) es) as [br|] eqn:Er; [|discriminate]. injection He as <-.
    destruct (parse_fields_entry md e be We Ee) as [Hpos Hstep]. rewrite app_length in Hn.
    destruct n as [|n]; [lia|]. apply Hstep, IH; [exact Wes|reflexivity|lia].
Qed.

Definition desc_child (t : term) : Prop := exists d, t = TDesc d.
Definition desc_bytes (t : term) : option (list N) := match t with TDesc d => enc_desc d | _ => None end.

(* payload of the template's Buffer: the descriptors, then the end tag (0x79) with a zero checksum byte *)
Definition template_payload (ks : list term) : option (list N) :=
  match map_opt desc_bytes ks with
  | Some ds => Some (concat ds ++ [0x79; 0x00])
  | None => None
  end.

Lemma encs_template md ks eks :
  Forall desc_child ks -> opt_concat_map (enc md) ks = Some eks -> template_payload ks = Some (eks ++ [0x79; 0x00]).
Proof.
  unfold template_payload. revert eks. induction ks as [|k ks IH]; intros eks HF He.
  - inversion He; subst. reflexivity.
  - inversion HF as [|? ? [d ->] Hks]; subst. cbn [opt_concat_map] in He.
    cbn [enc] in He. cbn [map_opt desc_bytes].
    destruct (enc_desc d) as [bd|] eqn:Ed; [|discriminate]. cbn [option_bind] in He.
    destruct (opt_concat_map (enc md) ks) as [er|] eqn:Er; [|discriminate]. cbn [option_bind] in He. inversion He; subst eks.
    specialize (IH er Hks eq_refl).
    destruct (map_opt desc_bytes ks) as [ds|]; [|discriminate]. inversion IH as [H0].
    cbn [concat]. rewrite <- !app_assoc. rewrite H0. reflexivity.
Qed.
