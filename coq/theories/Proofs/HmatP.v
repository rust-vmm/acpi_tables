(* HMAT: the table-specific obligations of the generic history invariant, and the cell property of the
   System Locality matrix (C12): row-major with stride = number of targets, last writer wins, default 0xFFFF. *)
From Coq Require Import NArith List Lia.
From ACPI Require Import Lib.Bytes Lib.Sx Lib.Machine Impl.Table Impl.Hmat Spec.Layout Spec.HmatS Proofs.TableP
  Proofs.Tables Proofs.BaseP Proofs.WalkRefCommon2P Proofs.HmatStructP.
Import ListNotations.

Open Scope N_scope.

Lemma hmat_new_inv c s0 : hmat_new c = Some s0 -> Inv2 KHmat s0.
Proof. intros H. exact (plain_new_inv KHmat _ _ c s0 H eq_refl). Qed.

Lemma hmat_addition_sound md s o e : t_kind s = KHmat -> hmat_addition md s o = Some e ->
  a_claimed e = N.of_nat (length (a_bytes e)) /\
  (needs_pos (t_kind s) = true -> (1 <= length (a_bytes e))%nat /\ a_claimed e < 2 ^ 16).
Proof.
  intros Hk H. split; [|rewrite Hk; discriminate].
  apply hmat_addition_cases in H as (d & _ & _ & ->). cbn [hmat_struct_addition hmat_add a_claimed a_bytes].
  rewrite hmat_struct_claimed_size, hmat_struct_length. reflexivity.
Qed.

(* one record per build profile: the profile only matters for the usize product of SystemLocality::new *)
Definition hmat_table (md : mode) : addtable :=
  {| at_name := [72; 77; 65; 84]; at_kind := KHmat; at_new := hmat_new; at_entry := hmat_addition md;
     at_new_inv := hmat_new_inv; at_sound := hmat_addition_sound md |}.

(* the last value assigned to (i, j) by a sequence of set_entry_value(i', j', v) calls; d if never assigned *)
Fixpoint last_assigned (i j : N) (ops : list (N * N * N)) (d : N) : N :=
  match ops with
  | [] => d
  | (i', j', v) :: r => last_assigned i j r (if (i' =? i) && (j' =? j) then v else d)
  end.

Fixpoint set_entries (s : sysloc) (ops : list (N * N * N)) : option sysloc :=
  match ops with
  | [] => Some s
  | (i, j, v) :: r => match sysloc_set_entry s i j v with Some s' => set_entries s' r | None => None end
  end.

Definition nI (s : sysloc) : N := hm_len (sl_inits s).
Definition nT (s : sysloc) : N := hm_len (sl_targets s).
Definition cell (s : sysloc) (i j : N) : N := nth (N.to_nat (i * nT s + j)) (sl_entries s) 0.
Definition shape_ok (s : sysloc) : Prop := hm_len (sl_entries s) = nI s * nT s.
Definition in_range (s : sysloc) (o : N * N * N) : Prop := fst (fst o) < nI s /\ snd (fst o) < nT s.

(* row-major indexing with stride T is injective on in-range pairs (Euclidean uniqueness) *)
Lemma index_inj T i j i' j' : j < T -> j' < T -> i * T + j = i' * T + j' -> i = i' /\ j = j'.
Proof. intros H1 H2 H. apply (N.div_mod_unique T i i' j j' H1 H2). lia. Qed.

Lemma index_lt I T i j : i < I -> j < T -> i * T + j < I * T.
Proof. intros H1 H2. nia. Qed.

Lemma set_entry_spec s i j v : shape_ok s -> i < nI s -> j < nT s ->
  exists s', sysloc_set_entry s i j v = Some s' /\ shape_ok s' /\ nI s' = nI s /\ nT s' = nT s /\
    sl_flags s' = sl_flags s /\ sl_inits s' = sl_inits s /\ sl_targets s' = sl_targets s /\
    forall i' j', i' < nI s -> j' < nT s -> cell s' i' j' = if (i =? i') && (j =? j') then v else cell s i' j'.
Proof.
  intros Hs Hi Hj. unfold sysloc_set_entry, nI, nT in *.
  apply N.ltb_lt in Hi as Hi'. apply N.ltb_lt in Hj as Hj'. rewrite Hi', Hj'. cbn [andb assert option_bind].
  pose proof (index_lt _ _ _ _ Hi Hj) as Hidx.
  unfold hm_vec_set. unfold shape_ok, nI, nT in Hs. rewrite Hs.
  apply N.ltb_lt in Hidx as Hidx'. rewrite Hidx'. cbn [option_bind].
  eexists. split; [reflexivity|].
  unfold shape_ok, nI, nT, cell. cbn [sl_with_entries sl_inits sl_targets sl_entries sl_flags].
  assert (Hlen : (N.to_nat (i * hm_len (sl_targets s) + j) < length (sl_entries s))%nat).
  { unfold hm_len in *. lia. }
  repeat split.
  - unfold hm_len in *. rewrite length_upd. exact Hs.
  - intros i' j' Hi2 Hj2.
    destruct (N.eqb_spec i i') as [->|Hne]; [destruct (N.eqb_spec j j') as [->|Hne]|]; cbn [andb].
    + apply nth_upd_same. exact Hlen.
    + apply nth_upd_other. intros Heq. apply N2Nat.inj in Heq.
      destruct (index_inj _ _ _ _ _ Hj Hj2 Heq). congruence.
    + apply nth_upd_other. intros Heq. apply N2Nat.inj in Heq.
      destruct (index_inj _ _ _ _ _ Hj Hj2 Heq). congruence.
Qed.

(* C12 for the HMAT: after any sequence of in-range assignments -- every one of which is accepted -- the cell
   (i, j), at row-major index i * T + j, holds the last value assigned to (i, j), else what it held before *)
Theorem sysloc_cells ops : forall s, shape_ok s -> Forall (in_range s) ops ->
  exists s', set_entries s ops = Some s' /\ shape_ok s' /\ nI s' = nI s /\ nT s' = nT s /\
    sl_flags s' = sl_flags s /\ sl_inits s' = sl_inits s /\ sl_targets s' = sl_targets s /\
    forall i j, i < nI s -> j < nT s -> cell s' i j = last_assigned i j ops (cell s i j).
Proof.
  induction ops as [|[[i0 j0] v0] r IH]; intros s Hs Hr.
  - exists s. cbn [set_entries last_assigned]. repeat split; auto.
  - inversion Hr as [|x l [Hi Hj] Hr']; subst. cbn [fst snd] in Hi, Hj.
    destruct (set_entry_spec s i0 j0 v0 Hs Hi Hj) as (s1 & E1 & Hs1 & HI1 & HT1 & Hf1 & Hin1 & Htg1 & Hc1).
    assert (Hr1 : Forall (in_range s1) r).
    { eapply Forall_impl; [|exact Hr']. intros o [H1 H2]. unfold in_range. rewrite HI1, HT1. split; assumption. }
    destruct (IH s1 Hs1 Hr1) as (s' & E' & Hs' & HI' & HT' & Hf' & Hin' & Htg' & Hc').
    exists s'. cbn [set_entries]. rewrite E1. split; [exact E'|].
    split; [exact Hs'|]. split; [congruence|]. split; [congruence|]. split; [congruence|]. split; [congruence|].
    split; [congruence|].
    intros i j Hi2 Hj2. cbn [last_assigned]. rewrite Hc' by (rewrite ?HI1, ?HT1; assumption).
    rewrite Hc1 by assumption. reflexivity.
Qed.

Lemma sysloc_new_spec md lt dt mts unit ni nt s : sysloc_new md lt dt mts unit ni nt = Some s -> ni * nt < U64 ->
  shape_ok s /\ nI s = ni /\ nT s = nt /\ forall i j, i < ni -> j < nt -> cell s i j = 0xFFFF.
Proof.
  intros H Hfit. rewrite (sysloc_new_exact md lt dt mts unit ni nt Hfit) in H. apply Some_inj in H. subst s.
  unfold shape_ok, cell, nI, nT, hm_len. cbn [sl_entries sl_inits sl_targets].
  rewrite !length_repeatN, !N2Nat.id. repeat split.
  intros i j Hi Hj. apply nth_repeatN. pose proof (index_lt _ _ _ _ Hi Hj). lia.
Qed.

Corollary sysloc_fresh_cells md lt dt mts unit ni nt s ops : sysloc_new md lt dt mts unit ni nt = Some s -> ni * nt < U64 ->
  Forall (fun o => fst (fst o) < ni /\ snd (fst o) < nt) ops ->
  exists s', set_entries s ops = Some s' /\
    forall i j, i < ni -> j < nt -> cell s' i j = last_assigned i j ops 0xFFFF.
Proof.
  intros Hn Hfit Hr. destruct (sysloc_new_spec _ _ _ _ _ _ _ _ Hn Hfit) as (Hs & HI & HT & Hd).
  destruct (sysloc_cells ops s Hs) as (s' & E & _ & _ & _ & _ & _ & _ & Hc).
  { eapply Forall_impl; [|exact Hr]. intros o H. unfold in_range. rewrite HI, HT. exact H. }
  exists s'. split; [exact E|]. intros i j Hi Hj. rewrite Hc by (rewrite ?HI, ?HT; assumption).
  rewrite Hd by assumption. reflexivity.
Qed.

(* C12 on the bytes: the u16 at matrix index k behind the fixed part and the two domain lists is entry k *)
Theorem sysloc_bytes_cell s k : (k < length (sl_entries s))%nat ->
  field_at (sysloc_bytes s) (32 + 4 * length (sl_inits s) + 4 * length (sl_targets s) + 2 * k) 2 = nth k (sl_entries s) 0 mod 2 ^ 16.
Proof.
  intros Hk. destruct (hmat_struct_split (HSysloc s)) as (fixed & Hfx & E).
  cbn [hmat_struct_bytes hmat_struct_head_size hmat_struct_tail] in Hfx, E. rewrite E, !app_assoc.
  replace (32 + 4 * length (sl_inits s) + 4 * length (sl_targets s) + 2 * k)%nat
    with (length ((fixed ++ arr 4 (sl_inits s)) ++ arr 4 (sl_targets s)) + 2 * k)%nat by (rewrite !app_length, !length_arr, Hfx; lia).
  rewrite field_at_app_r, <- (app_nil_r (arr 2 (sl_entries s))).
  exact (field_at_arr 2 (sl_entries s) [] k _ (nth_error_nth' _ 0 Hk)).
Qed.

(* the builder loop of the model performs exactly these assignments *)
Lemma sysloc_builders_set_entries ops : forall s,
  sysloc_builders s (map (fun o => SL [SA 5; SA (fst (fst o)); SA (snd (fst o)); SA (snd o)]) ops) = set_entries s ops.
Proof.
  induction ops as [|[[i j] v] r IH]; intros s; cbn [map sysloc_builders set_entries fst snd]; [reflexivity|].
  cbn [sysloc_builder]. destruct (sysloc_set_entry s i j v); [apply IH|reflexivity].
Qed.
