(* HEST: the table-specific obligations of the generic history invariant; the error source an operation adds (`hest_src`,
   `hest_op`: how both entry functions, `hest_entry` and the specification's `hest_entry_ref`, read an operation) and that it
   serialises to a structure of its type code and of the size of that type (`hest_src_struct`; self-description and the
   reference's self-check start from it); the relation between the history runner of the HEST component (which also carries the
   stand-alone structures) and the generic addition runner. *)
From Coq Require Import ZArith List Lia.
From ACPI Require Import Lib.Bytes Lib.Sx Impl.Table Impl.Fields Impl.Madt Impl.Gas Impl.Hest Spec.Layout Spec.SelfCheck Proofs.TableP
  Proofs.FixedP Proofs.Tables Proofs.BaseP.
Import ListNotations.
Open Scope N_scope.

Lemma hest_new_inv c s0 : hest_new c = Some s0 -> Inv2 KHest s0.
Proof. intros H. exact (plain_new_inv KHest _ _ c s0 H eq_refl). Qed.

(* add_structure passes t.as_bytes() to update_header, whose length is data.len(): claimed = written, for every source *)
Lemma hest_addition_sound s o e : t_kind s = KHest -> hest_addition s o = Some e ->
  a_claimed e = N.of_nat (length (a_bytes e)) /\
  (needs_pos (t_kind s) = true -> (1 <= length (a_bytes e))%nat /\ a_claimed e < 2 ^ 16).
Proof.
  intros Hk. unfold hest_addition.
  destruct (hest_entry o); [|discriminate]. cbn [option_bind]. intros H. inversion H; subst; cbn [a_claimed a_bytes].
  split; [reflexivity|]. rewrite Hk. discriminate.
Qed.

Definition hest_table : addtable :=
  {| at_name := [72; 69; 83; 84]; at_kind := KHest; at_new := hest_new; at_entry := hest_addition;
     at_new_inv := hest_new_inv; at_sound := hest_addition_sound |}.

(* The error source an operation adds, `add_structure(T::new(..).setter(..)...)`: the structure type T (as its type code), the
   constructor's arguments and the setter calls.  Both `hest_entry` and the specification's `hest_entry_ref` read an operation
   this way (`hest_entry_cases` here, `hest_entry_ref_cases` in HestRefP.v). *)
Inductive hest_src : Type :=
| SrcAer (ty : N) (c : sx) (st : list sx)
| SrcGhes (ty id en : N) (st : list sx).

Inductive hest_op : sx -> hest_src -> Prop :=
| OpRootPort c st : hest_op (SL [SA 1; c; SL st]) (SrcAer 6 c st)
| OpDevice c st : hest_op (SL [SA 2; c; SL st]) (SrcAer 7 c st)
| OpBridge c st : hest_op (SL [SA 3; c; SL st]) (SrcAer 8 c st)
| OpGhes id en st : hest_op (SL [SA 4; SA id; SA en; SL st]) (SrcGhes 9 id en st)
| OpGhesV2 id en st : hest_op (SL [SA 5; SA id; SA en; SL st]) (SrcGhes 10 id en st).

Definition hest_src_ty (d : hest_src) : N := match d with SrcAer ty _ _ | SrcGhes ty _ _ _ => ty end.

Definition hest_src_ok (d : hest_src) : Prop :=
  match d with SrcAer ty _ _ => ty = 6 \/ ty = 7 \/ ty = 8 | SrcGhes ty _ _ _ => ty = 9 \/ ty = 10 end.

Definition hest_src_flds (d : hest_src) : option flds :=
  match d with
  | SrcAer ty c st => do f0 <- aer_new ty c; apply_setters (aer_setter ty) f0 st
  | SrcGhes ty id en st => apply_setters (ghes_setter ty) (ghes_new ty id en) st
  end.

Lemma hest_op_ok o d : hest_op o d -> hest_src_ok d.
Proof. intros []; cbn [hest_src_ok]; auto. Qed.

Lemma hest_op_entry o d : hest_op o d -> hest_entry o = hest_src_flds d.
Proof. intros []; reflexivity. Qed.

Lemma hest_entry_cases o f : hest_entry o = Some f -> exists d, hest_op o d /\ hest_src_flds d = Some f.
Proof. unfold hest_entry. intros H. break_sx H; eexists; (split; [constructor|exact H]). Qed.

Definition hest_struct (ty : N) (e : list N) : Prop := field_at e 0 2 = ty /\ hest_size ty = Some (length e).

Lemma hest_size_bounds ty n : hest_size ty = Some n -> ty < 2 ^ 16 /\ (2 <= n)%nat.
Proof.
  unfold hest_size. intros H. destruct ty as [|p]; [discriminate H|].
  do 4 (try (destruct p as [p|p|]; try discriminate H)); apply Some_inj in H; subst n; (split; [reflexivity|lia]).
Qed.

(* what the setters keep of a packed structure: its u16 type code (field 0) and its serialised size *)
Definition head_ty (f : flds) : option N := match f with (2%nat, t) :: _ => Some t | _ => None end.
Definition fshape (f : flds) : option N * nat := (head_ty f, length (ser_flds f)).

Lemma fshape_struct f ty n : fshape f = (Some ty, n) -> hest_size ty = Some n -> hest_struct ty (ser_flds f).
Proof.
  intros H Hs. injection H as Hh <-. split; [|exact Hs].
  destruct f as [|[[|[|[|w]]] t] r]; try discriminate Hh. apply Some_inj in Hh. subst t.
  unfold field_at, ser_flds. cbn [map concat fst snd skipn]. rewrite firstn_le_app, unle_le.
  apply N.mod_small. exact (proj1 (hest_size_bounds _ _ Hs)).
Qed.

Lemma fset_fshape f i v : (1 <= i)%nat -> fshape (fset f i v) = fshape f.
Proof.
  intros H. unfold fshape. rewrite !ser_flds_length, flds_len_fset. f_equal.
  destruct f as [|[w0 v0] r]; destruct i as [|i]; try lia; reflexivity.
Qed.

Lemma fset_seq_fshape vals : forall f i, (1 <= i)%nat -> fshape (fset_seq f i vals) = fshape f.
Proof.
  induction vals as [|v vals IH]; intros f i Hi; cbn [fset_seq]; [reflexivity|].
  rewrite IH by lia. now apply fset_fshape.
Qed.

Lemma apply_setters_fshape (setter : flds -> sx -> option flds) :
  (forall f o f', setter f o = Some f' -> fshape f' = fshape f) ->
  forall l f f', apply_setters setter f l = Some f' -> fshape f' = fshape f.
Proof.
  intros Hs l f f' H. rewrite apply_setters_builders in H.
  apply (apply_builders_inv setter (fun g => fshape g = fshape f)) in H; [exact H| |reflexivity].
  intros x o x' H1 E. rewrite (Hs _ _ _ E). exact H1.
Qed.

Lemma aer_setter_fshape ty f o f' : aer_setter ty f o = Some f' -> fshape f' = fshape f.
Proof.
  unfold aer_setter. intros H. split_matches H; try (inversion H; subst; clear H); apply fset_fshape; lia.
Qed.

Lemma notif_setter_length f o f' : notif_setter f o = Some f' -> length (ser_flds f') = length (ser_flds f).
Proof.
  unfold notif_setter. intros H. split_matches H; try (inversion H; subst; clear H);
    now rewrite !ser_flds_length, flds_len_fset.
Qed.

Lemma ghes_setter_fshape ty f o f' : ghes_setter ty f o = Some f' -> fshape f' = fshape f.
Proof.
  unfold ghes_setter. intros H. split_matches H; try (inversion H; subst; clear H);
    first [apply fset_fshape; lia | apply fset_seq_fshape; lia].
Qed.

Lemma aer_new_fshape ty c f : aer_new ty c = Some f ->
  fshape f = (Some ty, (44 + length (ser_flds (aer_tail ty)))%nat).
Proof.
  unfold aer_new. intros H. split_matches H; try (inversion H; subst; clear H); reflexivity.
Qed.

(* the sizes `hest_size` lists (6 -> 48, 7 -> 44, 8 -> 56, 9 -> 64, 10 -> 92, from SPEC_NOTES) are the sizes the constructors lay
   out: each is compared by evaluation, once per type *)
Lemma hest_src_struct d f : hest_src_ok d -> hest_src_flds d = Some f -> hest_struct (hest_src_ty d) (ser_flds f).
Proof.
  destruct d as [ty c st|ty id en st]; cbn [hest_src_ok hest_src_flds hest_src_ty]; intros Hty H.
  - apply bind_Some in H as (f0 & E & H).
    pose proof (apply_setters_fshape _ (aer_setter_fshape ty) _ _ _ H) as Hf. rewrite (aer_new_fshape _ _ _ E) in Hf.
    destruct Hty as [->|[->| ->]]; exact (fshape_struct f _ _ Hf eq_refl).
  - pose proof (apply_setters_fshape _ (ghes_setter_fshape ty) _ _ _ H) as Hf.
    destruct Hty as [->| ->]; exact (fshape_struct f _ _ Hf eq_refl).
Qed.

Lemma hest_entry_struct o f : hest_entry o = Some f -> exists ty, hest_struct ty (ser_flds f).
Proof.
  intros H. destruct (hest_entry_cases o f H) as (d & Hop & Hd).
  exists (hest_src_ty d). exact (hest_src_struct d f (hest_op_ok o d Hop) Hd).
Qed.

(* the HEST component also builds stand-alone error-source structures (Spec/HestS.v); they never touch the table, whose
   state after a history is what the generic addition runner reaches on the history without them (`hest_run_tbl`) *)
Fixpoint hest_run (md : mode) (s : hstate) (ops : list sx) : option hstate :=
  match ops with
  | [] => Some s
  | SA _ :: r => hest_run md s r
  | o :: r => match hest_step md s o with Some (s', _) => hest_run md s' r | None => None end
  end.

Lemma hest_run_steps md : forall ops s, hest_run md s ops = run_steps (hest_step md) s ops.
Proof. apply run_steps_unique. intros s [|o r]; reflexivity. Qed.

Lemma hest_run_tbl md ops : forall s s',
  hest_run md s ops = Some s' ->
  run_adds hest_addition md (hs_tbl s) (filter (fun o => negb (is_alone o)) ops) = Some (hs_tbl s').
Proof.
  induction ops as [|o ops IH]; intros s s' H; cbn [hest_run] in H.
  - inversion H; subst. reflexivity.
  - destruct o as [n|l].
    + cbn [filter is_alone negb run_adds]. now apply IH.
    + unfold hest_step in H. destruct (is_alone (SL l)) eqn:Ea; cbn [filter]; rewrite Ea; cbn [negb].
      * destruct (hest_alone (SL l)); [|discriminate]. cbn [option_bind] in H. apply IH in H. exact H.
      * cbn [run_adds]. destruct (add_step hest_addition md (hs_tbl s) (SL l)) as [[t1 evs]|]; [|discriminate].
        cbn [option_bind fst snd] in H. apply IH in H. exact H.
Qed.

(* C01 / C02 for the HEST, whatever stand-alone structures were built in between *)
Theorem hest_history_table md c ops t0 s :
  hest_new c = Some t0 -> hest_run md {| hs_tbl := t0; hs_alone := None |} ops = Some s ->
  N.of_nat (length (tbl_image (hs_tbl s))) < 2 ^ 32 ->
  sum8 (tbl_image (hs_tbl s)) = 0 /\ field_at (tbl_image (hs_tbl s)) 4 4 = N.of_nat (length (tbl_image (hs_tbl s))).
Proof.
  intros Hn Hr. apply hest_run_tbl in Hr. exact (addtable_sum_len hest_table md c _ t0 (hs_tbl s) Hn Hr).
Qed.
